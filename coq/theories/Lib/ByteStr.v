(* Functions on byte strings that several models define, each under a name of its own, with these bodies; the
   lemmas apply to all of them by conversion.  A file that imports one of those models imports it after this one,
   so that the short name is the model's.
   [str_eqb a b], a == b: str_eqb in Model/Auth.v, NodeProto.v and StaticPath.v, list_eqb in HttpFraming.v, beq in
   HttpResponse.v.
   [prefixb p s], s.startswith(p): prefixb in Model/StaticPath.v and NodeProto.v, is_prefix in HttpFraming.v.
   [split_at c s], s.split(c, 1) or s.partition(c) when c occurs: split_at in Model/Auth.v and HttpResponse.v,
   partition_at in Ranges.v. *)
From Coq Require Import List PeanoNat NArith Bool.
Import ListNotations.

Fixpoint str_eqb (a b : list N) : bool :=
  match a, b with
  | [], [] => true
  | x :: a', y :: b' => N.eqb x y && str_eqb a' b'
  | _, _ => false
  end.

Lemma str_eqb_eq : forall a b, str_eqb a b = true <-> a = b.
Proof.
  induction a as [|x a IH]; intros [|y b]; simpl; try easy.
  rewrite andb_true_iff, N.eqb_eq, IH. split; [intros [-> ->]; reflexivity|now intros [= -> ->]].
Qed.

Lemma str_eqb_refl : forall a, str_eqb a a = true.
Proof. intros a. apply str_eqb_eq. reflexivity. Qed.

Lemma str_eqb_false : forall a b, str_eqb a b = false <-> a <> b.
Proof. intros. rewrite <- str_eqb_eq. symmetry. apply not_true_iff_false. Qed.

Lemma str_eqb_neq : forall a b, a <> b -> str_eqb a b = false.
Proof. intros a b. apply str_eqb_false. Qed.

Local Open Scope N_scope.

Fixpoint prefixb (p s : list N) : bool :=
  match p, s with
  | [], _ => true
  | x :: p', y :: s' => (x =? y) && prefixb p' s'
  | _ :: _, [] => false
  end.

Lemma prefixb_iff : forall p s, prefixb p s = true <-> exists r, s = p ++ r.
Proof.
  induction p as [|x p IH]; intros s; simpl.
  - split; eauto.
  - destruct s as [|y s].
    + split; [discriminate|intros [r [=]]].
    + rewrite andb_true_iff, N.eqb_eq, IH. split.
      * intros [-> [r ->]]. eauto.
      * intros [r [= -> ->]]. eauto.
Qed.

Lemma prefixb_app : forall p r, prefixb p (p ++ r) = true.
Proof. intros. apply prefixb_iff. eauto. Qed.

Lemma prefixb_length : forall p s, prefixb p s = true -> (length p <= length s)%nat.
Proof. intros p s H. apply prefixb_iff in H as [r ->]. rewrite app_length. apply Nat.le_add_r. Qed.

Fixpoint split_at (c : N) (s : list N) : option (list N * list N) :=
  match s with
  | [] => None
  | x :: t => if x =? c then Some ([], t)
              else match split_at c t with
                   | Some (a, b) => Some (x :: a, b)
                   | None => None
                   end
  end.

Lemma split_at_app : forall c u t, ~ In c u -> split_at c (u ++ c :: t) = Some (u, t).
Proof.
  intros c. induction u as [|x u IH]; intros t H; simpl.
  - now rewrite N.eqb_refl.
  - destruct (N.eqb_spec x c) as [->|_]; [now destruct H; left|].
    rewrite IH; [reflexivity|]. intro Hin. now apply H; right.
Qed.
