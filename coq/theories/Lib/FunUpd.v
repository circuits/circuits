(* Update of a function on numbers at one argument.  Model/Effects.v, Feedback.v, KTree.v (on its [comp], which is
   nat), Wake.v and HttpRobust.v (at its [tables], which is nat -> conn) each define it under the name [upd], with
   this body; as closed terms they are convertible with [upd] here, so [rewrite] with the two lemmas acts on each
   of them.  A file that imports a model as well imports it
   after this one, so that the short name is the model's.  The type is no implicit argument of the lemmas: as one,
   it would be fixed once for all the clauses of a [rewrite ... in H |- *]. *)
From Coq Require Import Arith.

Definition upd {A} (f : nat -> A) (i : nat) (v : A) : nat -> A :=
  fun j => if Nat.eqb j i then v else f j.

Lemma upd_same : forall A (f : nat -> A) i v, upd f i v i = v.
Proof. intros. unfold upd. rewrite Nat.eqb_refl. reflexivity. Qed.

Lemma upd_other : forall A (f : nat -> A) i v j, j <> i -> upd f i v j = f j.
Proof. intros A f i v j N. unfold upd. apply Nat.eqb_neq in N. rewrite N. reflexivity. Qed.
