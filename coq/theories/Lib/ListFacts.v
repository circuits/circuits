(* [NoDup] of an append; [In] and [NoDup] of a list with one element added at its end; two equal appends;
   [firstn], [skipn] and [nth_error] within the first part of an append; [StronglySorted] of an append; lists
   whose elements have pairwise different keys; when [length (filter P l)] is positive or zero. *)
From Coq Require Import List Lia PeanoNat Sorted.
Import ListNotations.

Lemma in_snoc : forall (A : Type) (l : list A) x y, In y (l ++ [x]) <-> In y l \/ y = x.
Proof. intros. rewrite in_app_iff. simpl. intuition. Qed.

Lemma NoDup_app_iff : forall (A : Type) (a b : list A),
  NoDup (a ++ b) <-> NoDup a /\ NoDup b /\ (forall x, In x a -> ~ In x b).
Proof.
  intros A a b. induction a as [|y a IH]; simpl.
  - split; [intros H; repeat split; [constructor|exact H|intros x []]|tauto].
  - rewrite !NoDup_cons_iff, IH, in_app_iff. split.
    + intros (Hy & Ha & Hb & Hd). repeat split; try tauto. intros x [<-|Hx]; [tauto|exact (Hd x Hx)].
    + intros ((Hy & Ha) & Hb & Hd). repeat split; try tauto.
      * intros [H|H]; [exact (Hy H)|exact (Hd y (or_introl eq_refl) H)].
      * intros x Hx. apply Hd. right. exact Hx.
Qed.

Lemma NoDup_app_intro : forall (A : Type) (a b : list A),
  NoDup a -> NoDup b -> (forall x, In x a -> ~ In x b) -> NoDup (a ++ b).
Proof. intros. apply NoDup_app_iff. auto. Qed.

Lemma NoDup_snoc_iff : forall (A : Type) (l : list A) x, NoDup (l ++ [x]) <-> NoDup l /\ ~ In x l.
Proof.
  intros A l x. rewrite NoDup_app_iff. split.
  - intros (Hl & _ & Hd). split; [exact Hl|]. intros Hx. apply (Hd x Hx). left. reflexivity.
  - intros (Hl & Hx). repeat split; [exact Hl|repeat constructor; intros []|].
    intros y Hy [<-|[]]. exact (Hx Hy).
Qed.

Lemma NoDup_snoc : forall (A : Type) (l : list A) x, NoDup l -> ~ In x l -> NoDup (l ++ [x]).
Proof. intros. apply NoDup_snoc_iff. auto. Qed.

(* a ++ b = c ++ d: the cut after [a] falls strictly inside [c], or at its end or later *)
Lemma app_cut : forall (A : Type) (a b c d : list A), a ++ b = c ++ d ->
  (exists l, l <> [] /\ c = a ++ l /\ b = l ++ d) \/ (exists l, a = c ++ l /\ d = l ++ b).
Proof.
  intros A a b c d H. apply app_eq_app in H. destruct H as [l [[-> ->]|[-> ->]]].
  - right. exists l. split; reflexivity.
  - destruct l as [|x l].
    + right. exists []. rewrite !app_nil_r. split; reflexivity.
    + left. exists (x :: l). split; [discriminate|split; reflexivity].
Qed.

Lemma firstn_app_le {A} (l x : list A) n : (n <= length l)%nat -> firstn n (l ++ x) = firstn n l.
Proof. intros H. rewrite firstn_app. replace (n - length l)%nat with 0%nat by lia. cbn. apply app_nil_r. Qed.
Lemma skipn_app_le {A} (l x : list A) n : (n <= length l)%nat -> skipn n (l ++ x) = skipn n l ++ x.
Proof. intros H. rewrite skipn_app. replace (n - length l)%nat with 0%nat by lia. reflexivity. Qed.

Lemma nth_error_app_l : forall {A : Type} (l m : list A) i x, nth_error l i = Some x -> nth_error (l ++ m) i = Some x.
Proof. intros A l m i x H. rewrite nth_error_app1; [exact H|]. apply nth_error_Some. congruence. Qed.

Lemma SSorted_app_iff : forall (A : Type) (R : A -> A -> Prop) (a b : list A),
  StronglySorted R (a ++ b) <->
  StronglySorted R a /\ StronglySorted R b /\ (forall x y, In x a -> In y b -> R x y).
Proof.
  intros A R a b. induction a as [|z a IH]; simpl.
  - split; [intros H; repeat split; [constructor|exact H|intros x y []]|tauto].
  - split.
    + intros H. inversion H as [|? ? S F]; subst. apply IH in S as (Sa & Sb & C).
      apply Forall_app in F as [Fa Fb]. rewrite Forall_forall in Fb.
      repeat split; [constructor; assumption|exact Sb|]. intros x y [<-|Hx] Hy; auto.
    + intros (Sa & Sb & C). inversion Sa as [|? ? S F]; subst. constructor.
      * apply IH. repeat split; auto.
      * apply Forall_app. split; [exact F|]. apply Forall_forall. auto.
Qed.

Lemma SSorted_snoc : forall (A : Type) (R : A -> A -> Prop) l x,
  StronglySorted R l -> (forall y, In y l -> R y x) -> StronglySorted R (l ++ [x]).
Proof.
  intros A R l x S H. apply SSorted_app_iff. repeat split; [exact S|repeat constructor|].
  intros y z Hy [<-|[]]. exact (H y Hy).
Qed.

Lemma SSorted_remove_mid : forall (A : Type) (R : A -> A -> Prop) a x b,
  StronglySorted R (a ++ x :: b) -> StronglySorted R (a ++ b).
Proof.
  intros A R a x b H. apply SSorted_app_iff in H as (Sa & Sb & C). inversion Sb; subst.
  apply SSorted_app_iff. repeat split; auto. intros y z Hy Hz. apply C; [exact Hy|right; exact Hz].
Qed.

(* pairwise different keys: the key determines the element, and [find] by the key of an element returns it *)
Lemma NoDup_map_eq : forall (A B : Type) (f : A -> B) l a b,
  NoDup (map f l) -> In a l -> In b l -> f a = f b -> a = b.
Proof.
  intros A B f l a b. induction l as [|c l IH]; intros N Ha Hb E; [destruct Ha|].
  inversion N as [|? ? Hc N']; subst.
  destruct Ha as [<-|Ha], Hb as [<-|Hb]; auto; destruct Hc; [rewrite E|rewrite <- E]; now apply in_map.
Qed.

Lemma find_uniq_key : forall (A : Type) (key : A -> nat) l x,
  NoDup (map key l) -> In x l -> find (fun y => Nat.eqb (key y) (key x)) l = Some x.
Proof.
  intros A key l x N H. destruct (find _ l) as [y|] eqn:F.
  - apply find_some in F as [Hy E]. apply Nat.eqb_eq in E. f_equal. exact (NoDup_map_eq _ _ key l y x N Hy H E).
  - apply (find_none _ _ F) in H. now rewrite Nat.eqb_refl in H.
Qed.

Lemma filter_len_pos : forall {A} (P : A -> bool) l x, In x l -> P x = true -> (0 < length (filter P l))%nat.
Proof.
  intros A P l x Hin Px. assert (H : In x (filter P l)) by (apply filter_In; auto). destruct (filter P l); [destruct H|simpl; lia].
Qed.

Lemma filter_len_zero : forall {A} (P : A -> bool) l, (forall x, In x l -> P x = false) -> length (filter P l) = 0%nat.
Proof.
  intros A P l H. induction l as [|y l IH]; simpl; [reflexivity|]. rewrite (H y (or_introl eq_refl)).
  apply IH. intros x Hx. apply H. right. exact Hx.
Qed.
