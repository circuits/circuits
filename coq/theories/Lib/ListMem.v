(* The membership test on lists of numbers that the models write as [existsb (Nat.eqb x) l], under names of
   their own (mem, memb, is_stopped) or in line: it decides [In].  Stated on the unfolded form, so that it applies
   to all of them. *)
From Coq Require Import List Arith.

Lemma existsb_eqb_In x l : existsb (Nat.eqb x) l = true <-> In x l.
Proof.
  rewrite existsb_exists. split.
  - intros (y & Hy & E). apply Nat.eqb_eq in E. subst y. exact Hy.
  - intros H. exists x. split; [exact H|apply Nat.eqb_refl].
Qed.

Lemma existsb_eqb_notIn x l : existsb (Nat.eqb x) l = false <-> ~ In x l.
Proof. rewrite <- existsb_eqb_In. destruct (existsb (Nat.eqb x) l); split; congruence. Qed.

Lemma existsb_eqb_ext x l l' : (In x l <-> In x l') -> existsb (Nat.eqb x) l = existsb (Nat.eqb x) l'.
Proof. intros H. apply Bool.eq_true_iff_eq. rewrite !existsb_eqb_In. exact H. Qed.

(* list.remove: the first occurrence goes.  Model/Poller.v, ServerConn.v and StreamWrite.v each define it under this
   name, with this body; the lemmas apply to all three by conversion.  A file that imports one of them imports it after
   this one, so that the short name is the model's. *)
Fixpoint remove1 (x : nat) (l : list nat) : list nat :=
  match l with
  | nil => nil
  | y :: t => if Nat.eqb x y then t else y :: remove1 x t
  end.

Lemma In_remove1 x y l : In x (remove1 y l) -> In x l.
Proof.
  induction l as [|z t IH]; simpl; [tauto|].
  destruct (Nat.eqb y z); [tauto|]. intros [H|H]; [left; exact H|right; exact (IH H)].
Qed.

Lemma In_remove1_neq x y l : x <> y -> In x l -> In x (remove1 y l).
Proof.
  intros N. induction l as [|z t IH]; simpl; [tauto|].
  destruct (Nat.eqb_spec y z) as [<-|_]; [intros [H|H]; [congruence|exact H]|].
  intros [H|H]; [left; exact H|right; exact (IH H)].
Qed.

Lemma NoDup_remove1 x l : NoDup l -> NoDup (remove1 x l).
Proof.
  induction 1 as [|z t Hz Ht IH]; simpl; [constructor|].
  destruct (Nat.eqb x z); [exact Ht|]. constructor; [|exact IH]. intros H. exact (Hz (In_remove1 _ _ _ H)).
Qed.

Lemma remove1_notIn x l : NoDup l -> ~ In x (remove1 x l).
Proof.
  induction 1 as [|z t Hz Ht IH]; simpl; [tauto|].
  destruct (Nat.eqb_spec x z) as [->|N]; [exact Hz|]. intros [H|H]; [congruence|exact (IH H)].
Qed.
