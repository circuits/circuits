(* Proofs about Model/Auth.v: who counts as authenticated. *)
From Coq Require Import List NArith Bool.
From Circ Require Import Lib.ByteStr Model.Auth.
Import ListNotations.
Open Scope N_scope.

Lemma str_eqb_spec a b : reflect (a = b) (str_eqb a b).
Proof. apply iff_reflect. symmetry. apply str_eqb_eq. Qed.

Section P.
  Variable b64 : str -> option (list N).
  Variable utf8 : list N -> option str.
  Variable md5 : str -> option str.
  Variable keqv : str -> option params.
  Variable enc : str -> str -> option str.

  Notation check := (check_auth b64 utf8 md5 keqv enc).
  Notation parse := (parse_authorization b64 utf8 keqv).

  (* "carries Basic credentials that verify against the entry of u": the value is
     `<scheme> <b64>` with scheme = basic (any case), the decoded bytes are `user:password`,
     u has an entry and the (encoded) password equals that entry *)
  Definition basic_verifies (cred : str) (users : str -> option str) (u : str) : Prop :=
    exists scheme rest bytes ub pb p e,
      split_at SP cred = Some (scheme, rest) /\ lower scheme = s_basic /\
      b64 rest = Some bytes /\ split_at COLON bytes = Some (ub, pb) /\
      utf8 ub = Some u /\ utf8 pb = Some p /\
      users u = Some e /\ enc p u = Some e.

  (* "carries Digest credentials that verify against the entry of u for the realm":
     the parameter list has the required fields (and a coherent qop/nc/cnonce set), names u
     and the configured realm, u has an entry, and the presented response is the RFC 2617
     request-digest computed from that entry, the request method and the parameters *)
  Definition digest_verifies (cred method realm : str) (users : str -> option str) (u : str) : Prop :=
    exists scheme rest ps e resp,
      split_at SP cred = Some (scheme, rest) /\ lower scheme = s_digest /\
      keqv rest = Some ps /\ digest_valid ps = true /\ has s_auth_scheme ps = false /\
      lookup s_username ps = Some u /\ users u = Some e /\
      lookup s_realm ps = Some realm /\ lookup s_response ps = Some resp /\
      digest_response md5 ps e method = Some resp.

  Definition verifies (hdr : option str) (method realm : str) (users : str -> option str) (u : str) : Prop :=
    match hdr with
    | None => False
    | Some cred => basic_verifies cred users u \/ digest_verifies cred method realm users u
    end.

  Lemma parse_inv cred :
    match parse cred with
    | PBasic u p => exists scheme rest bytes ub pb,
        split_at SP cred = Some (scheme, rest) /\ lower scheme = s_basic /\
        b64 rest = Some bytes /\ split_at COLON bytes = Some (ub, pb) /\
        utf8 ub = Some u /\ utf8 pb = Some p
    | PDigest ps => exists scheme rest,
        split_at SP cred = Some (scheme, rest) /\ lower scheme = s_digest /\
        keqv rest = Some ps /\ digest_valid ps = true /\ has s_auth_scheme ps = false
    | _ => True
    end.
  Proof.
    unfold parse_authorization.
    destruct (split_at SP cred) as [[scheme rest]|] eqn:S; [|exact I].
    destruct (str_eqb_spec (lower scheme) s_basic) as [B|_].
    - destruct (b64 rest) as [bytes|] eqn:D; [|exact I].
      destruct (split_at COLON bytes) as [[ub pb]|] eqn:C; [|exact I].
      destruct (utf8 ub) eqn:U1; [|exact I]. destruct (utf8 pb) eqn:U2; [|exact I].
      now exists scheme, rest, bytes, ub, pb.
    - destruct (str_eqb_spec (lower scheme) s_digest) as [D|_]; [|exact I].
      destruct (keqv rest) as [ps|] eqn:K; [|exact I].
      destruct (digest_valid ps) eqn:V; [|exact I].
      destruct (has s_auth_scheme ps) eqn:A; [exact I|].
      now exists scheme, rest.
  Qed.

  Lemma parse_basic_intro : forall cred scheme rest bytes ub pb u p,
    split_at SP cred = Some (scheme, rest) -> lower scheme = s_basic ->
    b64 rest = Some bytes -> split_at COLON bytes = Some (ub, pb) ->
    utf8 ub = Some u -> utf8 pb = Some p -> parse cred = PBasic u p.
  Proof.
    intros cred scheme rest bytes ub pb u p S L D C U1 U2.
    unfold parse_authorization. rewrite S, L. simpl. now rewrite D, C, U1, U2.
  Qed.

  Lemma parse_digest_intro : forall cred scheme rest ps,
    split_at SP cred = Some (scheme, rest) -> lower scheme = s_digest -> keqv rest = Some ps ->
    parse cred = if digest_valid ps then if has s_auth_scheme ps then PCrash else PDigest ps
                 else PNone.
  Proof.
    intros cred scheme rest ps S L K. unfold parse_authorization. rewrite S, L. simpl. now rewrite K.
  Qed.

  Lemma check_parsed : forall cred method realm users u,
    check (Some cred) method realm users = Authd u <->
    match parse cred with
    | PBasic bu p => bu = u /\ exists e, users u = Some e /\ enc p u = Some e
    | PDigest ps => exists e resp, lookup s_username ps = Some u /\ users u = Some e /\
        lookup s_realm ps = Some realm /\ lookup s_response ps = Some resp /\
        digest_response md5 ps e method = Some resp
    | _ => False
    end.
  Proof.
    intros cred method realm users u. unfold check_auth.
    destruct (parse cred) as [| |bu p|ps]; [easy|easy|..].
    - destruct (users bu) as [entry|] eqn:L; [|split; [discriminate|intros (<- & e & L' & _); congruence]].
      destruct (enc p bu) as [e|] eqn:E; [|split; [discriminate|intros (<- & e & _ & E'); congruence]].
      destruct (str_eqb_spec e entry) as [->|Ne].
      + split; [intros [= <-]; eauto|now intros [-> _]].
      + split; [discriminate|]. intros (<- & e' & L' & E'). congruence.
    - split.
      + destruct (lookup s_username ps) as [du|]; [|discriminate].
        destruct (users du) as [entry|] eqn:L; [|discriminate].
        destruct (lookup s_realm ps) as [r|]; [|discriminate].
        destruct (lookup s_response ps) as [resp|]; [|discriminate].
        destruct (str_eqb_spec r realm) as [->|]; [|discriminate]. simpl.
        destruct (digest_response md5 ps entry method) as [x|] eqn:X; [|discriminate].
        destruct (str_eqb_spec x resp) as [->|]; [|discriminate].
        intros [= <-]. now exists entry, resp.
      + intros (e & resp & -> & -> & -> & -> & X). rewrite str_eqb_refl. simpl.
        now rewrite X, str_eqb_refl.
  Qed.

  Theorem auth_sound : forall hdr method realm users u,
    check hdr method realm users = Authd u <-> verifies hdr method realm users u.
  Proof.
    intros [cred|] method realm users u; [|easy]. cbn [verifies]. rewrite check_parsed.
    pose proof (parse_inv cred) as I. split.
    - destruct (parse cred) as [| |bu bp|ps]; [easy|easy|..].
      + intros (-> & e & L & E).
        destruct I as (scheme & rest & bytes & ub & pb & S & Lw & D & C & U1 & U2).
        left. now exists scheme, rest, bytes, ub, pb, bp, e.
      + intros (e & resp & Un & L & R & Rs & X).
        destruct I as (scheme & rest & S & Lw & K & V & A).
        right. now exists scheme, rest, ps, e, resp.
    - intros [(scheme & rest & bytes & ub & pb & p & e & S & Lw & D & C & U1 & U2 & L & E)
             |(scheme & rest & ps & e & resp & S & Lw & K & V & A & H)].
      + rewrite (parse_basic_intro _ _ _ _ _ _ _ _ S Lw D C U1 U2). eauto.
      + rewrite (parse_digest_intro _ _ _ _ S Lw K), V, A. eauto.
  Qed.

  Corollary served_iff : forall hdr method realm users,
    protected_served (check hdr method realm users) = true <-> exists u, verifies hdr method realm users u.
  Proof.
    intros. split.
    - destruct (check hdr method realm users) as [u| |] eqn:E; simpl; try discriminate.
      intros _. exists u. now apply auth_sound.
    - intros [u H]. apply auth_sound in H. now rewrite H.
  Qed.

  Corollary authenticated_in_table : forall hdr method realm users u,
    check hdr method realm users = Authd u -> exists e, users u = Some e.
  Proof.
    intros [cred|] method realm users u H; [|discriminate]. apply check_parsed in H.
    destruct (parse cred); [easy|easy|..].
    - destruct H as (_ & e & L & _). now exists e.
    - destruct H as (e & resp & _ & L & _). now exists e.
  Qed.

  Lemma no_header : forall method realm users, check None method realm users = Refused false.
  Proof. reflexivity. Qed.

  Lemma check_digest_unfold : forall cred ps method realm users u pw prealm resp,
    parse cred = PDigest ps ->
    lookup s_username ps = Some u -> users u = Some pw ->
    lookup s_realm ps = Some prealm -> lookup s_response ps = Some resp ->
    (check (Some cred) method realm users = Authd u <->
       prealm = realm /\ digest_response md5 ps pw method = Some resp).
  Proof.
    intros cred ps method realm users u pw prealm resp P Un L R Rs.
    rewrite check_parsed, P, Un, L, R, Rs. split.
    - now intros (e & resp' & _ & [= <-] & [= <-] & [= <-] & X).
    - intros [<- X]. now exists pw, resp.
  Qed.

  Definition alg_md5 (ps : params) : Prop :=
    lookup s_algorithm ps = None \/ lookup s_algorithm ps = Some s_MD5.

  (* what digest_response computes in each supported variant, for parameters that name
     user, realm, nonce and uri *)
  Section Variants.
    Variables (ps : params) (pw method user prealm nonce uri : str).
    Hypothesis (U : lookup s_username ps = Some user) (R : lookup s_realm ps = Some prealm)
               (N : lookup s_nonce ps = Some nonce) (Ur : lookup s_uri ps = Some uri).

    (* RFC 2069 compatible: no qop.  response = H( H(user:realm:pw) : nonce : H(method:uri) ) *)
    Lemma digest_response_legacy : alg_md5 ps -> lookup s_qop ps = None ->
      digest_response md5 ps pw method =
        match md5 (colon_join [user; prealm; pw]), md5 (colon_join [method; uri]) with
        | Some h1, Some h2 => md5 (colon_join [h1; colon_join [nonce; h2]])
        | _, _ => None
        end.
    Proof.
      intros A Q. unfold digest_response.
      rewrite Q, U, R, N, Ur. destruct A as [A|A]; rewrite A; cbn -[colon_join];
        now destruct (md5 (colon_join [method; uri])), (md5 (colon_join [user; prealm; pw])).
    Qed.

    (* qop=auth, algorithm MD5:
       response = H( H(user:realm:pw) : nonce:nc:cnonce:auth : H(method:uri) ) *)
    Lemma digest_response_qop_auth : forall nc cn, alg_md5 ps -> lookup s_qop ps = Some s_auth ->
      lookup s_nc ps = Some nc -> lookup s_cnonce ps = Some cn ->
      digest_response md5 ps pw method =
        match md5 (colon_join [user; prealm; pw]), md5 (colon_join [method; uri]) with
        | Some h1, Some h2 => md5 (colon_join [h1; colon_join [nonce; nc; cn; s_auth; h2]])
        | _, _ => None
        end.
    Proof.
      intros nc cn A Q Nc Cn. unfold digest_response.
      rewrite Q, U, R, N, Ur, Nc, Cn. destruct A as [A|A]; rewrite A; cbn -[colon_join];
        now destruct (md5 (colon_join [method; uri])), (md5 (colon_join [user; prealm; pw])).
    Qed.

    (* algorithm=MD5-sess (qop=auth):  A1 = H(user:realm:pw) : nonce : cnonce,
       response = H( H(A1) : nonce:nc:cnonce:auth : H(method:uri) ) *)
    Lemma digest_response_md5_sess : forall nc cn,
      lookup s_algorithm ps = Some s_MD5_sess -> lookup s_qop ps = Some s_auth ->
      lookup s_nc ps = Some nc -> lookup s_cnonce ps = Some cn ->
      digest_response md5 ps pw method =
        match md5 (colon_join [user; prealm; pw]), md5 (colon_join [method; uri]) with
        | Some h, Some h2 =>
            match md5 (colon_join [h; nonce; cn]) with
            | Some h1 => md5 (colon_join [h1; colon_join [nonce; nc; cn; s_auth; h2]])
            | None => None
            end
        | _, _ => None
        end.
    Proof.
      intros nc cn A Q Nc Cn. unfold digest_response.
      rewrite A, Q, U, R, N, Ur, Nc, Cn. cbn -[colon_join].
      now destruct (md5 (colon_join [method; uri])), (md5 (colon_join [user; prealm; pw])).
    Qed.
  End Variants.
End P.

(* both results present: the shape of the request-digest formulas *)
Lemma both_some {A B C} (o1 : option A) (o2 : option B) (f : A -> B -> option C) r :
  match o1, o2 with Some a, Some b => f a b | _, _ => None end = Some r <->
  exists a b, o1 = Some a /\ o2 = Some b /\ f a b = Some r.
Proof.
  destruct o1 as [a|]; [destruct o2 as [b|]|]; split; try discriminate.
  - eauto.
  - now intros (? & ? & [= <-] & [= <-] & H).
  - now intros (? & ? & _ & [=] & _).
  - now intros (? & ? & [=] & _).
Qed.
