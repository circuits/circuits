(* C01, class hierarchies -- proofs about Model/ClassHandlers.v: [collect] gathers exactly the handler definitions
   that are [in_force] along an MRO.  [aliases_spec] says what the walk down the MRO keeps, [lookup_attr_spec]
   what attribute lookup finds; [collect_sound] and [collect_complete] put the two together. *)
From Coq Require Import List Arith Bool Lia.
From Circ Require Import Lib.ListFacts Lib.ListMem Model.ClassHandlers.
Import ListNotations.

(* the documented semantics: a handler definition d of class number i of the MRO
   (0 = the instance's class) is in force iff no more derived class redefines the same
   attribute as a handler with override=True *)
Definition overridden_above (mro : list klass) (i : nat) (a : nat) : Prop :=
  exists j k d', j < i /\ nth_error mro j = Some k /\ In d' k /\ m_attr d' = a /\
                 m_handler d' = true /\ m_override d' = true.

Definition in_force (mro : list klass) (d : mdef) : Prop :=
  exists i k, nth_error mro i = Some k /\ In d k /\ m_handler d = true /\ ~ overridden_above mro i (m_attr d).

Lemma overridden_cons k r i a : overridden_above (k :: r) (S i) a <->
  In a (map m_attr (filter (fun d => m_handler d && m_override d) k)) \/ overridden_above r i a.
Proof.
  unfold overridden_above. split.
  - intros (j & k' & d' & Hj & Hn & Hd & Ha & Hh & Ho). destruct j as [|j].
    + injection Hn as <-. left. apply in_map_iff. exists d'. split; [exact Ha|].
      apply filter_In. split; [exact Hd|]. now rewrite Hh, Ho.
    + right. exists j, k', d'. repeat split; auto. lia.
  - intros [H|(j & k' & d' & Hj & Hn & Hd & Ha & Hh & Ho)].
    + apply in_map_iff in H as (d' & Ha & Hd). apply filter_In in Hd as [Hd Hc].
      apply andb_true_iff in Hc as [Hh Ho]. exists 0, k, d'. repeat split; auto. lia.
    + exists (S j), k', d'. repeat split; auto. lia.
Qed.

Lemma aliases_spec mro : forall first ov d,
  In d (aliases first ov mro) <->
  exists i k, nth_error mro i = Some k /\ In d k /\ m_handler d = true /\
    (i = 0 -> first = false) /\ ~ In (m_attr d) ov /\ ~ overridden_above mro i (m_attr d).
Proof.
  induction mro as [|k r IH]; intros first ov d; cbn [aliases].
  - split; [contradiction|]. intros ([|i] & k & H & _); discriminate H.
  - rewrite in_app_iff, filter_In, IH. split.
    + intros [[Hd Hc]|(i & k' & Hn & Hd & Hh & _ & Hov & Hno)].
      * apply andb_true_iff in Hc as [Hc Hm]. apply andb_true_iff in Hc as [Hh Hf].
        apply negb_true_iff in Hf, Hm. exists 0, k. repeat split; auto.
        -- now apply existsb_eqb_notIn.
        -- intros (j & _ & _ & Hj & _). lia.
      * rewrite in_app_iff in Hov. exists (S i), k'. repeat split; auto; [discriminate|].
        rewrite overridden_cons. tauto.
    + intros ([|i] & k' & Hn & Hd & Hh & Hf & Hov & Hno).
      * injection Hn as <-. left. split; [exact Hd|]. rewrite Hh, (Hf eq_refl). cbn. apply negb_true_iff.
        now apply existsb_eqb_notIn.
      * rewrite overridden_cons in Hno. right. exists i, k'. rewrite in_app_iff. repeat split; auto; tauto.
Qed.

Lemma lookup_attr_spec mro : forall a d, lookup_attr a mro = Some d ->
  exists i k, nth_error mro i = Some k /\ In d k /\ m_attr d = a /\
    forall j k' d', j < i -> nth_error mro j = Some k' -> In d' k' -> m_attr d' <> a.
Proof.
  induction mro as [|k r IH]; intros a d H; cbn [lookup_attr] in H; [discriminate|].
  destruct (find (fun d0 => Nat.eqb (m_attr d0) a) k) as [d0|] eqn:F.
  - injection H as <-. apply find_some in F as [F1 F2]. apply Nat.eqb_eq in F2.
    exists 0, k. repeat split; auto. intros j k' d' Hj. lia.
  - destruct (IH a d H) as (i & k' & Hn & Hd & Ha & Hno). exists (S i), k'. repeat split; auto.
    intros j k'' d' Hj Hnj Hd'. destruct j as [|j].
    + cbn in Hnj. injection Hnj as <-. intros E. apply (find_none _ _ F) in Hd'.
      apply Nat.eqb_neq in Hd'. contradiction.
    + apply (Hno j k'' d'); auto. lia.
Qed.

Lemma dedup_fid f l : In f (map m_fid (dedup l)) <-> In f (map m_fid l).
Proof.
  induction l as [|x r IH]; [tauto|]. cbn [dedup map].
  destruct (existsb (fun y => Nat.eqb (m_fid y) (m_fid x)) r) eqn:E; cbn; rewrite IH; [|tauto].
  split; [tauto|]. intros [<-|H]; [|exact H].
  apply existsb_exists in E as (y & Hy & Ey). apply Nat.eqb_eq in Ey. rewrite <- Ey. now apply in_map.
Qed.

Lemma dedup_incl d l : In d (dedup l) -> In d l.
Proof.
  induction l as [|x r IH]; intros H; [contradiction|]. cbn [dedup] in H.
  destruct (existsb (fun y => Nat.eqb (m_fid y) (m_fid x)) r).
  - right. now apply IH.
  - destruct H as [<-|H]; [now left|right; now apply IH].
Qed.

Theorem collect_sound mro d : In d (collect mro) -> in_force mro d.
Proof.
  unfold collect. intros H.
  assert (H' : In d (resolved mro ++ aliases true [] mro)) by now apply dedup_incl.
  apply in_app_iff in H' as [H'|H'].
  - unfold resolved in H'. apply in_flat_map in H' as (k & _ & H'). apply in_flat_map in H' as (d0 & _ & H').
    destruct (lookup_attr (m_attr d0) mro) as [d'|] eqn:L; [|contradiction].
    destruct (m_handler d') eqn:Hh; [|contradiction]. destruct H' as [<-|[]].
    destruct (lookup_attr_spec mro _ _ L) as (i & k' & Hn & Hd & Ha & Hno).
    exists i, k'. repeat split; auto. intros (j & k'' & d'' & Hj & Hnj & Hd'' & Ha'' & _).
    apply (Hno j k'' d'' Hj Hnj Hd''). congruence.
  - apply aliases_spec in H' as (i & k & Hn & Hd & Hh & _ & _ & Hno). now exists i, k.
Qed.

(* holds of every Python class: a klass is the class' own __dict__, which has each attribute name once *)
Definition uniq_attrs (mro : list klass) := Forall (fun k => NoDup (map m_attr k)) mro.

Theorem collect_complete mro d : uniq_attrs mro -> in_force mro d ->
  exists d', In d' (collect mro) /\ m_fid d' = m_fid d.
Proof.
  intros U (i & k & Hn & Hd & Hh & Hno).
  enough (In (m_fid d) (map m_fid (collect mro))) as H
    by (apply in_map_iff in H as (d' & E & H); now exists d').
  unfold collect. apply dedup_fid, in_map, in_app_iff. destruct i as [|i].
  - (* defined in the instance's own class: found by attribute lookup *)
    left. unfold resolved. destruct mro as [|k0 r]; [discriminate|]. cbn in Hn. injection Hn as ->.
    apply in_flat_map. exists k. split; [now left|]. apply in_flat_map. exists d. split; [exact Hd|].
    cbn [lookup_attr]. inversion U as [|? ? Uk _]; subst.
    rewrite (find_uniq_key _ m_attr k d Uk Hd), Hh. now left.
  - right. apply aliases_spec. exists (S i), k. split; [exact Hn|]. split; [exact Hd|]. split; [exact Hh|].
    split; [discriminate|]. split; [intros []|exact Hno].
Qed.
