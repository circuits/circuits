(* Proofs about the dispatch model (C02).

   [step_sim] splits every step of the machine into a run of the monitor [mst] over the entries the step logs and a move
   of the control stack.  The monitor reads the trace: what is fired is queued, a snapshot sorts the queue into the pass,
   a dispatch takes the head of the pass; the queue of a state stands for a state of the monitor ([abs], [qinv]).  On the
   control side the entries that the trace has for one event are a run of the dispatcher's handler loop [loop], as far as
   the event's dispatcher frame says it got ([hinv]); the theorems on handler order, on complete, cancelled and
   pre-stopped events are facts about such runs.  That no handler is invoked after stop() is an invariant of its own
   ([ok_stop], a field of [hinv]), and so is that the handler which called stop() had been invoked ([binv]). *)
From Coq Require Import List Arith Bool Lia Permutation Sorted.
From Circ Require Import Lib.ListFacts Lib.ListMem Model.DispatchOrder.
Import ListNotations.

Lemma SS_filter_impl : forall (A : Type) (R R' : A -> A -> Prop) (f : A -> bool) l, StronglySorted R l ->
  (forall a b, f a = true -> f b = true -> R a b -> R' a b) -> StronglySorted R' (filter f l).
Proof.
  induction 1 as [|a l S IH F]; intro H; simpl; [constructor|].
  destruct (f a) eqn:Fa; auto. constructor; auto.
  apply Forall_forall. intros b I. apply filter_In in I. destruct I as [I Fb].
  rewrite Forall_forall in F. apply H; auto.
Qed.

Lemma sorted_unique : forall (A : Type) (R : A -> A -> Prop),
  (forall a, ~ R a a) -> (forall a b c, R a b -> R b c -> R a c) ->
  forall l1 l2, StronglySorted R l1 -> StronglySorted R l2 -> (forall x, In x l1 <-> In x l2) -> l1 = l2.
Proof.
  intros A R Irr Tr. induction l1 as [|a l1 IH]; intros l2 S1 S2 E.
  - destruct l2 as [|b l2]; auto. destruct (proj2 (E b)). left; auto.
  - destruct l2 as [|b l2]; [destruct (proj1 (E a)); left; auto|].
    inversion S1 as [|? ? S1' F1]; inversion S2 as [|? ? S2' F2]; subst. rewrite Forall_forall in F1, F2.
    assert (a = b).
    { destruct (proj1 (E a) (or_introl eq_refl)) as [|Ia]; auto.
      destruct (proj2 (E b) (or_introl eq_refl)) as [|Ib]; auto. destruct (Irr a); eauto. }
    subst b. f_equal. apply IH; auto. intro x. split; intro I.
    + destruct (proj1 (E x) (or_intror I)) as [<-|]; auto. destruct (Irr a); auto.
    + destruct (proj2 (E x) (or_intror I)) as [<-|]; auto. destruct (Irr a); auto.
Qed.

Section P.
Variable K : Type.
Variable leb : K -> K -> bool.
Variable hs_of : nat -> nat -> list (handler K).
Hypothesis leb_total : forall a b, leb a b = true \/ leb b a = true.
Hypothesis leb_trans : forall a b c, leb a b = true -> leb b c = true -> leb a c = true.

Notation item := (item K).
Notation state := (state K).
Notation tr := (tr K).
Notation frame := (frame K).
Notation step := (step K leb hs_of).
Notation pop_min := (pop_min K leb).
Notation item_lt := (item_lt K leb).

Definition ids (l : list item) : list nat := map ictr l.

(* a is dispatched before b: strictly smaller priority value, or equal priority and fired earlier *)
Definition prec (a b : item) : Prop :=
  leb (ikey b) (ikey a) = false \/
  (leb (ikey a) (ikey b) = true /\ leb (ikey b) (ikey a) = true /\ ictr a < ictr b).

Lemma item_lt_prec : forall a b, item_lt a b = true <-> prec a b.
Proof.
  intros a b. unfold DispatchOrder.item_lt, eqk, prec.
  destruct (leb (ikey a) (ikey b)) eqn:E1; destruct (leb (ikey b) (ikey a)) eqn:E2; simpl;
    rewrite ?Nat.ltb_lt; split; intro H; auto; try discriminate.
  - destruct H as [H|(_&_&H)]; [discriminate|auto].
  - destruct H as [H|(H&_)]; discriminate.
Qed.

Lemma prec_trans : forall a b c, prec a b -> prec b c -> prec a c.
Proof.
  unfold prec. intros a b c [H1|(H1&H1'&L1)] [H2|(H2&H2'&L2)].
  - left. destruct (leb (ikey c) (ikey a)) eqn:E; auto.
    destruct (leb_total (ikey a) (ikey b)) as [T|T]; [|congruence].
    rewrite (leb_trans _ _ _ E T) in H2. discriminate.
  - left. destruct (leb (ikey c) (ikey a)) eqn:E; auto.
    rewrite (leb_trans _ _ _ H2 E) in H1. discriminate.
  - left. destruct (leb (ikey c) (ikey a)) eqn:E; auto.
    rewrite (leb_trans _ _ _ E H1) in H2. discriminate.
  - right. repeat split; eauto. lia.
Qed.

Lemma prec_total : forall a b, ictr a <> ictr b -> prec a b \/ prec b a.
Proof.
  intros a b N. unfold prec.
  destruct (leb (ikey a) (ikey b)) eqn:E1; destruct (leb (ikey b) (ikey a)) eqn:E2; auto.
  destruct (Nat.lt_total (ictr a) (ictr b)) as [L|[L|L]]; [left|contradiction|right]; right; auto.
Qed.

Lemma prec_irrefl : forall a, ~ prec a a.
Proof.
  intros a [H|(_&_&H)]; [|lia]. destruct (leb_total (ikey a) (ikey a)); congruence.
Qed.

Lemma not_lt_prec : forall a b, item_lt a b = false -> ictr a <> ictr b -> prec b a.
Proof.
  intros a b H N. destruct (prec_total a b N) as [P|P]; auto.
  apply item_lt_prec in P. congruence.
Qed.

Lemma pop_min_none : forall h, pop_min h = None -> h = [].
Proof.
  destruct h as [|x r]; simpl; auto. destruct (pop_min r) as [[m r']|]; [|discriminate].
  destruct (item_lt m x); discriminate.
Qed.

Lemma pop_min_perm : forall h m r, pop_min h = Some (m, r) -> Permutation h (m :: r).
Proof.
  induction h as [|x h IH]; simpl; intros m r H; [discriminate|].
  destruct (pop_min h) as [[m' r']|] eqn:E.
  - specialize (IH _ _ eq_refl). destruct (item_lt m' x); inversion H; subst; clear H.
    + rewrite IH. apply perm_swap.
    + reflexivity.
  - apply pop_min_none in E. subst. inversion H; subst. reflexivity.
Qed.

Lemma pop_min_least : forall h m r, NoDup (ids h) -> pop_min h = Some (m, r) -> Forall (prec m) r.
Proof.
  induction h as [|x h IH]; simpl; intros m r ND H; [discriminate|].
  inversion ND as [|? ? NI ND']; subst.
  destruct (pop_min h) as [[m' r']|] eqn:E.
  - specialize (IH _ _ ND' eq_refl). pose proof (pop_min_perm _ _ _ E) as Pm.
    destruct (item_lt m' x) eqn:L; inversion H; subst; clear H.
    + constructor; auto. apply item_lt_prec; auto.
    + assert (Px : prec m m').
      { apply not_lt_prec; auto. intro Q. apply NI. rewrite <- Q.
        apply in_map. eapply Permutation_in; [symmetry; exact Pm|left; auto]. }
      eapply Permutation_Forall; [symmetry; exact Pm|].
      constructor; auto. eapply Forall_impl; [|exact IH]. intros y Hy. eapply prec_trans; eauto.
  - apply pop_min_none in E. subst. inversion H; subst. constructor.
Qed.

(* the order in which a heap will be emptied: repeated heappop *)
Fixpoint sel (n : nat) (h : list item) : list item :=
  match n with
  | O => []
  | S n' => match pop_min h with None => [] | Some (m, r) => m :: sel n' r end
  end.
Definition sel_sort (h : list item) : list item := sel (length h) h.

Lemma sel_sort_pop : forall h m r, pop_min h = Some (m, r) -> sel_sort h = m :: sel_sort r.
Proof.
  intros h m r H. unfold sel_sort. rewrite (Permutation_length (pop_min_perm _ _ _ H)).
  simpl. rewrite H. reflexivity.
Qed.

Lemma sel_perm : forall n h, length h = n -> Permutation (sel n h) h.
Proof.
  induction n; intros h L; simpl.
  - destruct h; [constructor|discriminate].
  - destruct (pop_min h) as [[m r]|] eqn:E; [|apply pop_min_none in E; subst; discriminate].
    pose proof (pop_min_perm _ _ _ E) as Pm. rewrite Pm. constructor. apply IHn.
    apply Permutation_length in Pm. simpl in Pm. lia.
Qed.

Lemma sel_sort_perm : forall h, Permutation (sel_sort h) h.
Proof. intros. apply sel_perm. reflexivity. Qed.

Lemma sel_sort_sorted : forall h, NoDup (ids h) -> StronglySorted prec (sel_sort h).
Proof.
  intro h. unfold sel_sort. remember (length h) as n eqn:L. revert h L.
  induction n; intros h L ND; simpl; [constructor|].
  destruct (pop_min h) as [[m r]|] eqn:E; [|constructor].
  pose proof (pop_min_perm _ _ _ E) as Pm. pose proof (Permutation_length Pm) as Lr. simpl in Lr.
  constructor.
  - apply IHn; [lia|]. apply (Permutation_NoDup (Permutation_map ictr Pm)) in ND. inversion ND; auto.
  - rewrite sel_perm by lia. apply (pop_min_least h m r ND E).
Qed.

Lemma disps_app : forall a b : list tr, disps (a ++ b) = disps a ++ disps b.
Proof. intros. unfold disps. apply flat_map_app. Qed.
Lemma fires_app : forall a b : list tr, fires (a ++ b) = fires a ++ fires b.
Proof. intros. unfold fires. apply flat_map_app. Qed.
Lemma invs_app : forall e (a b : list tr), invs e (a ++ b) = invs e a ++ invs e b.
Proof. intros. unfold invs. apply flat_map_app. Qed.

(* The specification as a monitor of the trace.  queued: fired and not yet taken by a pass (in fire order);
   pend: rest of the running pass in the order it has to be dispatched; next: the next fire gets this id. *)
Record mst := { queued : list item; pend : list item; next : nat }.

(* the entries the monitor passes over ([ms_quiet]); [inert] and [plain] below sort the entries for the control side *)
Definition quiet (e : tr) : Prop :=
  match e with TFire _ | TSnap | TDisp _ => False | _ => True end.

Inductive mstep : mst -> tr -> mst -> Prop :=
| ms_fire m x : ictr x = next m ->
    mstep m (TFire x) {| queued := queued m ++ [x]; pend := pend m; next := S (next m) |}
| ms_snap m : pend m = [] ->
    mstep m TSnap {| queued := []; pend := sel_sort (queued m); next := next m |}
| ms_disp m x p : pend m = x :: p ->
    mstep m (TDisp x) {| queued := queued m; pend := p; next := next m |}
| ms_quiet m e : quiet e -> mstep m e m.

Inductive mrun : mst -> list tr -> mst -> Prop :=
| mrun_nil m : mrun m [] m
| mrun_cons m e m1 t m2 : mstep m e m1 -> mrun m1 t m2 -> mrun m (e :: t) m2.

Lemma mrun_app : forall a b m m2, mrun m (a ++ b) m2 <-> exists m1, mrun m a m1 /\ mrun m1 b m2.
Proof.
  induction a as [|e a IH]; simpl; intros b m m2; split.
  - intro H. exists m. split; [constructor|auto].
  - intros (m1&H1&H2). inversion H1; subst. auto.
  - intro H. inversion H as [|? ? m1 ? ? St Hr]; subst. apply IH in Hr. destruct Hr as (m1'&Ha&Hb).
    exists m1'. split; auto. econstructor; eauto.
  - intros (m1&H1&H2). inversion H1; subst. econstructor; eauto. apply IH. eauto.
Qed.

Definition m0 : mst := {| queued := []; pend := []; next := 0 |}.

Definition idlt (a b : item) : Prop := ictr a < ictr b.

(* d: the entries dispatched so far; every id below [next] is in exactly one place *)
Definition mwf (m : mst) (d : list item) : Prop :=
  StronglySorted idlt (queued m) /\ Permutation (ids (d ++ pend m ++ queued m)) (seq 0 (next m)).

Lemma mwf_lt : forall m d x, mwf m d -> In x (d ++ pend m ++ queued m) -> ictr x < next m.
Proof.
  intros m d x [_ P] I. apply (in_map ictr) in I. apply (Permutation_in _ P), in_seq in I. lia.
Qed.

Lemma mwf_nodup : forall m d, mwf m d -> NoDup (ids d) /\ NoDup (ids (queued m)).
Proof.
  intros m d [_ P]. apply Permutation_sym, Permutation_NoDup in P; [|apply seq_NoDup].
  unfold ids in P. rewrite !map_app in P.
  apply NoDup_app_iff in P as (Nd&P&_). apply NoDup_app_iff in P as (_&Nq&_). auto.
Qed.

Lemma mwf_step : forall m d e m', mwf m d -> mstep m e m' -> mwf m' (d ++ disps [e]).
Proof.
  intros m d e m' W H. pose proof (fun x => mwf_lt m d x W) as Lt. destruct W as [S P].
  inversion H as [? x Hx|? Hp|? x p Hp|? ? Q]; subst; unfold mwf; cbn [queued pend next disps flat_map app]; rewrite ?app_nil_r.
  - split.
    + apply SSorted_snoc; auto. intros a Ia.
      unfold idlt. rewrite Hx. apply Lt. rewrite !in_app_iff. auto.
    + rewrite !app_assoc. unfold ids. rewrite map_app, seq_S. cbn [map]. rewrite Hx.
      apply Permutation_app_tail. rewrite <- app_assoc. exact P.
  - split; [constructor|]. rewrite Hp in P. rewrite <- P. simpl.
    apply Permutation_map, Permutation_app_head, sel_sort_perm.
  - split; auto. rewrite Hp in P. rewrite <- app_assoc. exact P.
  - destruct e; simpl in *; try contradiction; rewrite app_nil_r; auto.
Qed.

Lemma mwf_run : forall m t m', mrun m t m' -> forall d, mwf m d -> mwf m' (d ++ disps t).
Proof.
  induction 1 as [|m e m1 t m2 St _ IH]; intros d W; [rewrite app_nil_r; auto|].
  change (e :: t) with ([e] ++ t). rewrite disps_app, app_assoc. eapply IH, mwf_step; eauto.
Qed.

Lemma mwf_run0 : forall t m, mrun m0 t m -> mwf m (disps t).
Proof. intros t m R. apply (mwf_run _ _ _ R []). split; constructor. Qed.

Lemma queued_pf : forall m t m', mrun m t m' -> queued m' = pf_from (queued m) t.
Proof.
  induction 1 as [|m e m1 t m2 St _ IH]; simpl; auto.
  inversion St; subst; simpl in *; auto.
  destruct e; simpl in *; auto; contradiction.
Qed.

Definition nosnap (t : list tr) : Prop := forallb (fun e => negb (is_snap e)) t = true.

Lemma pend_pass : forall m t m', mrun m t m' -> nosnap t -> pend m = disps t ++ pend m'.
Proof.
  unfold nosnap. induction 1 as [|m e m1 t m2 St _ IH]; simpl; intro N; auto.
  apply andb_true_iff in N. destruct N as [N1 N2]. specialize (IH N2).
  inversion St as [| |? x p Hp|]; subst; simpl in *; auto; try discriminate.
  - rewrite Hp. simpl. f_equal. auto.
  - destruct e; simpl in *; auto; contradiction.
Qed.

(* the entries l of the running pass that were dispatched: the rest is still pending, unless a new pass began, which
   it can only when nothing was left *)
Lemma pend_prefix : forall m t m', mrun m t m' ->
  exists l, (forall y, In y l -> In (TDisp y) t) /\ (pend m = l ++ pend m' \/ pend m = l).
Proof.
  induction 1 as [|m e m1 t m2 St _ (l&D&E)]; [exists []; auto|].
  inversion St as [? x Hx|? Hp|? x p Hp|? ? Q]; subst; simpl in *.
  - exists l. split; auto.
  - exists []. split; [intros y []|auto].
  - exists (x :: l). rewrite Hp. split; [intros y [->|I]; auto|destruct E as [->| ->]; auto].
  - exists l. split; auto.
Qed.

Lemma pend_disp : forall m t m', mrun m t m' -> forall y, In y (pend m) -> In (TDisp y) t \/ In y (pend m').
Proof.
  intros m t m' H y I. destruct (pend_prefix _ _ _ H) as (l&D&[E|E]); rewrite E in I; auto.
  apply in_app_iff in I. destruct I; auto.
Qed.

Lemma fire_ids_seq : forall m t m', mrun m t m' ->
  ids (fires t) = seq (next m) (length (fires t)) /\ next m' = next m + length (fires t).
Proof.
  induction 1 as [|m e m1 t m2 St _ [IH1 IH2]]; [simpl; auto|].
  inversion St; subst; simpl in *; auto.
  - split; [rewrite IH1; congruence|lia].
  - destruct e; simpl in *; auto; contradiction.
Qed.

Lemma fire_ids_ge : forall m t m', mrun m t m' -> forall x, In (TFire x) t -> next m <= ictr x.
Proof.
  intros m t m' H x I. assert (Ix : In (ictr x) (ids (fires t))).
  { apply in_map, in_flat_map. exists (TFire x). simpl. auto. }
  rewrite (proj1 (fire_ids_seq _ _ _ H)) in Ix. apply in_seq in Ix. lia.
Qed.

Inductive reach (prog : list (act K)) : state -> Prop :=
| reach_init : reach prog (init prog)
| reach_step s s' : reach prog s -> step s = Some s' -> reach prog s'.

Lemma run_reach : forall prog n s, reach prog s -> reach prog (run K leb hs_of n s).
Proof.
  induction n; simpl; intros s R; auto.
  destruct (step s) eqn:E; auto. apply IHn. econstructor; eauto.
Qed.

(* the queue of a state, and the state of the monitor it stands for: the heap is what the pass has still to dispatch *)
Definition queue : Type := list item * list item * nat * nat.
Definition queue_of (s : state) : queue := (fifo s, heap s, counter s, batch s).
Definition abs (q : queue) : mst :=
  let '(f, h, c, _) := q in {| queued := f; pend := sel_sort h; next := c |}.

(* the entries that a [silent] control move may log besides the flush brackets: no handler loop counts them ([inert_plain]) *)
Definition inert (e : tr) : Prop :=
  match e with TFire _ | TSnap | TRet _ _ | TGen _ _ | TRaise _ _ => True | _ => False end.

(* The control move of a step that logs t.  It forgets what no invariant below looks at: which actions a body is left
   with, and which of the entries nobody counts were logged. *)
Inductive silent : list frame -> list tr -> list frame -> Prop :=
| si_ret ctx acts k t : Forall inert t -> silent (FBody ctx acts :: k) t k
| si_act ctx acts acts' k t : Forall inert t -> silent (FBody ctx acts :: k) t (FBody ctx acts' :: k)
| si_flush ctx acts acts' k t : Forall inert t ->
    silent (FBody ctx acts :: k) (TFlushB :: t) (FLoop :: FBody ctx acts' :: k)
| si_exit k : silent (FLoop :: k) [TFlushE] k.

(* `if event.stopped: break`: a handler stopped the event, or it was stopped before its dispatch *)
Definition halted (x : item) (st : list nat) : Prop := In (ictr x) st \/ imode x = MPreStop.

Lemma halted_iff : forall x st, is_stopped (ictr x) st || is_pre (imode x) = true <-> halted x st.
Proof.
  intros. unfold halted, is_stopped. rewrite orb_true_iff, existsb_eqb_In.
  destruct (imode x); simpl; intuition discriminate.
Qed.

Inductive cstep : list frame -> list nat -> list tr -> list frame -> list nat -> Prop :=
| c_silent k st t k' : silent k t k' -> cstep k st t k' st
| c_stop e h acts acts' k st :
    cstep (FBody (Some (e, h)) acts :: k) st [TStop e h] (FBody (Some (e, h)) acts' :: k) (e :: st)
| c_disp m k st :
    cstep (FLoop :: k) st [TDisp m] (FDisp m (handlers_for K leb hs_of m) false :: FLoop :: k) st
| c_done x rem chk k st : rem = [] \/ chk = true /\ halted x st ->
    cstep (FDisp x rem chk :: k) st [TDone (ictr x)] k st
| c_inv x h rem chk k st : (chk = true -> ~ halted x st) ->
    cstep (FDisp x (h :: rem) chk :: k) st [TInv (ictr x) (hid h) (S (depth k))]
          (FBody (Some (ictr x, hid h)) (hbody h) :: FDisp x rem true :: k) st.

(* the "decrement first" counter is the heap size *)
Definition bal (s : state) : Prop := batch s = length (heap s).

Lemma mrun_same : forall m (t : list tr), Forall quiet t -> mrun m t m.
Proof. induction 1; econstructor; eauto. apply ms_quiet. auto. Qed.

Lemma mrun_one : forall m e m', mstep m e m' -> mrun m [e] m'.
Proof. intros. econstructor; eauto. constructor. Qed.

(* one branch of [step]: H : <branch> = Some s'; what is left is to name the run of the monitor and the control move *)
Ltac branch H := simpl in H; inversion H; subst; clear H; eexists; simpl; repeat split; try assumption.

(* Every step logs some events t; on the queue (fifo, heap, counter, batch) it is a run of the monitor over t between
   the abstractions of the two states, on the control state (stack, stop flags) a move [cstep], both determined by t.
   With [bal], heappop finds the heap non-empty. *)
Lemma step_sim : forall s s', step s = Some s' -> bal s ->
  exists t, trace s' = trace s ++ t /\ crashed s' = crashed s /\ bal s' /\
    mrun (abs (queue_of s)) t (abs (queue_of s')) /\ cstep (stack s) (stopped s) t (stack s') (stopped s').
Proof.
  intros s s' H Bl. unfold DispatchOrder.step in H. unfold queue_of, bal in *.
  destruct (stack s) as [|[ctx [|[n p md cs| | | |fs] acts]| |x rem chk] k]; try discriminate.
  - destruct ctx as [[e h]|]; branch H; [apply mrun_same|apply c_silent, si_ret|apply mrun_same|apply c_silent, si_ret];
      repeat constructor.
  - branch H; [apply mrun_one, (ms_fire (abs (fifo s, heap s, counter s, batch s))); reflexivity|
                apply c_silent, si_act; repeat constructor].
  - destruct (batch s =? 0) eqn:B; branch H; try (apply c_silent, si_flush; repeat constructor);
      [| |apply mrun_same; repeat constructor];
      (* a snapshot is taken when the heap is empty *)
      apply Nat.eqb_eq in B; rewrite B in Bl; (destruct (heap s); [|discriminate]).
    + reflexivity.
    + econstructor; [apply ms_quiet; exact I|]. apply mrun_one, (ms_snap (abs (fifo s, [], counter s, batch s))). reflexivity.
  - destruct ctx as [[e h]|]; branch H; [apply mrun_same|apply c_stop|apply mrun_same|apply c_silent, si_act];
      repeat constructor.
  - destruct ctx as [[e h]|]; branch H; [apply mrun_same|apply c_silent, si_act|apply mrun_same|apply c_silent, si_act];
      repeat constructor.
  - destruct ctx as [[e h]|]; branch H; [apply mrun_same|apply c_silent, si_act|apply mrun_same|apply c_silent, si_act];
      repeat constructor.
  - destruct (batch s =? 0) eqn:B; [branch H; [apply mrun_same|apply c_silent, si_exit]; repeat constructor|].
    apply Nat.eqb_neq in B. destruct (pop_min (heap s)) as [[m h']|] eqn:Pm.
    + pose proof (Permutation_length (pop_min_perm _ _ _ Pm)) as L. simpl in L.
      branch H; [lia|apply mrun_one, (ms_disp (abs (fifo s, heap s, counter s, batch s))), sel_sort_pop, Pm|apply c_disp].
    + apply pop_min_none in Pm. rewrite Pm in Bl. contradiction.
  - destruct chk; simpl in H; [destruct (is_stopped (ictr x) (stopped s) || is_pre (imode x)) eqn:C|].
    + apply halted_iff in C. branch H; [apply mrun_same; repeat constructor|apply c_done; auto].
    + destruct rem as [|h rem']; branch H; try (apply mrun_same; repeat constructor); [apply c_done; auto|].
      apply c_inv. intros _ F. apply halted_iff in F. congruence.
    + destruct rem as [|h rem']; branch H; try (apply mrun_same; repeat constructor); [apply c_done; auto|].
      apply c_inv. discriminate.
Qed.

Definition qinv (s : state) : Prop := bal s /\ mrun m0 (trace s) (abs (queue_of s)).

Lemma qinv_nodup : forall s, qinv s -> NoDup (ids (disps (trace s))).
Proof.
  intros s [_ R]. apply (mwf_nodup _ _ (mwf_run0 _ _ R)).
Qed.

(* stacks whose top frame is a body *)
Inductive wfB : list frame -> Prop :=
| wfB_main acts : wfB [FBody None acts]
| wfB_h x h acts rem k : wfB k -> wfB (FBody (Some (ictr x, h)) acts :: FDisp x rem true :: FLoop :: k).

Inductive wfstack : list frame -> Prop :=
| wf_nil : wfstack []
| wf_body k : wfB k -> wfstack k
| wf_loop k : wfB k -> wfstack (FLoop :: k)
| wf_disp x rem chk k : wfB k -> wfstack (FDisp x rem chk :: FLoop :: k).

Lemma wf_inv_body : forall ctx acts k, wfstack (FBody ctx acts :: k) ->
  forall acts', wfB (FBody ctx acts' :: k).
Proof. intros ctx acts k W acts'. inversion W as [|? B| |]; subst. inversion B; subst; constructor; auto. Qed.

Lemma wf_inv_loop : forall k, wfstack (FLoop :: k) -> wfB k.
Proof. intros k W. inversion W as [|? B|? B|]; subst; [inversion B|auto]. Qed.

Lemma wf_step : forall k st t k' st', wfstack k -> cstep k st t k' st' -> wfstack k'.
Proof.
  intros ? ? ? ? ? W H. destruct H as [? ? ? ? []| | | |].
  - apply wf_inv_body with (acts' := acts) in W. inversion W; subst; [apply wf_nil|apply wf_disp; auto].
  - apply wf_body. eapply wf_inv_body; eauto.
  - apply wf_loop. eapply wf_inv_body; eauto.
  - apply wf_body, wf_inv_loop, W.
  - apply wf_body. eapply wf_inv_body; eauto.
  - apply wf_disp, wf_inv_loop, W.
  - inversion W as [|? B| |]; subst; [inversion B|]. apply wf_loop. auto.
  - inversion W as [|? B| |]; subst; [inversion B|]. apply wf_body. constructor. auto.
Qed.

Definition loops (k : list frame) : nat :=
  length (filter (fun f => match f with FLoop => true | _ => false end) k).

Lemma wfB_depth : forall k, wfB k -> depth k = loops k.
Proof. induction 1; simpl; auto. unfold depth, loops in *. simpl. rewrite IHwfB. reflexivity. Qed.

Lemma wf_depth : forall k, wfstack k -> depth k <= loops k.
Proof.
  intros k0 W. destruct W as [|k B|k B|x rem chk k B]; [auto|rewrite (wfB_depth _ B); auto| |];
    unfold depth, loops; simpl; fold (depth k) (loops k); rewrite (wfB_depth _ B); auto.
Qed.

Definition nB (t : list tr) : nat := length (filter (fun e => match e with TFlushB => true | _ => false end) t).
Definition nE (t : list tr) : nat := length (filter (fun e => match e with TFlushE => true | _ => false end) t).

Lemma nB_app : forall a b, nB (a ++ b) = nB a + nB b.
Proof. intros. unfold nB. rewrite filter_app. apply app_length. Qed.
Lemma nE_app : forall a b, nE (a ++ b) = nE a + nE b.
Proof. intros. unfold nE. rewrite filter_app. apply app_length. Qed.

Lemma inert_flush : forall t, Forall inert t -> nB t = 0 /\ nE t = 0.
Proof. induction 1 as [|e t I _ IH]; auto. destruct e; simpl in *; auto; contradiction. Qed.

Lemma flush_count_step : forall k st t k' st', cstep k st t k' st' -> loops k' + nE t = loops k + nB t.
Proof.
  intros ? ? ? ? ? H. destruct H as [? ? ? ? [? ? ? ? I|? ? ? ? ? I|? ? ? ? ? I|]| | | |];
    try apply inert_flush in I as [B E]; unfold loops, nB, nE in *; simpl; lia.
Qed.

(* the dispatcher frames of a stack: event, handlers still to come, whether the stop test is due *)
Notation dframe := (item * list (handler K) * bool)%type.
Definition dframes (k : list frame) : list dframe :=
  flat_map (fun f => match f with FDisp x rem chk => [(x, rem, chk)] | _ => [] end) k.
Definition frame_ids (fs : list dframe) : list nat := map (fun d => ictr (fst (fst d))) fs.
(* the handler ids of an event in the order sorted(..., reverse=True) gives them *)
Definition full (x : item) : list nat := map hid (handlers_for K leb hs_of x).

Definition ok_stop (t : list tr) : Prop :=
  forall u e h v, t = u ++ TStop e h :: v -> forall h' d, ~ In (TInv e h' d) v.

Lemma ok_stop_snoc : forall t a, ok_stop t ->
  (forall e h' d, a = TInv e h' d -> forall h, ~ In (TStop e h) t) -> ok_stop (t ++ [a]).
Proof.
  intros t a O Ha u e h v E h' d I.
  destruct v as [|a' v' _] using rev_ind; [destruct I|].
  rewrite app_comm_cons, app_assoc in E. apply app_inj_tail in E. destruct E as [E ->].
  apply in_snoc in I. destruct I as [I|I].
  - eapply O; eauto.
  - subst t. eapply Ha; eauto. apply in_app_iff. right. left. reflexivity.
Qed.

(* the entries of the trace that belong to the handler loop of event e *)
Definition mine (e : nat) (a : tr) : bool :=
  match a with TInv e' _ _ | TStop e' _ | TDone e' => e' =? e | _ => false end.
Definition marks (e : nat) (t : list tr) : list tr := filter (mine e) t.

Lemma marks_self : forall e t a, mine e a = true -> marks e (t ++ [a]) = marks e t ++ [a].
Proof. intros e t a M. unfold marks. rewrite filter_app. simpl. rewrite M. reflexivity. Qed.

Lemma marks_other : forall e t a, mine e a = false -> marks e (t ++ [a]) = marks e t.
Proof. intros e t a M. unfold marks. rewrite filter_app. simpl. rewrite M. apply app_nil_r. Qed.

Lemma in_marks : forall e a t, In a (marks e t) <-> In a t /\ mine e a = true.
Proof. intros. apply filter_In. Qed.

Lemma invs_marks : forall e t, invs e (marks e t) = invs e t.
Proof.
  induction t as [|a t IH]; simpl; auto.
  destruct a; simpl; auto; destruct (_ =? e) eqn:E; simpl; rewrite ?E, IH; auto.
Qed.

(* What _dispatcher logs for x, as far as it got: [rem] are the handlers still to come, [fin] says that the loop is
   over.  Only the first handler is invoked if the event was stopped before its dispatch, and the loop ends when no
   handler is left, after a stop(), or for that reason.  That no handler is invoked once stop() was called is [ok_stop]. *)
Inductive loop (x : item) : list tr -> list (handler K) -> bool -> Prop :=
| lp_disp : loop x [] (handlers_for K leb hs_of x) false
| lp_inv w h rem d : loop x w (h :: rem) false -> w = [] \/ imode x <> MPreStop ->
    loop x (w ++ [TInv (ictr x) (hid h) d]) rem false
| lp_stop w rem h : loop x w rem false -> loop x (w ++ [TStop (ictr x) h]) rem false
| lp_done w rem : loop x w rem false ->
    rem = [] \/ (exists h, In (TStop (ictr x) h) w) \/ imode x = MPreStop ->
    loop x (w ++ [TDone (ictr x)]) rem true.

Lemma loop_invs : forall x w rem fin, loop x w rem fin -> invs (ictr x) w ++ map hid rem = full x.
Proof.
  induction 1; auto; rewrite invs_app; simpl; rewrite ?Nat.eqb_refl, ?app_nil_r; auto.
  rewrite <- app_assoc. exact IHloop.
Qed.

Lemma loop_pre : forall x w rem fin, loop x w rem fin -> imode x = MPreStop -> length (invs (ictr x) w) <= 1.
Proof.
  induction 1 as [|w h rem d _ IH P| |]; intro M; rewrite ?invs_app; simpl; rewrite ?app_nil_r; auto.
  destruct P as [->|N]; [|contradiction]. rewrite Nat.eqb_refl. auto.
Qed.

Lemma loop_fin : forall x w rem fin, loop x w rem fin ->
  if fin then In (TDone (ictr x)) w /\
              (rem = [] \/ (exists h, In (TStop (ictr x) h) w) \/ imode x = MPreStop)
  else ~ In (TDone (ictr x)) w.
Proof.
  induction 1 as [|w h rem d _ IH| |w rem _ _ Why]; simpl in *; rewrite ?in_snoc; auto; try (intros [F|F]; [auto|discriminate]).
  split; auto. destruct Why as [E|[(h&I)|M]]; auto. right. left. exists h. apply in_snoc. auto.
Qed.

(* entries that say nothing about any handler loop *)
Definition plain (e : tr) : Prop :=
  match e with TDisp _ | TInv _ _ _ | TDone _ | TStop _ _ => False | _ => True end.

Lemma disps_snoc_other : forall (t : list tr) a, (forall x, a <> TDisp x) -> disps (t ++ [a]) = disps t.
Proof.
  intros t a N. rewrite disps_app. destruct a; simpl; rewrite ?app_nil_r; auto.
  exfalso. eapply N; eauto.
Qed.

(* only stop() sets the flag that the stop test reads *)
Definition stop_log (st : list nat) (t : list tr) : Prop := forall e, In e st <-> exists h, In (TStop e h) t.

Lemma stop_log_other : forall st t a, stop_log st t -> (forall e h, a <> TStop e h) -> stop_log st (t ++ [a]).
Proof.
  intros st t a Hs N e. rewrite (Hs e). split; intros (h&I); exists h.
  - apply in_snoc. auto.
  - apply in_snoc in I. destruct I as [I|E]; [auto|destruct (N _ _ (eq_sym E))].
Qed.

(* The dispatcher loops, given the dispatcher frames fs of the stack.  An event leaves no mark until it is dispatched;
   while its frame is on the stack its marks are a run of the loop that has reached the frame's remaining handlers
   (and are none before the first handler); once the frame is gone they are a finished run. *)
Record hinv (fs : list dframe) (st : list nat) (t : list tr) : Prop := {
  h_frames : NoDup (frame_ids fs);
  h_fdisp : forall x rem chk, In (x, rem, chk) fs ->
      In x (disps t) /\ loop x (marks (ictr x) t) rem false /\ (chk = false -> marks (ictr x) t = []);
  h_done : forall x, In x (disps t) -> ~ In (ictr x) (frame_ids fs) -> exists rem, loop x (marks (ictr x) t) rem true;
  h_fresh : forall e, ~ In e (ids (disps t)) -> marks e t = [];
  h_stop : stop_log st t;
  h_nis : ok_stop t }.

Lemma hinv_nil : hinv [] [] [].
Proof.
  constructor; simpl; auto.
  - constructor.
  - intros x rem chk [].
  - intros x [].
  - intro e. split; [intros []|intros (h&[])].
  - intros u e h v F. destruct u; discriminate.
Qed.

Lemma hinv_plain1 : forall fs st t a, hinv fs st t -> plain a -> hinv fs st (t ++ [a]).
Proof.
  intros fs st t a [Hf Hd Hn Hr Hs Ho] P.
  assert (Mq : forall e, marks e (t ++ [a]) = marks e t) by (intro; apply marks_other; destruct a; auto; contradiction).
  constructor; rewrite ?disps_snoc_other by (intros; intro; subst; contradiction); auto.
  - intros x rem chk I. rewrite Mq. auto.
  - intros x I N. rewrite Mq. auto.
  - intro e. rewrite Mq. auto.
  - apply stop_log_other; auto. intros; intro; subst; contradiction.
  - apply ok_stop_snoc; auto. intros; subst; contradiction.
Qed.

Lemma hinv_plain : forall q fs st t, hinv fs st t -> Forall plain q -> hinv fs st (t ++ q).
Proof.
  induction q as [|a q IH]; intros fs st t H P; [rewrite app_nil_r; auto|].
  inversion P; subst. change (a :: q) with ([a] ++ q). rewrite app_assoc. auto using hinv_plain1.
Qed.

Lemma frame_other : forall x rem chk fs d, NoDup (frame_ids ((x, rem, chk) :: fs)) -> In d fs ->
  ictr x <> ictr (fst (fst d)).
Proof.
  intros x rem chk fs d ND I E. inversion ND as [|? ? N _]. apply N. simpl. rewrite E.
  apply (in_map (fun d => ictr (fst (fst d)))), I.
Qed.

Lemma hinv_stop : forall x h rem fs st t, hinv ((x, rem, true) :: fs) st t ->
  hinv ((x, rem, true) :: fs) (ictr x :: st) (t ++ [TStop (ictr x) h]).
Proof.
  intros x h rem fs st t [Hf Hd Hn Hr Hs Ho].
  assert (Mo : forall e, ictr x <> e -> marks e (t ++ [TStop (ictr x) h]) = marks e t).
  { intros e N. apply marks_other, Nat.eqb_neq, N. }
  destruct (Hd x rem true) as (Dx&Lx&_); [left; auto|].
  constructor; rewrite ?disps_snoc_other by discriminate; auto.
  - intros x0 rem0 chk0 [E|I].
    + inversion E; subst. rewrite marks_self by apply Nat.eqb_refl.
      split; [|split]; [auto|apply lp_stop, Lx|discriminate].
    + rewrite Mo by apply (frame_other _ _ _ _ _ Hf I). apply Hd. right. auto.
  - intros x0 I N. rewrite Mo; auto. intro E. apply N. left. auto.
  - intros e N. rewrite Mo; auto. intros <-. apply N, in_map, Dx.
  - intro e. simpl. rewrite (Hs e). split.
    + intros [<-|(h0&F)]; [exists h|exists h0]; apply in_snoc; auto.
    + intros (h0&F). apply in_snoc in F. destruct F as [F|F]; [eauto|inversion F; auto].
  - apply ok_stop_snoc; auto. intros; discriminate.
Qed.

Lemma hinv_disp : forall m fs st t, hinv fs st t -> ~ In (ictr m) (ids (disps t)) ->
  hinv ((m, handlers_for K leb hs_of m, false) :: fs) st (t ++ [TDisp m]).
Proof.
  intros m fs st t [Hf Hd Hn Hr Hs Ho] Nm.
  assert (Mq : forall e, marks e (t ++ [TDisp m]) = marks e t) by (intro; apply marks_other; reflexivity).
  constructor; unfold frame_ids; rewrite ?disps_app; simpl; auto.
  - constructor; auto. intro C. apply in_map_iff in C. destruct C as ([[x0 r0] c0]&E&C).
    apply Nm. rewrite <- E. apply in_map. apply (Hd x0 r0 c0 C).
  - intros x0 rem0 chk0 [E|I]; rewrite Mq, in_snoc.
    + inversion E; subst. rewrite (Hr _ Nm). split; [|split]; auto. constructor.
    + destruct (Hd _ _ _ I) as (A&B). auto.
  - intros x0 I N. rewrite Mq. apply in_snoc in I. destruct I as [I| ->]; [auto|tauto].
  - intros e N. rewrite Mq. apply Hr. intro F. apply N. unfold ids. rewrite map_app, in_app_iff. auto.
  - apply stop_log_other; auto. discriminate.
  - apply ok_stop_snoc; auto. intros; discriminate.
Qed.

Lemma hinv_done : forall x rem chk fs st t, hinv ((x, rem, chk) :: fs) st t -> NoDup (ids (disps t)) ->
  rem = [] \/ halted x st -> hinv fs st (t ++ [TDone (ictr x)]).
Proof.
  intros x rem chk fs st t [Hf Hd Hn Hr Hs Ho] ND Why.
  assert (Mo : forall e, ictr x <> e -> marks e (t ++ [TDone (ictr x)]) = marks e t).
  { intros e N. apply marks_other, Nat.eqb_neq, N. }
  destruct (Hd x rem chk) as (Dx&Lx&_); [left; auto|].
  constructor; rewrite ?disps_snoc_other by discriminate; auto.
  - inversion Hf; auto.
  - intros x0 rem0 chk0 I. rewrite Mo by apply (frame_other _ _ _ _ _ Hf I). apply Hd. right. auto.
  - intros x0 I N. destruct (Nat.eq_dec (ictr x) (ictr x0)) as [E|E].
    + assert (x = x0) by (eapply (NoDup_map_eq _ _ ictr); eauto). subst x0. exists rem.
      rewrite marks_self by apply Nat.eqb_refl. apply lp_done; auto.
      destruct Why as [->|[F|M]]; auto. right. left. apply (Hs (ictr x)) in F. destruct F as (h&F).
      exists h. apply in_marks. split; auto. apply Nat.eqb_refl.
    + rewrite Mo by auto. apply Hn; auto. intros [F|F]; auto.
  - intros e N. rewrite Mo; auto. intros <-. apply N, in_map, Dx.
  - apply stop_log_other; auto. discriminate.
  - apply ok_stop_snoc; auto. intros; discriminate.
Qed.

Lemma hinv_inv : forall x h rem chk fs st t d, hinv ((x, h :: rem, chk) :: fs) st t ->
  (chk = true -> ~ halted x st) -> hinv ((x, rem, true) :: fs) st (t ++ [TInv (ictr x) (hid h) d]).
Proof.
  intros x h rem chk fs st t d [Hf Hd Hn Hr Hs Ho] Go.
  assert (Mo : forall e, ictr x <> e -> marks e (t ++ [TInv (ictr x) (hid h) d]) = marks e t).
  { intros e N. apply marks_other, Nat.eqb_neq, N. }
  destruct (Hd x (h :: rem) chk) as (Dx&Lx&Px); [left; auto|].
  assert (Ns : forall h', ~ In (TStop (ictr x) h') t).
  { intros h' F. destruct chk.
    - apply Go; auto. left. apply (Hs (ictr x)). eauto.
    - assert (I : In (TStop (ictr x) h') (marks (ictr x) t)) by (apply in_marks; split; auto; apply Nat.eqb_refl).
      rewrite Px in I; auto. }
  constructor; rewrite ?disps_snoc_other by discriminate; auto.
  - intros x0 rem0 chk0 [E|I].
    + inversion E; subst. rewrite marks_self by apply Nat.eqb_refl. split; [|split]; [auto| |discriminate].
      apply lp_inv; auto.
      destruct chk; [right; intro M; apply Go; [auto|right; auto]|left; auto].
    + rewrite Mo by apply (frame_other _ _ _ _ _ Hf I). apply Hd. right. auto.
  - intros x0 I N. rewrite Mo; auto. intro E. apply N. left. auto.
  - intros e N. rewrite Mo; auto. intros <-. apply N, in_map, Dx.
  - apply stop_log_other; auto. discriminate.
  - apply ok_stop_snoc; auto. intros e0 h0 d0 E. inversion E; subst. exact Ns.
Qed.

Definition bframes (k : list frame) : list (nat * nat) :=
  flat_map (fun f => match f with FBody (Some c) _ => [c] | _ => [] end) k.

Lemma inert_plain : forall t, Forall inert t -> Forall plain t.
Proof. intros t. apply Forall_impl. intros []; simpl; auto. Qed.

Lemma silent_frames : forall k t k', silent k t k' ->
  Forall plain t /\ dframes k' = dframes k /\ incl (bframes k') (bframes k).
Proof.
  destruct 1 as [ctx acts k t I|ctx acts acts' k t I|ctx acts acts' k t I|k];
    try apply inert_plain in I; simpl; repeat split; auto using incl_refl, incl_appr; repeat constructor; auto.
Qed.

Lemma hinv_step : forall k st t q k' st', hinv (dframes k) st t -> wfstack k -> cstep k st q k' st' ->
  NoDup (ids (disps (t ++ q))) -> hinv (dframes k') st' (t ++ q).
Proof.
  intros ? ? t ? ? ? I W H ND.
  destruct H as [k st q k' S|e h acts acts' k st|m k st|x rem chk k st C|x h rem chk k st C];
    rewrite ?disps_snoc_other in ND by discriminate.
  - destruct (silent_frames _ _ _ S) as (P&E&_). rewrite E. apply hinv_plain; auto.
  - apply wf_inv_body with (acts' := acts) in W. inversion W; subst. apply hinv_stop, I.
  - apply hinv_disp; auto. unfold ids in ND. rewrite disps_app, map_app in ND. apply NoDup_snoc_iff in ND. apply ND.
  - eapply hinv_done; eauto. tauto.
  - eapply hinv_inv; eauto.
Qed.

(* stop() is logged by a handler that was invoked for that event: so were all handlers whose body is on the stack *)
Definition binv (k : list frame) (t : list tr) : Prop :=
  (forall e h, In (e, h) (bframes k) -> In h (invs e t)) /\
  (forall e h, In (TStop e h) t -> In h (invs e t)).

Lemma invs_mono : forall e h (t q : list tr), In h (invs e t) -> In h (invs e (t ++ q)).
Proof. intros. rewrite invs_app. apply in_app_iff. auto. Qed.

Lemma binv_keep : forall k t k' q, binv k t -> incl (bframes k') (bframes k) ->
  (forall e h, ~ In (TStop e h) q) -> binv k' (t ++ q).
Proof.
  intros k t k' q [Bf Bs] Sub N. split; intros e h I; apply invs_mono.
  - auto.
  - apply in_app_iff in I. destruct I as [I|I]; [auto|destruct (N _ _ I)].
Qed.

Lemma binv_step : forall k st t q k' st', binv k t -> cstep k st q k' st' -> binv k' (t ++ q).
Proof.
  intros ? ? t ? ? ? B H.
  destruct H as [k st q k' S|e h acts acts' k st|m k st|x rem chk k st C|x h rem chk k st C].
  - destruct (silent_frames _ _ _ S) as (P&_&Sub). apply binv_keep with (k := k); auto.
    intros e0 h0 F. rewrite Forall_forall in P. apply (P _ F).
  - destruct B as [Bf Bs]. split; intros e0 h0 I; apply invs_mono; auto.
    apply in_snoc in I. destruct I as [I|E]; auto. inversion E; subst. apply Bf. left. auto.
  - apply binv_keep with (k := FLoop :: k); auto using incl_refl. intros e0 h0 [F|[]]. discriminate.
  - apply binv_keep with (k := FDisp x rem chk :: k); auto using incl_refl. intros e0 h0 [F|[]]. discriminate.
  - destruct B as [Bf Bs]. split; intros e0 h0 I.
    + destruct I as [E|I]; [|apply invs_mono, Bf, I]. inversion E; subst.
      rewrite invs_app. simpl. rewrite Nat.eqb_refl. apply in_app_iff. right. left. auto.
    + apply invs_mono, Bs. apply in_snoc in I. destruct I as [I|E]; [auto|discriminate].
Qed.

Record inv (s : state) : Prop := {
  i_live : crashed s = false;
  i_q : qinv s;
  i_wf : wfstack (stack s);
  i_flushes : loops (stack s) + nE (trace s) = nB (trace s);
  i_h : hinv (dframes (stack s)) (stopped s) (trace s);
  i_b : binv (stack s) (trace s) }.

Lemma inv_reach : forall prog s, reach prog s -> inv s.
Proof.
  induction 1 as [|s s' _ [L Q W B Hi Bi] St].
  - constructor; simpl; auto.
    + split; [reflexivity|constructor].
    + apply wf_body. constructor.
    + apply hinv_nil.
    + split; intros e h [].
  - destruct Q as [Bl Rm]. destruct (step_sim _ _ St Bl) as (t&Et&Ec&Bl'&Hq&Hc).
    assert (Q' : qinv s') by (split; [exact Bl'|rewrite Et; apply mrun_app; eauto]).
    constructor; rewrite ?Et; auto.
    + congruence.
    + eapply wf_step; eauto.
    + rewrite nE_app, nB_app. pose proof (flush_count_step _ _ _ _ _ Hc). lia.
    + eapply hinv_step; eauto. rewrite <- Et. apply qinv_nodup, Q'.
    + eapply binv_step; eauto.
Qed.

Lemma reach_mrun : forall prog s, reach prog s -> mrun m0 (trace s) (abs (queue_of s)).
Proof. intros prog s R. exact (proj2 (i_q _ (inv_reach _ _ R))). Qed.

(* the monitor at the snapshot that begins a pass *)
Lemma reach_snap : forall prog s t1 t2, reach prog s -> trace s = t1 ++ TSnap :: t2 ->
  exists ma, mwf ma (disps t1) /\ queued ma = pending_fires t1 /\
    mrun {| queued := []; pend := sel_sort (queued ma); next := next ma |} t2 (abs (queue_of s)).
Proof.
  intros prog s t1 t2 R Ht. pose proof (reach_mrun _ _ R) as H. rewrite Ht in H.
  apply mrun_app in H. destruct H as (ma&Ha&Hb).
  inversion Hb as [|? ? ? ? ? St Hb']; subst. inversion St; subst; [|simpl in *; contradiction].
  exists ma. split; [|split]; [apply (mwf_run0 _ _ Ha)|apply (queued_pf _ _ _ Ha)|exact Hb'].
Qed.

Theorem pass_sorted : forall prog s t1 t2, reach prog s ->
  trace s = t1 ++ TSnap :: t2 -> nosnap t2 ->
  exists rest, length rest = batch s /\
    Permutation (pending_fires t1) (disps t2 ++ rest) /\ StronglySorted prec (disps t2 ++ rest).
Proof.
  intros prog s t1 t2 R Ht N. destruct (i_q _ (inv_reach _ _ R)) as [B _]. unfold bal in B.
  destruct (reach_snap _ _ _ _ R Ht) as (ma&W&Hq&Hb).
  pose proof (pend_pass _ _ _ Hb N) as E. simpl in E.
  exists (sel_sort (heap s)). split; [|split].
  - rewrite B. apply Permutation_length. apply sel_sort_perm.
  - rewrite <- E, <- Hq. symmetry. apply sel_sort_perm.
  - rewrite <- E. apply sel_sort_sorted, (mwf_nodup _ _ W).
Qed.

Theorem no_overtake : forall prog s t1 t2 t3 x x', reach prog s ->
  trace s = t1 ++ TSnap :: t2 ++ TDisp x :: t3 -> In (TFire x') t2 -> ictr x' = ictr x ->
  forall y, In y (pending_fires t1) -> In (TDisp y) t2.
Proof.
  intros prog s t1 t2 t3 x x' R Ht Hf Hid y Hy. destruct (reach_snap _ _ _ _ R Ht) as (ma&W&Hq&Hb).
  apply mrun_app in Hb. destruct Hb as (mc&Hc&Hd).
  inversion Hd as [|? ? ? ? ? St _]; subst. inversion St as [| |? ? p Hp|]; subst; [|simpl in *; contradiction].
  pose proof (fire_ids_ge _ _ _ Hc _ Hf) as G. simpl in G.
  destruct (pend_prefix _ _ _ Hc) as (l&D&[E|E]); simpl in E.
  - (* x, fired after the snapshot, would be an entry of its pass *)
    assert (Ix : In x (queued ma)).
    { apply (Permutation_in _ (sel_sort_perm _)). rewrite E, Hp. apply in_app_iff. right. left. auto. }
    assert (ictr x < next ma) by (apply (mwf_lt _ _ _ W); rewrite !in_app_iff; auto). lia.
  - apply D. rewrite <- E. apply (Permutation_in _ (Permutation_sym (sel_sort_perm _))). rewrite Hq. auto.
Qed.

Lemma loop_reach : forall prog s x, reach prog s -> In x (disps (trace s)) ->
  exists rem fin, loop x (marks (ictr x) (trace s)) rem fin.
Proof.
  intros prog s x R D. destruct (inv_reach _ _ R) as [_ Q _ _ [_ Hd Hn _ _ _] _].
  destruct (in_dec Nat.eq_dec (ictr x) (frame_ids (dframes (stack s)))) as [F|F].
  - apply in_map_iff in F. destruct F as ([[x0 rem] chk]&E&I). destruct (Hd _ _ _ I) as (A&B&_).
    assert (x0 = x) by (eapply (NoDup_map_eq _ _ ictr); eauto using qinv_nodup). subst x0. eauto.
  - destruct (Hn _ D F) as (rem&L). eauto.
Qed.

Theorem handlers_complete : forall prog s x, reach prog s -> In x (disps (trace s)) ->
  In (TDone (ictr x)) (trace s) -> (forall h, ~ In (TStop (ictr x) h) (trace s)) -> imode x <> MPreStop ->
  invs (ictr x) (trace s) = full x.
Proof.
  intros prog s x R D Dn Ns Np. destruct (loop_reach _ _ _ R D) as (rem&fin&L).
  pose proof (loop_invs _ _ _ _ L) as E. rewrite invs_marks in E.
  apply loop_fin in L. destruct fin.
  - destruct L as (_&[->|[(h&F)|M]]); [rewrite app_nil_r in E; auto| |contradiction].
    apply in_marks in F. destruct (Ns h). tauto.
  - destruct L. apply in_marks. split; auto. apply Nat.eqb_refl.
Qed.

Definition hge (a b : handler K) : Prop := leb (hprio b) (hprio a) = true.

Lemma insert_desc_perm : forall h l, Permutation (insert_desc K leb h l) (h :: l).
Proof.
  induction l as [|x r IH]; simpl; auto. destruct (leb (hprio x) (hprio h)); auto.
  rewrite IH. apply perm_swap.
Qed.

Theorem sort_desc_perm : forall l, Permutation (sort_desc K leb l) l.
Proof.
  induction l as [|h l IH]; simpl; auto. unfold sort_desc in *. simpl.
  rewrite insert_desc_perm. auto.
Qed.

Lemma insert_desc_sorted : forall h l, StronglySorted hge l -> StronglySorted hge (insert_desc K leb h l).
Proof.
  induction l as [|x r IH]; simpl; intro S.
  - repeat constructor.
  - inversion S; subst. destruct (leb (hprio x) (hprio h)) eqn:E.
    + constructor; auto. constructor; auto.
      eapply Forall_impl; [|eassumption]. unfold hge. intros y Hy. eapply leb_trans; eauto.
    + constructor; auto. eapply Permutation_Forall; [symmetry; apply insert_desc_perm|].
      constructor; auto. unfold hge. destruct (leb_total (hprio x) (hprio h)); congruence.
Qed.

Theorem sort_desc_sorted : forall l, StronglySorted hge (sort_desc K leb l).
Proof.
  induction l as [|h l IH]; [constructor|]. unfold sort_desc in *. simpl. apply insert_desc_sorted. auto.
Qed.

Lemma dedup_spec : forall (l : list (handler K)) seen,
  NoDup (map hid (dedup K seen l)) /\
  (forall h, In h (dedup K seen l) -> In h l /\ ~ In (hid h) seen) /\
  (forall h, In h l -> In (hid h) seen \/ In (hid h) (map hid (dedup K seen l))).
Proof.
  induction l as [|h r IH]; intro seen; simpl.
  - split; [constructor|split; intros h []].
  - destruct (existsb (Nat.eqb (hid h)) seen) eqn:E.
    + apply existsb_eqb_In in E. destruct (IH seen) as (A&B&C). split; [auto|split]; intros h0 I.
      * destruct (B _ I). auto.
      * destruct I as [<-|I]; auto.
    + pose proof (proj1 (existsb_eqb_notIn _ _) E) as N.
      destruct (IH (hid h :: seen)) as (A&B&C). simpl in *. split; [|split; intros h0 I].
      * constructor; auto. intro F. apply in_map_iff in F. destruct F as (h'&Eh&Ih).
        destruct (B _ Ih) as (_&Nh). auto.
      * destruct I as [<-|I]; auto. destruct (B _ I) as (I1&I2). auto.
      * destruct I as [<-|I]; auto. destruct (C _ I) as [[F|F]|F]; auto.
Qed.

Theorem handlers_union : forall x, imode x <> MCancel ->
  let L := handlers_for K leb hs_of x in
  StronglySorted hge L /\ NoDup (map hid L) /\
  (forall h, In h L -> In h (handlers_chain K hs_of x)) /\
  (forall h, In h (handlers_chain K hs_of x) -> In (hid h) (map hid L)).
Proof.
  intros x Nc L. subst L. unfold handlers_for.
  replace (is_cancel (imode x)) with false by (destruct (imode x); auto; congruence).
  destruct (dedup_spec (handlers_chain K hs_of x) []) as (A&B&C).
  pose proof (sort_desc_perm (dedup K [] (handlers_chain K hs_of x))) as P. repeat split.
  - apply sort_desc_sorted.
  - apply (Permutation_NoDup (Permutation_sym (Permutation_map hid P)) A).
  - intros h I. apply (B h). apply (Permutation_in _ P I).
  - intros h I. destruct (C h I) as [[]|F]. apply (Permutation_in _ (Permutation_sym (Permutation_map hid P)) F).
Qed.

Lemma eqk_true : forall a b, eqk K leb a b = true <-> leb a b = true /\ leb b a = true.
Proof. intros. unfold eqk. apply andb_true_iff. Qed.

Definition asc (ks : list K) : Prop := StronglySorted (fun a b => leb b a = false) ks.
Definition covers (ks : list K) (l : list item) : Prop :=
  forall x, In x l -> existsb (eqk K leb (ikey x)) ks = true.

Lemma bucket_In : forall ks l x,
  In x (bucket leb ks l) <-> In x l /\ existsb (eqk K leb (ikey x)) ks = true.
Proof.
  intros. unfold bucket. rewrite in_flat_map, existsb_exists. setoid_rewrite filter_In.
  split; [intros (k&Ik&I&E)|intros (I&k&Ik&E)]; eauto.
Qed.

Lemma bucket_sorted : forall ks l, asc ks -> StronglySorted idlt l -> StronglySorted prec (bucket leb ks l).
Proof.
  induction 1 as [|k ks S IH F]; intro Sl; unfold bucket in *; simpl; [constructor|].
  apply SSorted_app_iff; split; [|split; [auto|]].
  - eapply SS_filter_impl; [exact Sl|]. intros a b Ea Eb L. right.
    apply eqk_true in Ea. apply eqk_true in Eb. destruct Ea as [Ea1 Ea2]. destruct Eb as [Eb1 Eb2].
    repeat split; [eapply leb_trans; eauto|eapply leb_trans; eauto|exact L].
  - intros a b Ia Ib. apply filter_In in Ia. destruct Ia as [_ Ea].
    apply in_flat_map in Ib. destruct Ib as (k'&Ik&Ib). apply filter_In in Ib. destruct Ib as [_ Eb].
    rewrite Forall_forall in F. specialize (F _ Ik).
    apply eqk_true in Ea. apply eqk_true in Eb. destruct Ea as [Ea _]. destruct Eb as [_ Eb].
    left. destruct (leb (ikey b) (ikey a)) eqn:E; auto.
    rewrite (leb_trans _ _ _ (leb_trans _ _ _ Eb E) Ea) in F. discriminate.
Qed.

Theorem pass_exact : forall prog s t1 t2 ks, reach prog s ->
  trace s = t1 ++ TSnap :: t2 -> nosnap t2 -> batch s = 0 ->
  asc ks -> covers ks (pending_fires t1) ->
  disps t2 = bucket leb ks (pending_fires t1).
Proof.
  intros prog s t1 t2 ks R Ht N B A C.
  destruct (pass_sorted _ _ _ _ R Ht N) as (rest&L&P&S).
  rewrite B in L. destruct rest; [|discriminate]. rewrite app_nil_r in *.
  assert (I : StronglySorted idlt (pending_fires t1)).
  { destruct (reach_snap _ _ _ _ R Ht) as (ma&[I _]&Hq&_). rewrite <- Hq. exact I. }
  apply (sorted_unique _ prec prec_irrefl prec_trans); auto using bucket_sorted.
  intro x. rewrite bucket_In. split; intro Ix.
  - apply (Permutation_in _ (Permutation_sym P)) in Ix. auto.
  - apply (Permutation_in _ P), Ix.
Qed.

End P.

Arguments inv_reach {K leb hs_of prog s}.
Arguments loop_reach {K leb hs_of prog s x}.
Arguments reach_mrun {K leb hs_of prog s}.

(* the two assumptions on the priority comparison, named for the statements in Props/C02.v *)
Definition Total (K : Type) (leb : K -> K -> bool) : Prop := forall a b : K, leb a b = true \/ leb b a = true.
Definition Trans (K : Type) (leb : K -> K -> bool) : Prop :=
  forall a b c : K, leb a b = true -> leb b c = true -> leb a c = true.
