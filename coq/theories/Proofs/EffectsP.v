(* Proofs about Model/Effects.v: one inductive invariant [Inv] of the transition system
   [step], established for [start roots] and preserved by every micro-operation of the
   dispatcher, of the cause-chain walk and of a task step; Props/C05.v reads its theorems off it.
   Apart from [Inv]: [kg_ok] (exception / failure events are effects of the raising event, in
   every configuration) and the two programs that exhibit the repaired defects. *)
From Coq Require Import List ZArith Lia.
From Circ Require Import Lib.FunUpd Lib.ListFacts Model.Effects.
Import ListNotations.

Lemma cnt_ext : forall f g n, (forall i, i < n -> f i = g i) -> cnt f n = cnt g n.
Proof.
  induction n as [|n IH]; intros H; simpl; [reflexivity|].
  rewrite IH by (intros; apply H; lia). rewrite (H n) by lia. reflexivity.
Qed.

Lemma cnt_zero : forall f n, (forall i, i < n -> f i = false) -> cnt f n = 0.
Proof.
  induction n as [|n IH]; intros H; simpl; [reflexivity|].
  rewrite IH by (intros; apply H; lia). rewrite (H n) by lia. reflexivity.
Qed.

Lemma cnt_zero_inv : forall f n, cnt f n = 0 -> forall i, i < n -> f i = false.
Proof.
  induction n as [|n IH]; intros H i Hi; [lia|]. simpl in H.
  destruct (f n) eqn:E; [lia|].
  destruct (Nat.eq_dec i n); [subst; exact E|]. apply IH; lia.
Qed.

Lemma cnt_pos_ex : forall f n, 0 < cnt f n -> exists i, i < n /\ f i = true.
Proof.
  induction n as [|n IH]; simpl; intros H; [lia|].
  destruct (f n) eqn:E; [exists n; split; [lia|exact E]|].
  destruct IH as [i [Hi Hf]]; [lia|]. exists i; split; [lia|exact Hf].
Qed.

(* waitingHandlers units held by a task: a call in progress counts for the suspended handler
   and for the call *)
Definition tw (t : task) : nat := match tmode t with TResume => 2 | _ => 1 end.
Fixpoint tload (e : nat) (ts : list task) : nat :=
  match ts with [] => 0 | t :: r => (if Nat.eqb (tev t) e then tw t else 0) + tload e r end.

Lemma tw_pos : forall t, 1 <= tw t.
Proof. intros t. unfold tw. destruct (tmode t); lia. Qed.

Lemma tload_app : forall e a b, tload e (a ++ b) = tload e a + tload e b.
Proof. induction a; simpl; intros; [reflexivity|]. rewrite IHa. lia. Qed.

Lemma tload_zero : forall e ts, tload e ts = 0 -> forall t, In t ts -> tev t <> e.
Proof.
  induction ts as [|a r IH]; simpl; intros H t Ht; [contradiction|].
  destruct (Nat.eqb_spec (tev a) e); [pose proof (tw_pos a); lia|].
  destruct Ht as [<-|Ht]; [assumption|]. apply IH; [lia|assumption].
Qed.

Lemma tload_none : forall e ts, (forall t, In t ts -> tev t <> e) -> tload e ts = 0.
Proof.
  induction ts as [|a r IH]; simpl; intros H; [reflexivity|].
  destruct (Nat.eqb_spec (tev a) e) as [E|_]; [destruct (H a (or_introl eq_refl) E)|].
  apply IH. intros t Ht. apply H. right; exact Ht.
Qed.

Lemma tload_remove : forall e ts p t, nth_error ts p = Some t ->
  tload e ts = (if Nat.eqb (tev t) e then tw t else 0) + tload e (remove_nth p ts).
Proof.
  induction ts as [|a r IH]; intros [|p] t H; simpl in *; try discriminate.
  - inversion H; subst. reflexivity.
  - rewrite (IH p t H). lia.
Qed.

Lemma tload_replace : forall e ts p t t', nth_error ts p = Some t ->
  tload e (replace_nth p t' ts) + (if Nat.eqb (tev t) e then tw t else 0) =
  tload e ts + (if Nat.eqb (tev t') e then tw t' else 0).
Proof.
  induction ts as [|a r IH]; intros [|p] t t' H; simpl in *; try discriminate.
  - inversion H; subst. lia.
  - pose proof (IH p t t' H). lia.
Qed.

Lemma tload_filter : forall e (f : waiter -> bool) ws,
  tload e (map wtask (filter f ws)) + tload e (map wtask (filter (fun w => negb (f w)) ws)) =
  tload e (map wtask ws).
Proof.
  induction ws as [|w r IH]; simpl; [reflexivity|]. destruct (f w); simpl; lia.
Qed.

Lemma in_remove_nth : forall A (l : list A) p x, In x (remove_nth p l) -> In x l.
Proof.
  induction l as [|a r IH]; intros [|p] x H; simpl in *; auto.
  destruct H as [->|H]; [left; reflexivity|right; eapply IH; exact H].
Qed.

Lemma in_replace_nth : forall A (l : list A) p v x, In x (replace_nth p v l) -> x = v \/ In x l.
Proof.
  induction l as [|a r IH]; intros [|p] v x H; simpl in *; auto.
  - destruct H as [->|H]; auto.
  - destruct H as [->|H]; auto. destruct (IH p v x H); auto.
Qed.

Lemma fc_count_notin : forall e l, ~ In (LFC e) l -> fc_count e l = 0.
Proof.
  induction l as [|a r IH]; simpl; intros H; [reflexivity|].
  destruct a; try (apply IH; tauto).
  destruct (Nat.eqb_spec e0 e); [subst; exfalso; apply H; left; reflexivity|]. simpl. apply IH; tauto.
Qed.

Lemma fc_count_in : forall e l, In (LFC e) l -> 1 <= fc_count e l.
Proof.
  induction l as [|a r IH]; simpl; intros H; [contradiction|].
  destruct H as [->|H]; [rewrite Nat.eqb_refl; lia|].
  specialize (IH H). destruct a; try assumption. destruct (e0 =? e); lia.
Qed.

Lemma gdesc_stable : forall (g g' : nat -> option nat) n,
  (forall d h, g d = Some h -> d < n /\ h < d) ->
  (forall d, d < n -> g' d = g d) ->
  forall a d, d < n -> gdesc g' a d -> gdesc g a d.
Proof.
  intros g g' n Hlt Hsame a d Hd H. induction H as [|d h Hg Hd' IH]; [constructor|].
  rewrite Hsame in Hg by assumption. destruct (Hlt _ _ Hg) as [_ Hh].
  eapply gd_step; [exact Hg|]. apply IH. lia.
Qed.

Lemma cnt_childb_upd : forall ca d v e n, n <= d ->
  cnt (childb (upd ca d v) e) n = cnt (childb ca e) n.
Proof.
  intros. apply cnt_ext. intros i Hi. unfold childb. rewrite upd_other by lia. reflexivity.
Qed.

Lemma childb_true : forall ca e d, childb ca e d = true <-> d <> e /\ ca d = Some e.
Proof.
  intros. unfold childb. destruct (Nat.eqb_spec d e); simpl; [intuition congruence|].
  destruct (ca d) as [c|]; [|intuition congruence].
  destruct (Nat.eqb_spec c e); intuition congruence.
Qed.

Lemma childb_false : forall ca e d, (ca d = Some e -> d = e) -> childb ca e d = false.
Proof.
  intros ca e d H. destruct (childb ca e d) eqn:E; [|reflexivity]. apply childb_true in E. tauto.
Qed.

Lemma cnt_childb_none : forall ca e n, (forall d, d < n -> d <> e -> ca d <> Some e) ->
  cnt (childb ca e) n = 0.
Proof.
  intros ca e n H. apply cnt_zero. intros i Hi. destruct (childb ca e i) eqn:E; [|reflexivity].
  apply childb_true in E. destruct (H i Hi); tauto.
Qed.

Lemma cnt_upd1 : forall f g n j, j < n -> (forall i, i < n -> i <> j -> g i = f i) ->
  cnt g n + (if f j then 1 else 0) = cnt f n + (if g j then 1 else 0).
Proof.
  induction n as [|n IH]; intros j Hj H; [lia|]. simpl.
  destruct (Nat.eq_dec j n) as [->|Hne].
  - rewrite (cnt_ext g f n) by (intros; apply H; lia). lia.
  - rewrite (H n) by lia. assert (j < n) by lia. specialize (IH j H0 (fun i Hi => H i (Nat.lt_lt_succ_r _ _ Hi))). lia.
Qed.

Lemma cnt_childb_set : forall ca d v e n, d < n ->
  cnt (childb (upd ca d v) e) n + (if childb ca e d then 1 else 0) =
  cnt (childb ca e) n + (if childb (upd ca d v) e d then 1 else 0).
Proof.
  intros. apply cnt_upd1; [assumption|]. intros i _ N. unfold childb. rewrite upd_other by exact N. reflexivity.
Qed.

(* where the cause-chain walk stands:
   MDec e : the counter of e is one too high (about to be decremented)
   MRel e : e has just been decremented to 0 and is about to lose its cause attribute
   MLog e : same, and <e>_complete has already been fired *)
Inductive mark := MNone | MDec (e : nat) | MRel (e : nat) | MLog (e : nat).
Definition is_dec (m : mark) (e : nat) : bool :=
  match m with MDec y => Nat.eqb y e | _ => false end.

(* m   : where the cause-chain walk stands (see [mark]); MNone between walks;
   cur : the event (if any) whose handlers are being run (dispatch or task step in progress).
   The clauses, in order: the cause attribute points backwards to a live event, and the counters
   along it (i_count is the invariant the property names; the others follow the walk's mark);
   the ghost parent [gpar] and the ghost flag [trk] against the cause attribute (cause d is d
   itself at the root of a tracking tree, gpar d elsewhere); what dispatching establishes;
   queue, tasks, suspended calls and waitingHandlers against [phase]; the log. *)
Record Inv (m : mark) (cur : option nat) (s : st) : Prop := {
  i_cause_lt : forall d c, cause s d = Some c -> d < next s /\ c <= d;
  i_cause_live : forall d c, cause s d = Some c -> c <> d -> cause s c <> None;
  i_count : forall e, cause s e <> None ->
      effects s e = Z.of_nat (selfc (phase s) e + cnt (childb (cause s) e) (next s) + (if is_dec m e then 1 else 0));
  i_pos : forall e, cause s e <> None -> (1 <= effects s e)%Z \/ m = MRel e \/ m = MLog e;
  i_rel0 : forall e, m = MRel e \/ m = MLog e -> e < next s /\ effects s e = 0%Z;
  i_logged : forall e, m = MLog e -> In (LFC e) (log s);
  i_gpar_lt : forall d h, gpar s d = Some h -> d < next s /\ h < d;
  i_gpar_phase : forall d h, gpar s d = Some h -> phase s h <> PQueued;
  i_trk_live : forall e, cause s e <> None -> trk s e = true;
  i_trk_alloc : forall e, trk s e = true -> e < next s;
  i_rel_fin : forall e, trk s e = true -> cause s e = None -> phase s e = PFin;
  i_trk_kids : forall d h, gpar s d = Some h -> trk s h = true -> trk s d = true;
  i_cause_shape : forall d c, cause s d = Some c -> c <> d -> gpar s d = Some c;
  i_self_cause : forall d h, cause s d = Some d -> gpar s d = Some h -> trk s h = false;
  i_compl : forall e, e < next s -> ev_canc (spec s e) = false -> compl s e = ev_compl (spec s e);
  i_disp_trk : forall e, e < next s -> phase s e <> PQueued -> ev_canc (spec s e) = false ->
      ev_compl (spec s e) = true -> trk s e = true;
  i_q : forall e, In e (queue s) -> e < next s /\ phase s e = PQueued;
  i_q_nodup : NoDup (queue s);
  i_qd : forall e, e < next s -> phase s e = PQueued -> In e (queue s);
  i_task : forall t, In t (tasks s) -> tev t < next s /\ phase s (tev t) = PActive;
  i_waiter : forall w, In w (waiters s) -> tev (wtask w) < next s /\ phase s (tev (wtask w)) = PActive;
  i_wait : forall e, waiting s e = tload e (tasks s) + tload e (map wtask (waiters s));
  i_active : forall e, phase s e = PActive -> cur = Some e \/ 0 < waiting s e;
  i_cur : forall e, cur = Some e -> e < next s /\ phase s e = PActive;
  i_fc : forall e, In (LFC e) (log s) -> trk s e = true /\ (cause s e = None \/ m = MLog e);
  i_fc_conv : forall e, trk s e = true -> cause s e = None -> ev_canc (spec s e) = false ->
      ev_compl (spec s e) = true -> In (LFC e) (log s);
  i_fc_once : forall e, fc_count e (log s) <= 1;
  i_log_alloc : forall y d, In y (log s) -> hentry y d -> d < next s;
  i_order : forall l1 l2 e y d, log s = l2 ++ LFC e :: l1 -> In y l2 -> hentry y d ->
      ~ gdesc (gpar s) e d;
  i_oof : oof s = false
}.
Arguments i_cause_lt {m cur s}.
Arguments i_cause_live {m cur s}.
Arguments i_count {m cur s}.
Arguments i_pos {m cur s}.
Arguments i_rel0 {m cur s}.
Arguments i_logged {m cur s}.
Arguments i_gpar_lt {m cur s}.
Arguments i_gpar_phase {m cur s}.
Arguments i_trk_live {m cur s}.
Arguments i_trk_alloc {m cur s}.
Arguments i_rel_fin {m cur s}.
Arguments i_trk_kids {m cur s}.
Arguments i_cause_shape {m cur s}.
Arguments i_self_cause {m cur s}.
Arguments i_compl {m cur s}.
Arguments i_disp_trk {m cur s}.
Arguments i_q {m cur s}.
Arguments i_q_nodup {m cur s}.
Arguments i_qd {m cur s}.
Arguments i_task {m cur s}.
Arguments i_waiter {m cur s}.
Arguments i_wait {m cur s}.
Arguments i_active {m cur s}.
Arguments i_cur {m cur s}.
Arguments i_fc {m cur s}.
Arguments i_fc_conv {m cur s}.
Arguments i_fc_once {m cur s}.
Arguments i_log_alloc {m cur s}.
Arguments i_order {m cur s}.
Arguments i_oof {m cur s}.

(* [frame I] proves [Inv _ _ s'] from [I : Inv _ _ s] up to the clauses that read a field in which
   [s'] differs from [s]: after [simpl] every other clause is literally a clause of [I]. *)
Ltac frame I :=
  let J := fresh in
  pose proof I as J; destruct J as [F1 F2 F3 F4 F5 F6 F7 F8 F9 F10 F11 F12 F13 F14 F15 F16 F17 F18 F19 F20 F21 F22 F23 F24 F25 F26 F27 F28 F29 F30];
  constructor; simpl; try assumption; clear F1 F2 F3 F4 F5 F6 F7 F8 F9 F10 F11 F12 F13 F14 F15 F16 F17 F18 F19 F20 F21 F22 F23 F24 F25 F26 F27 F28 F29 F30.

Lemma inv_init : Inv MNone None init.
Proof.
  constructor; simpl; intros; try discriminate; try contradiction; try congruence; try lia.
  - destruct H; discriminate.
  - constructor.
  - destruct l2; discriminate.
Qed.

Lemma closure_released : forall m cur s, Inv m cur s ->
  forall e d, trk s e = true -> cause s e = None -> gdesc (gpar s) e d ->
  trk s d = true /\ cause s d = None.
Proof.
  intros m cur s I e d Ht Hc H. induction H as [|d h Hg _ IH]; [auto|].
  destruct IH as [Hth Hch].
  assert (Htd : trk s d = true) by (eapply i_trk_kids; eauto).
  split; [exact Htd|].
  destruct (cause s d) as [c|] eqn:Ec; [exfalso|reflexivity].
  destruct (Nat.eq_dec c d) as [->|Hne].
  - pose proof (i_self_cause I _ _ Ec Hg). congruence.
  - pose proof (i_cause_shape I _ _ Ec Hne) as Hg'. rewrite Hg in Hg'. inversion Hg'; subst.
    apply (i_cause_live I _ _ Ec Hne). exact Hch.
Qed.

Lemma closure_fin : forall cur s, Inv MNone cur s ->
  forall e d, In (LFC e) (log s) -> gdesc (gpar s) e d -> phase s d = PFin.
Proof.
  intros cur s I e d Hfc Hd. destruct (i_fc I _ Hfc) as [Ht [Hc|Hc]]; [|discriminate].
  destruct (closure_released _ _ _ I _ _ Ht Hc Hd) as [Htd Hcd].
  eapply i_rel_fin; eauto.
Qed.

Lemma inv_add_log : forall cur s y, Inv MNone cur s ->
  (forall e, y <> LFC e) -> (forall d, hentry y d -> d < next s /\ phase s d <> PFin) ->
  Inv MNone cur (add_log y s).
Proof.
  intros cur s y I Hn Hh.
  frame I.
  - intros; discriminate.
  - intros e [He|He]; [exfalso; eapply Hn; eauto|]. eapply i_fc; eauto.
  - intros. right. eapply i_fc_conv; eauto.
  - intros e. pose proof (i_fc_once I e). destruct y; simpl; auto. exfalso; eapply Hn; eauto.
  - intros y' d [<-|Hy] Hd; [|eapply i_log_alloc; eauto].
    apply Hh in Hd. tauto.
  - intros l1 l2 e y' d Hl Hy Hd Hg. destruct l2 as [|z l2]; simpl in Hl.
    + inversion Hl. eapply Hn; eauto.
    + inversion Hl; subst z. destruct Hy as [<-|Hy].
      * apply Hh in Hd. destruct Hd as [_ Hp].
        assert (In (LFC e) (log s)) by (rewrite H1; apply in_or_app; right; left; reflexivity).
        pose proof (closure_fin _ _ I _ _ H Hg). congruence.
      * eapply i_order; eauto.
Qed.

Lemma inv_log_cur : forall s e y, Inv MNone (Some e) s ->
  (forall x, y <> LFC x) -> (forall d, hentry y d -> e = d) -> Inv MNone (Some e) (add_log y s).
Proof.
  intros s e y I Hn Hh. destruct (i_cur I e eq_refl) as [Hlt Hph].
  apply inv_add_log; [exact I|exact Hn|]. intros d Hd. rewrite <- (Hh d Hd). split; [exact Hlt|congruence].
Qed.

Lemma order_alloc : forall m cur s gp, Inv m cur s ->
  forall l1 l2 e y d, log s = l2 ++ LFC e :: l1 -> In y l2 -> hentry y d ->
  ~ gdesc (upd (gpar s) (next s) gp) e d.
Proof.
  intros m cur s gp I l1 l2 e y d H H0 H1 G.
  assert (H2 : In y (log s)) by (rewrite H; apply in_or_app; left; assumption).
  pose proof (i_log_alloc I y d H2 H1) as A.
  eapply (i_order I); eauto.
  refine (gdesc_stable (gpar s) _ (next s) (i_gpar_lt I) _ e d A G).
  intros j Hj. rewrite upd_other by lia. reflexivity.
Qed.

Lemma load_fresh : forall m cur s, Inv m cur s ->
  0 = tload (next s) (tasks s) + tload (next s) (map wtask (waiters s)).
Proof.
  intros m cur s I. rewrite !tload_none; [reflexivity| |].
  - intros t Ht. apply in_map_iff in Ht. destruct Ht as [w [<- Ht]]. pose proof (i_waiter I _ Ht). lia.
  - intros t Ht. pose proof (i_task I _ Ht). lia.
Qed.

(* [alloc] extends every map at the id [next s]: is x the new event or an old one? *)
Ltac at_new x st := unfold upd in *; destruct (Nat.eqb_spec x (next st)); [subst x|].

Lemma inv_alloc : forall m cur s k sp gp, Inv m cur s ->
  (forall h, gp = Some h -> cur = Some h /\ cause s h = None) ->
  Inv m cur (alloc k sp gp s).
Proof.
  intros m cur s k sp gp I Hgp.
  assert (Hgp' : forall h, gp = Some h -> h < next s /\ phase s h = PActive /\ trk s h = false).
  { intros h E. destruct (Hgp h E) as [Hc Hca]. destruct (i_cur I h Hc) as [A B].
    repeat split; auto. destruct (trk s h) eqn:T; auto.
    pose proof (i_rel_fin I h T Hca). congruence. }
  constructor; simpl.
  - intros d c H. at_new d s; [discriminate|]. apply (i_cause_lt I) in H. lia.
  - intros d c H Hne. pose proof (i_cause_live I d c). at_new d s; [discriminate|].
    apply (i_cause_lt I) in H as L. destruct (Nat.eqb_spec c (next s)); [lia|auto].
  - intros e H. assert (e <> next s) by (intro; subst; rewrite upd_same in H; congruence).
    rewrite upd_other in H by assumption. rewrite upd_other by assumption.
    rewrite cnt_childb_upd by lia. rewrite childb_false by (rewrite upd_same; discriminate).
    rewrite (i_count I e H). unfold selfc. rewrite upd_other by assumption. lia.
  - intros e H. at_new e s; [congruence|]. exact (i_pos I e H).
  - intros e H. destruct (i_rel0 I e H). rewrite upd_other by lia. lia.
  - exact (i_logged I).
  - intros d h H. at_new d s; [apply Hgp' in H|apply (i_gpar_lt I) in H]; lia.
  - intros d h H. at_new d s.
    + destruct (Hgp' h H) as [? [? _]]. destruct (Nat.eqb_spec h (next s)); [lia|congruence].
    + pose proof (i_gpar_lt I _ _ H). destruct (Nat.eqb_spec h (next s)); [lia|]. exact (i_gpar_phase I _ _ H).
  - intros e H. at_new e s; [congruence|]. exact (i_trk_live I e H).
  - intros e H. at_new e s; [lia|]. apply (i_trk_alloc I) in H. lia.
  - intros e H. at_new e s; [discriminate|]. exact (i_rel_fin I e H).
  - intros d h H. at_new d s.
    + destruct (Hgp' h H) as [? [_ T]]. destruct (Nat.eqb_spec h (next s)); [lia|congruence].
    + pose proof (i_gpar_lt I _ _ H). destruct (Nat.eqb_spec h (next s)); [lia|]. exact (i_trk_kids I _ _ H).
  - intros d c H. at_new d s; [discriminate|]. exact (i_cause_shape I d c H).
  - intros d h H. at_new d s; [discriminate|]. intros G. pose proof (i_gpar_lt I _ _ G).
    destruct (Nat.eqb_spec h (next s)); [lia|]. exact (i_self_cause I d h H G).
  - intros e L. at_new e s; [reflexivity|]. apply (i_compl I). lia.
  - intros e L. at_new e s; [congruence|]. apply (i_disp_trk I). lia.
  - intros e H. apply in_app_or in H. destruct H as [H|[<-|[]]].
    + destruct (i_q I e H). rewrite upd_other by lia. split; [lia|assumption].
    + rewrite upd_same. split; [lia|reflexivity].
  - apply NoDup_snoc; [exact (i_q_nodup I)|]. intros H. apply (i_q I) in H. lia.
  - intros e L P. apply in_or_app. at_new e s; [right; left; reflexivity|left]. apply (i_qd I); [lia|exact P].
  - intros t H. destruct (i_task I t H). rewrite upd_other by lia. split; [lia|assumption].
  - intros w H. destruct (i_waiter I w H). rewrite upd_other by lia. split; [lia|assumption].
  - intros e. at_new e s; [|apply (i_wait I)]. apply (load_fresh _ _ _ I).
  - intros e P. at_new e s; [discriminate|]. exact (i_active I e P).
  - intros e H. destruct (i_cur I e H). rewrite upd_other by lia. split; [lia|assumption].
  - intros e H. destruct (i_fc I e H) as [T C]. apply (i_trk_alloc I) in T as L.
    rewrite !upd_other by lia. auto.
  - intros e T. at_new e s; [discriminate|]. exact (i_fc_conv I e T).
  - exact (i_fc_once I).
  - intros y d H E. pose proof (i_log_alloc I y d H E). lia.
  - exact (order_alloc _ _ _ gp I).
  - exact (i_oof I).
Qed.

Lemma inv_fire_link : forall s h c k sp, Inv MNone (Some h) s -> cause s h = Some c ->
  Inv MNone (Some h) (fire (Some h) k sp s).
Proof.
  intros s h c k sp I Ech. unfold fire, fire_g, link.
  destruct (i_cur I h eq_refl) as [Hh Hph].
  assert (Hc : cause (alloc k sp (Some h) s) h = Some c) by (simpl; rewrite upd_other by lia; exact Ech).
  rewrite Hc.
  assert (Hth : trk s h = true) by (apply (i_trk_live I); congruence).
  assert (Ia : Inv MNone (Some h) (alloc k sp None s)) by (apply inv_alloc; [exact I|discriminate]).
  frame Ia.
  - intros d c0 H. at_new d s; [inversion H; subst; lia|]. apply (i_cause_lt I) in H. lia.
  - intros d c0 H Hne. at_new d s.
    + inversion H; subst c0. destruct (Nat.eqb_spec h (next s)); [lia|congruence].
    + pose proof (i_cause_lt I _ _ H). destruct (Nat.eqb_spec c0 (next s)); [lia|].
      exact (i_cause_live I d c0 H Hne).
  - (* the new event is one more child of h and has no children itself *)
    intros e H. rewrite !cnt_childb_upd by lia. unfold selfc.
    destruct (Nat.eq_dec e (next s)) as [->|Hne].
    + rewrite childb_false by reflexivity. rewrite cnt_childb_none.
      * rewrite upd_other by lia. rewrite !upd_same. reflexivity.
      * intros d L _ E. apply (i_cause_lt I) in E. lia.
    + rewrite !upd_other in H by exact Hne. rewrite (upd_other _ (phase s)) by exact Hne.
      pose proof (i_count I e H) as C. unfold selfc in C. simpl in C.
      destruct (Nat.eq_dec e h) as [->|Hneh].
      * rewrite (proj2 (childb_true _ _ _)) by (split; [lia|apply upd_same]).
        rewrite upd_same, upd_other by lia. lia.
      * rewrite childb_false by (rewrite upd_same; congruence). rewrite !upd_other by (assumption || lia). lia.
  - intros e H. left. at_new e s; [destruct (Nat.eqb_spec (next s) h); lia|].
    destruct (i_pos I e H) as [P|[P|P]]; try discriminate.
    destruct (Nat.eqb_spec e h); [subst; destruct (Nat.eqb_spec h (next s)); lia|exact P].
  - intros e [H|H]; discriminate.
  - intros d h0 H. at_new d s; [inversion H; subst; lia|]. apply (i_gpar_lt I) in H. lia.
  - intros d h0 H. at_new d s.
    + inversion H; subst h0. destruct (Nat.eqb_spec h (next s)); [lia|congruence].
    + pose proof (i_gpar_lt I _ _ H). destruct (Nat.eqb_spec h0 (next s)); [lia|].
      exact (i_gpar_phase I _ _ H).
  - intros e H. at_new e s; [reflexivity|]. exact (i_trk_live I e H).
  - intros e H. at_new e s; [lia|]. apply (i_trk_alloc I) in H. lia.
  - intros e T C. at_new e s; [discriminate|]. exact (i_rel_fin I e T C).
  - intros d h0 G T. at_new d s; [reflexivity|]. pose proof (i_gpar_lt I _ _ G).
    destruct (Nat.eqb_spec h0 (next s)); [lia|]. exact (i_trk_kids I _ _ G T).
  - intros d c0 H Hne. at_new d s; [exact H|]. exact (i_cause_shape I d c0 H Hne).
  - intros d h0 H G. at_new d s; [inversion H; lia|]. pose proof (i_gpar_lt I _ _ G).
    destruct (Nat.eqb_spec h0 (next s)); [lia|]. exact (i_self_cause I d h0 H G).
  - intros e L P. at_new e s; [reflexivity|]. apply (i_disp_trk I); [lia|exact P].
  - intros e H. destruct (i_fc I e H) as [T [C|C]]; [|discriminate].
    apply (i_trk_alloc I) in T as L. rewrite !upd_other by lia. auto.
  - intros e T C. at_new e s; [discriminate|]. exact (i_fc_conv I e T C).
  - exact (order_alloc _ _ _ (Some h) I).
Qed.

Lemma inv_fire : forall cur s k sp, Inv MNone cur s -> Inv MNone cur (fire cur k sp s).
Proof.
  intros cur s k sp I. destruct cur as [h|].
  - destruct (cause s h) as [c|] eqn:E.
    + eapply inv_fire_link; eauto.
    + unfold fire, fire_g, link. destruct (i_cur I h eq_refl) as [Hh _].
      assert (Hc : cause (alloc k sp (Some h) s) h = None) by (simpl; rewrite upd_other by lia; exact E).
      rewrite Hc. apply inv_alloc; [assumption|]. intros h' Hh'. inversion Hh'; subst. auto.
  - unfold fire, fire_g. apply inv_alloc; [assumption|]. intros; discriminate.
Qed.

(* firing is allocation, up to the three tracking fields that [link] may write *)
Lemma fire_g_alloc : forall lk gp k sp s, exists c f t,
  fire_g lk gp k sp s = set_cause_eff (alloc k sp gp s) c f t.
Proof.
  intros. unfold fire_g. destruct lk as [h|]; [unfold link; destruct (cause (alloc k sp gp s) h)|];
    do 3 eexists; reflexivity.
Qed.

Lemma fire_add_log : forall h k sp y s, fire h k sp (add_log y s) = add_log y (fire h k sp s).
Proof.
  intros. destruct h as [h|]; unfold fire, fire_g, link; simpl; [|reflexivity].
  destruct (upd (cause s) (next s) None h); reflexivity.
Qed.

Lemma inv_fire_user : forall cur s sp, Inv MNone cur s -> Inv MNone cur (fire_user cur sp s).
Proof.
  intros cur s sp I. unfold fire_user, fire_user_g. change (fire_g cur cur) with (fire cur). rewrite fire_add_log.
  apply inv_add_log.
  - apply inv_fire; assumption.
  - intros; discriminate.
  - intros d Hd. simpl in Hd. subst d. destruct (fire_g_alloc cur cur KUser sp s) as [c [f [t E]]].
    unfold fire. rewrite E. simpl. rewrite upd_same. split; [lia|discriminate].
Qed.

Lemma inv_fire_all : forall cur l s, Inv MNone cur s -> Inv MNone cur (fire_all cur l s).
Proof.
  induction l as [|sp r IH]; simpl; intros s I; [assumption|]. apply IH. apply inv_fire_user; assumption.
Qed.

Lemma inv_start : forall roots, Inv MNone None (start roots).
Proof. intros. apply inv_fire_all. apply inv_init. Qed.

Definition dec_state (s : st) (e : nat) : st :=
  set_cause_eff s (cause s) (upd (effects s) e (effects s e - 1)%Z) (trk s).

Lemma inv_mdec_dead : forall e cur s, Inv (MDec e) cur s -> cause s e = None -> Inv MNone cur s.
Proof.
  intros e cur s I He. frame I; intros.
  - rewrite (i_count I _ H). simpl. destruct (Nat.eqb_spec e e0); [congruence|reflexivity].
  - destruct (i_pos I _ H) as [?|[?|?]]; try discriminate. left; assumption.
  - destruct H; discriminate.
  - discriminate.
  - destruct (i_fc I _ H) as [A [B|B]]; [auto|discriminate].
Qed.

Lemma inv_dec : forall e cur s, Inv (MDec e) cur s -> cause s e <> None ->
  Inv (if (0 <? effects s e - 1)%Z then MNone else MRel e) cur (dec_state s e).
Proof.
  intros e cur s I He. unfold dec_state.
  pose proof (i_count I _ He) as Ce. simpl in Ce. rewrite Nat.eqb_refl in Ce.
  assert (D : forall e0, is_dec (if (0 <? effects s e - 1)%Z then MNone else MRel e) e0 = false)
    by (intros; destruct (0 <? effects s e - 1)%Z; reflexivity).
  frame I; intros.
  - rewrite D. pose proof (i_count I _ H) as C. simpl in C. unfold upd.
    destruct (Nat.eqb_spec e0 e).
    + subst. lia.
    + destruct (Nat.eqb_spec e e0); [congruence|]. exact C.
  - unfold upd. destruct (Nat.eqb_spec e0 e).
    + subst. destruct (Z.ltb_spec 0 (effects s e - 1)); [left; lia|auto].
    + destruct (i_pos I _ H) as [?|[?|?]]; try discriminate. left; assumption.
  - destruct (0 <? effects s e - 1)%Z eqn:En; destruct H as [H|H]; inversion H; subst.
    apply Z.ltb_ge in En. rewrite upd_same.
    destruct (cause s e0) eqn:E; [|congruence]. apply (i_cause_lt I) in E. split; lia.
  - destruct (0 <? effects s e - 1)%Z; discriminate.
  - destruct (i_fc I _ H) as [A [B|B]]; [auto|discriminate].
Qed.

Lemma inv_log_fc : forall e cur s, Inv (MRel e) cur s -> cause s e <> None ->
  Inv (MLog e) cur (add_log (LFC e) s).
Proof.
  intros e cur s I He.
  assert (Hnot : ~ In (LFC e) (log s)).
  { intro H. destruct (i_fc I _ H) as [_ [B|B]]; [congruence|discriminate]. }
  frame I; intros.
  - destruct (i_pos I _ H) as [?|[?|?]]; try discriminate; auto.
    inversion H0; subst; auto.
  - destruct H as [H|H]; inversion H; subst. apply (i_rel0 I). left; reflexivity.
  - inversion H; subst. left; reflexivity.
  - destruct H as [H|H].
    + inversion H; subst. split; [apply (i_trk_live I); assumption|right; reflexivity].
    + destruct (i_fc I _ H) as [A [B|B]]; [auto|discriminate].
  - right. eapply i_fc_conv; eauto.
  - destruct (Nat.eqb_spec e e0).
    + subst. rewrite (fc_count_notin _ _ Hnot). lia.
    + simpl. apply (i_fc_once I).
  - destruct H as [<-|H]; [contradiction|]. eapply i_log_alloc; eauto.
  - destruct l2 as [|z l2]; simpl in H.
    + contradiction.
    + inversion H; subst z. destruct H0 as [<-|H0]; [contradiction|]. eapply i_order; eauto.
Qed.

Lemma inv_release : forall m e c cur s, Inv m cur s ->
  (m = MRel e /\ compl s e = false) \/ m = MLog e -> cause s e = Some c ->
  Inv (if Nat.eqb c e then MNone else MDec c) cur
      (set_cause_eff s (upd (cause s) e None) (upd (effects s) e 0%Z) (trk s)).
Proof.
  intros m e c cur s I Hm Hc.
  assert (Hm' : m = MRel e \/ m = MLog e) by tauto.
  destruct (i_rel0 I _ Hm') as [Hlt H0].
  assert (He : cause s e <> None) by congruence.
  pose proof (i_count I _ He) as Ce.
  assert (Hd : is_dec m e = false) by (destruct Hm' as [->| ->]; reflexivity).
  rewrite Hd, H0 in Ce.
  assert (Hself : phase s e = PFin) by (unfold selfc in Ce; destruct (phase s e); try lia; reflexivity).
  assert (Hcnt : cnt (childb (cause s) e) (next s) = 0) by lia.
  assert (Hnokid : forall d c0, cause s d = Some c0 -> c0 = e -> d = e).
  { intros d c0 Hd0 ->. destruct (Nat.eq_dec d e); [assumption|exfalso].
    pose proof (i_cause_lt I _ _ Hd0) as [A _].
    pose proof (cnt_zero_inv _ _ Hcnt d A) as B. rewrite (proj2 (childb_true _ _ _)) in B by auto. discriminate. }
  assert (Hnm : forall e', e' <> e -> is_dec m e' = false) by (intros; destruct Hm' as [->| ->]; reflexivity).
  frame I; intros.
  - unfold upd in H. destruct (Nat.eqb_spec d e); [discriminate|]. eapply i_cause_lt; eauto.
  - unfold upd in *. destruct (Nat.eqb_spec d e); [discriminate|].
    destruct (Nat.eqb_spec c0 e).
    + subst. exfalso. apply n. eapply Hnokid; eauto.
    + eapply i_cause_live; eauto.
  - (* count: only the parent c loses a child *)
    unfold upd in H. destruct (Nat.eqb_spec e0 e) as [|Hne]; [congruence|].
    rewrite upd_other by assumption. rewrite (i_count I _ H). rewrite (Hnm _ Hne).
    pose proof (cnt_childb_set (cause s) e None e0 (next s) Hlt) as C.
    rewrite (childb_false (upd _ _ _)) in C by (rewrite upd_same; discriminate).
    assert (D : is_dec (if c =? e then MNone else MDec c) e0 = (c =? e0)).
    { destruct (Nat.eqb_spec c e); [subst c|reflexivity]. symmetry. apply Nat.eqb_neq. congruence. }
    rewrite D. destruct (Nat.eqb_spec c e0).
    + subst e0. rewrite (proj2 (childb_true _ _ _)) in C by auto. lia.
    + rewrite childb_false in C by congruence. lia.
  - unfold upd in H. destruct (Nat.eqb_spec e0 e) as [|Hne]; [congruence|]. left.
    rewrite upd_other by assumption.
    destruct (i_pos I _ H) as [?|[?|?]]; [assumption| |]; subst m; destruct Hm' as [X|X]; inversion X; congruence.
  - destruct (c =? e); destruct H; discriminate.
  - destruct (c =? e); discriminate.
  - unfold upd in H. destruct (Nat.eqb_spec e0 e); [congruence|]. eapply i_trk_live; eauto.
  - unfold upd in H1. destruct (Nat.eqb_spec e0 e); [subst; assumption|]. eapply i_rel_fin; eauto.
  - unfold upd in H. destruct (Nat.eqb_spec d e); [discriminate|]. eapply i_cause_shape; eauto.
  - unfold upd in H. destruct (Nat.eqb_spec d e); [discriminate|]. eapply i_self_cause; eauto.
  - destruct (i_fc I _ H) as [A B]. split; [assumption|]. left. unfold upd.
    destruct (Nat.eqb_spec e0 e); [reflexivity|]. destruct B as [B|B]; [assumption|].
    subst m. destruct Hm' as [X|X]; inversion X; congruence.
  - unfold upd in H1. destruct (Nat.eqb_spec e0 e); [|exact (i_fc_conv I _ H H1 H2 H3)].
    subst e0. destruct Hm as [[_ Hcf]| ->].
    + rewrite (i_compl I _ Hlt H2) in Hcf. congruence.
    + apply (i_logged I). reflexivity.
Qed.

Lemma walk_dead : forall f e s, cause s e = None -> walk (S f) e s = s.
Proof. intros. simpl. rewrite H. reflexivity. Qed.

Lemma inv_walk : forall fuel e cur s, e + 2 <= fuel -> Inv (MDec e) cur s ->
  Inv MNone cur (walk fuel e s).
Proof.
  induction fuel as [|f IH]; intros e cur s Hf I; [lia|].
  simpl. destruct (cause s e) as [c|] eqn:Ec; [|eapply inv_mdec_dead; eauto].
  assert (He : cause s e <> None) by congruence.
  pose proof (inv_dec e cur s I He) as I1. fold (dec_state s e).
  destruct (0 <? effects s e - 1)%Z; [exact I1|].
  destruct (i_cause_lt I _ _ Ec) as [Hlt Hle].
  set (s1 := dec_state s e) in *.
  match goal with |- Inv _ _ (walk f c ?t) => set (s3 := t) end.
  assert (I3 : Inv (if Nat.eqb c e then MNone else MDec c) cur s3).
  { subst s3. change (compl s e) with (compl s1 e). destruct (compl s1 e) eqn:Eco.
    - unfold fire_complete.
      assert (I2 : Inv (MLog e) cur (alloc (KCompl e) dummy None (add_log (LFC e) s1))).
      { apply inv_alloc; [apply inv_log_fc; assumption|]. intros; discriminate. }
      apply (inv_release (MLog e) e c); auto.
      simpl. rewrite upd_other by (simpl; lia). exact Ec.
    - apply (inv_release (MRel e) e c); auto. }
  destruct (Nat.eqb_spec c e) as [->|Hne].
  - (* the root of the tracking tree: the next round finds no cause attribute *)
    destruct f as [|f']; [lia|]. rewrite walk_dead; [exact I3|]. apply upd_same.
  - apply IH; [lia|assumption].
Qed.

Definition qpop (l : list nat) (e : nat) (q : list nat) : Prop :=
  In e l /\ NoDup q /\ forall x, In x q <-> (In x l /\ x <> e).

Lemma remove_nth_qpop : forall l p e, nth_error l p = Some e -> NoDup l -> qpop l e (remove_nth p l).
Proof.
  unfold qpop. induction l as [|a r IH]; intros [|p] e H N; simpl in *; try discriminate.
  - inversion H; subst. inversion N; subst. split; [auto|]. split; [assumption|].
    intros x. split.
    + intros Hx. split; [auto|]. intros ->. contradiction.
    + intros [[->|Hx] Hne]; [congruence|assumption].
  - inversion N; subst. destruct (IH p e H H3) as [A [B C]]. split; [auto|]. split.
    + constructor; [|assumption]. intro X. apply C in X. tauto.
    + intros x. split.
      * intros [->|Hx]; [split; [auto|]|apply C in Hx; tauto]. intros ->. contradiction.
      * intros [[->|Hx] Hne]; [left; reflexivity|right; apply C; tauto].
Qed.

Lemma inactive_idle : forall m cur s e, Inv m cur s -> phase s e <> PActive ->
  (forall t, In t (tasks s) -> tev t <> e) /\ (forall w, In w (waiters s) -> tev (wtask w) <> e).
Proof.
  intros m cur s e I P. split.
  - intros t Ht E. destruct (i_task I t Ht) as [_ A]. congruence.
  - intros w Hw E. destruct (i_waiter I w Hw) as [_ A]. congruence.
Qed.

Lemma inactive_waiting : forall m cur s e, Inv m cur s -> phase s e <> PActive -> waiting s e = 0.
Proof.
  intros m cur s e I P. destruct (inactive_idle _ _ _ _ I P) as [T W].
  rewrite (i_wait I), !tload_none; [reflexivity| |exact T].
  intros t Ht. apply in_map_iff in Ht. destruct Ht as [w [<- Hw]]. exact (W w Hw).
Qed.

Lemma queued_childless : forall m cur s e, Inv m cur s -> phase s e = PQueued ->
  (forall d h, gpar s d = Some h -> h <> e) /\ (forall d c, cause s d = Some c -> c <> d -> c <> e).
Proof.
  intros m cur s e I P. split.
  - intros d h G ->. exact (i_gpar_phase I _ _ G P).
  - intros d c C N ->. exact (i_gpar_phase I _ _ (i_cause_shape I _ _ C N) P).
Qed.

Lemma load_zero : forall m cur s e, Inv m cur s -> waiting s e = 0 ->
  (forall t, In t (tasks s) -> tev t <> e) /\ (forall w, In w (waiters s) -> tev (wtask w) <> e).
Proof.
  intros m cur s e I Hw. rewrite (i_wait I) in Hw. split.
  - apply tload_zero. lia.
  - intros w Hin. apply (tload_zero e (map wtask (waiters s))); [lia|]. apply in_map. assumption.
Qed.

Lemma inv_pop : forall s e q, Inv MNone None s -> qpop (queue s) e q ->
  (ev_canc (spec s e) = false -> ev_compl (spec s e) = true -> trk s e = true) ->
  Inv MNone (Some e) (set_phase (set_queue s q) (upd (phase s) e PActive)).
Proof.
  intros s e q I [Hin [Hnd Hq]] Htr.
  destruct (i_q I e Hin) as [Hlt Hph].
  destruct (inactive_idle _ _ _ e I) as [Ht Hw]; [congruence|].
  frame I; intros.
  - rewrite (i_count I _ H). unfold selfc, upd. destruct (Nat.eqb_spec e0 e); [subst; rewrite Hph|]; reflexivity.
  - unfold upd. destruct (Nat.eqb_spec h e); [discriminate|]. eapply i_gpar_phase; eauto.
  - pose proof (i_rel_fin I _ H H0). rewrite upd_other; congruence.
  - unfold upd in H0. destruct (Nat.eqb_spec e0 e); [subst; auto|eapply i_disp_trk; eauto].
  - apply Hq in H. destruct H as [H N]. rewrite upd_other by exact N. exact (i_q I _ H).
  - unfold upd in H0. destruct (Nat.eqb_spec e0 e); [discriminate|].
    apply Hq. split; [eapply i_qd; eauto|assumption].
  - rewrite upd_other by (apply Ht; assumption). eapply i_task; eauto.
  - rewrite upd_other by (apply Hw; assumption). eapply i_waiter; eauto.
  - unfold upd in H. destruct (Nat.eqb_spec e0 e); [subst; left; reflexivity|].
    destruct (i_active I _ H); [discriminate|right; assumption].
  - inversion H; subst. rewrite upd_same. auto.
Qed.

Lemma inv_track_root : forall s e, Inv MNone None s -> In e (queue s) -> cause s e = None ->
  Inv MNone None (set_cause_eff s (upd (cause s) e (Some e)) (upd (effects s) e 1%Z) (upd (trk s) e true)).
Proof.
  intros s e I Hin Hca. destruct (i_q I e Hin) as [Hlt Hph].
  destruct (queued_childless _ _ _ _ I Hph) as [Hg Hc].
  assert (Htr : trk s e = false).
  { destruct (trk s e) eqn:T; [|reflexivity]. pose proof (i_rel_fin I _ T Hca). congruence. }
  frame I; intros.
  - unfold upd in H. destruct (Nat.eqb_spec d e); [inversion H; subst; lia|]. eapply i_cause_lt; eauto.
  - unfold upd in *. destruct (Nat.eqb_spec c e); [discriminate|].
    destruct (Nat.eqb_spec d e); [congruence|]. eapply i_cause_live; eauto.
  - unfold upd in H |- * at 1. destruct (Nat.eqb_spec e0 e) as [E|N]; [subst e0|].
    + unfold selfc. rewrite Hph, cnt_childb_none; [reflexivity|].
      intros d _ N. rewrite upd_other by exact N. intros E. exact (Hc d e E (not_eq_sym N) eq_refl).
    + pose proof (cnt_childb_set (cause s) e (Some e) e0 (next s) Hlt) as C.
      rewrite !childb_false in C by (rewrite ?upd_same; congruence).
      rewrite (i_count I _ H). simpl. lia.
  - left. unfold upd in *. destruct (Nat.eqb_spec e0 e); [lia|].
    destruct (i_pos I _ H) as [?|[?|?]]; try discriminate; assumption.
  - destruct H; discriminate.
  - unfold upd in *. destruct (Nat.eqb_spec e0 e); [reflexivity|]. eapply i_trk_live; eauto.
  - unfold upd in H. destruct (Nat.eqb_spec e0 e); [subst; assumption|]. eapply i_trk_alloc; eauto.
  - unfold upd in *. destruct (Nat.eqb_spec e0 e); [discriminate|]. eapply i_rel_fin; eauto.
  - unfold upd in *. destruct (Nat.eqb_spec h e); [subst; exfalso; eapply Hg; eauto|].
    destruct (Nat.eqb_spec d e); [reflexivity|]. eapply i_trk_kids; eauto.
  - unfold upd in H. destruct (Nat.eqb_spec d e); [inversion H; subst; congruence|]. eapply i_cause_shape; eauto.
  - rewrite upd_other by (eapply Hg; eauto).
    unfold upd in H. destruct (Nat.eqb_spec d e).
    + subst d. destruct (trk s h) eqn:T; [|reflexivity]. pose proof (i_trk_kids I _ _ H0 T). congruence.
    + eapply i_self_cause; eauto.
  - unfold upd in *. destruct (Nat.eqb_spec e0 e); [reflexivity|]. eapply i_disp_trk; eauto.
  - destruct (i_fc I _ H) as [A [B|B]]; [|discriminate].
    assert (e0 <> e) by (intros ->; congruence). rewrite !upd_other by assumption. auto.
  - unfold upd in *. destruct (Nat.eqb_spec e0 e); [discriminate|]. eapply i_fc_conv; eauto.
Qed.

(* a queued event counts itself and nothing else *)
Lemma queued_effects : forall s e, Inv MNone None s -> In e (queue s) -> cause s e <> None ->
  effects s e = 1%Z.
Proof.
  intros s e I Hin Hca. destruct (i_q I e Hin) as [_ Hph].
  destruct (queued_childless _ _ _ _ I Hph) as [_ Hc].
  rewrite (i_count I e Hca). unfold selfc. rewrite Hph, cnt_childb_none; [reflexivity|].
  intros d _ N E. exact (Hc d e E (not_eq_sym N) eq_refl).
Qed.

Lemma inv_track_nested : forall s e, Inv MNone None s -> In e (queue s) -> cause s e <> None ->
  Inv MNone None (set_cause_eff s (cause s) (upd (effects s) e 1%Z) (trk s)).
Proof.
  intros s e I Hin Hca. pose proof (queued_effects s e I Hin Hca) as E1.
  assert (E : forall j, upd (effects s) e 1%Z j = effects s j).
  { intros j. unfold upd. destruct (Nat.eqb_spec j e); congruence. }
  frame I; intros; rewrite E.
  - exact (i_count I _ H).
  - exact (i_pos I _ H).
  - exact (i_rel0 I _ H).
Qed.

Lemma inv_set_compl : forall m cur s e b, Inv m cur s -> ev_canc (spec s e) = true ->
  Inv m cur (set_compl s (upd (compl s) e b)).
Proof.
  intros m cur s e b I Hx. frame I; intros e0 L X.
  rewrite upd_other by congruence. exact (i_compl I e0 L X).
Qed.

(* P is given pointwise: a cancelled event reaches PFin without the state ever showing PActive *)
Lemma inv_fin : forall s e P, Inv MNone (Some e) s -> waiting s e = 0 ->
  P e = PFin -> (forall j, j <> e -> P j = phase s j) ->
  Inv (MDec e) None (set_phase s P).
Proof.
  intros s e P I Hw HPe HP.
  destruct (i_cur I _ eq_refl) as [Hlt Hph].
  destruct (load_zero _ _ _ _ I Hw) as [Ht Hwt].
  frame I; intros.
  - rewrite (i_count I _ H). unfold selfc. destruct (Nat.eqb_spec e e0) as [E|N].
    + subst e0. rewrite HPe, Hph. simpl. lia.
    + rewrite HP by congruence. reflexivity.
  - destruct (i_pos I _ H) as [?|[?|?]]; try discriminate. left; assumption.
  - destruct H; discriminate.
  - discriminate.
  - destruct (Nat.eq_dec h e) as [->|N]; [rewrite HPe; discriminate|].
    rewrite HP by exact N. eapply i_gpar_phase; eauto.
  - destruct (Nat.eq_dec e0 e) as [->|N]; [exact HPe|]. rewrite HP by exact N. eapply i_rel_fin; eauto.
  - apply (i_disp_trk I); auto.
    destruct (Nat.eq_dec e0 e) as [->|N]; [congruence|]. rewrite <- HP by exact N. assumption.
  - destruct (i_q I _ H) as [A B]. split; [exact A|]. rewrite HP; congruence.
  - apply (i_qd I); [assumption|]. rewrite <- HP; congruence.
  - destruct (i_task I _ H) as [A B]. split; [exact A|]. rewrite HP; auto.
  - destruct (i_waiter I _ H) as [A B]. split; [exact A|]. rewrite HP; auto.
  - right. assert (N : e0 <> e) by congruence. rewrite HP in H by exact N.
    destruct (i_active I _ H) as [X|X]; [congruence|exact X].
  - discriminate.
  - destruct (i_fc I _ H) as [A [B|B]]; [auto|discriminate].
Qed.

Lemma inv_active_fin : forall s e, Inv MNone (Some e) s -> waiting s e = 0 ->
  Inv (MDec e) None (set_phase s (upd (phase s) e PFin)).
Proof. intros s e I Hw. apply inv_fin; auto using upd_same, upd_other. Qed.

(* <e>_done and <e>_success are fired untracked.  A conjunction on both sides, so that the two optional
   allocations of [finish] chain and [apply] takes the half it needs *)
Lemma inv_alloc_opt : forall (b : bool) k s e, Inv MNone (Some e) s /\ waiting s e = 0 ->
  Inv MNone (Some e) (if b then alloc k dummy None s else s) /\
  waiting (if b then alloc k dummy None s else s) e = 0.
Proof.
  intros [|] k s e [I W]; [|auto]. destruct (i_cur I e eq_refl) as [L _].
  split; [apply inv_alloc; [exact I|discriminate]|]. simpl. rewrite upd_other by lia. exact W.
Qed.

Lemma inv_finish : forall s e, Inv MNone (Some e) s -> waiting s e = 0 -> Inv MNone None (finish e s).
Proof.
  intros s e I Hw. unfold finish. cbv zeta.
  apply inv_walk; [lia|]. apply inv_active_fin; apply inv_alloc_opt, inv_alloc_opt; auto.
Qed.

Lemma inv_finish_raise : forall s e, Inv MNone (Some e) s -> waiting s e = 0 -> Inv MNone None (finish_raise e s).
Proof.
  intros s e I Hw. unfold finish_raise. cbv zeta.
  destruct (i_cur I _ eq_refl) as [Hlt _].
  apply inv_walk; [lia|]. apply inv_active_fin; destruct (alert s e); auto using inv_fire.
  destruct (fire_g_alloc (Some e) (Some e) (KDone e) dummy s) as [c [f [t E]]].
  unfold fire. rewrite E. simpl. rewrite upd_other by lia. assumption.
Qed.

Lemma inv_uncur : forall s e, Inv MNone (Some e) s -> 0 < waiting s e -> Inv MNone None s.
Proof.
  intros s e I Hw. frame I; intros.
  - destruct (i_active I _ H) as [X|X]; [inversion X; subst; right; assumption|right; assumption].
  - discriminate.
Qed.

Lemma inv_gate : forall s e, Inv MNone (Some e) s -> Inv MNone None (gate e s).
Proof.
  intros s e I. unfold gate. destruct (Nat.eqb_spec (waiting s e) 0).
  - apply inv_finish; assumption.
  - eapply inv_uncur; eauto. lia.
Qed.

Lemma inv_gate_raise : forall s e, Inv MNone (Some e) s -> Inv MNone None (gate_raise e s).
Proof.
  intros s e I. unfold gate_raise. destruct (Nat.eqb_spec (waiting s e) 0).
  - apply inv_finish_raise; assumption.
  - eapply inv_uncur; eauto. lia.
Qed.

Lemma inv_setcur : forall s e, Inv MNone None s -> e < next s -> phase s e = PActive -> Inv MNone (Some e) s.
Proof.
  intros s e I Hlt Hph. frame I; intros.
  - destruct (i_active I _ H) as [X|X]; [discriminate|right; assumption].
  - inversion H; subst. auto.
Qed.

Lemma inv_set_flags : forall m cur s a b c, Inv m cur s -> Inv m cur (set_flags s a b c).
Proof. intros m cur s a b c I. frame I. Qed.

Lemma inv_add_task : forall s e i steps, Inv MNone (Some e) s -> Inv MNone (Some e) (add_task e i steps s).
Proof.
  intros s e i steps I. destruct (i_cur I _ eq_refl) as [Hlt Hph]. unfold add_task.
  frame I; intros.
  - apply in_app_or in H. destruct H as [H|[<-|[]]]; [eapply i_task; eauto|simpl; auto].
  - rewrite tload_app. simpl. unfold upd, tw. simpl. destruct (Nat.eqb_spec e0 e).
    + subst. rewrite Nat.eqb_refl, (i_wait I e). lia.
    + destruct (Nat.eqb_spec e e0); [congruence|]. rewrite (i_wait I e0). lia.
  - unfold upd. destruct (Nat.eqb_spec e0 e); [right; lia|eapply i_active; eauto].
Qed.

Lemma fire_all_tasks : forall lk gp l s, tasks (fire_all_g lk gp l s) = tasks s.
Proof.
  induction l as [|sp r IH]; simpl; intros s; [reflexivity|].
  rewrite IH. unfold fire_user_g.
  destruct (fire_g_alloc lk gp KUser sp (add_log (LF (next s)) s)) as [c [f [t ->]]]. reflexivity.
Qed.

Lemma inv_fire_errs : forall s e, Inv MNone (Some e) s -> Inv MNone (Some e) (fire_errs e s).
Proof.
  intros s e I. unfold fire_errs. cbv zeta. apply inv_fire.
  match goal with |- Inv _ _ (if ?c then _ else _) => destruct c end.
  - apply inv_fire. apply inv_set_flags. assumption.
  - apply inv_set_flags. assumption.
Qed.

(* [fire_errs] as the raising generator step of [step_task] spells it *)
Lemma fire_errs_eq : forall e s, fire_errs e s =
  fire_g (Some e) (Some e) (KExc e) dummy
    (if ev_fail (spec (set_flags s (upd (errs s) e true) (alert s) (stopd s)) e)
     then fire_g (Some e) (Some e) (KFail e) dummy (set_flags s (upd (errs s) e true) (alert s) (stopd s))
     else set_flags s (upd (errs s) e true) (alert s) (stopd s)).
Proof. reflexivity. Qed.

Lemma inv_run_handlers : forall hs e i ch s, Inv MNone (Some e) s -> Inv MNone (Some e) (run_handlers e i ch hs s).
Proof.
  induction hs as [|h r IH]; intros e i ch s I; simpl; [assumption|].
  destruct (i_cur I _ eq_refl) as [Hlt Hph].
  destruct (negb (hchan h =? ch)); [apply IH; assumption|].
  destruct h as [c kids stop raise|c steps].
  - assert (I1 : Inv MNone (Some e) (fire_all (Some e) kids (add_log (LH e i) s))).
    { apply inv_fire_all. apply inv_log_cur; [assumption|discriminate|auto]. }
    set (s1 := fire_all (Some e) kids (add_log (LH e i) s)) in *.
    assert (I2 : Inv MNone (Some e) (if stop then set_flags s1 (errs s1) (alert s1) (upd (stopd s1) e true) else s1)).
    { destruct stop; [apply inv_set_flags|]; assumption. }
    set (s2 := if stop then set_flags s1 (errs s1) (alert s1) (upd (stopd s1) e true) else s1) in *.
    assert (I3 : Inv MNone (Some e) (if raise then fire_errs e s2 else s2)).
    { destruct raise; [apply inv_fire_errs|]; assumption. }
    destruct stop; [assumption|]. apply IH; assumption.
  - apply IH. apply inv_add_task; assumption.
Qed.

Lemma inv_wake : forall s x cur, Inv MNone cur s -> Inv MNone cur (wake x s).
Proof.
  intros s x cur I. unfold wake.
  frame I; intros.
  - apply in_app_or in H. destruct H as [H|H]; [eapply i_task; eauto|].
    apply in_map_iff in H. destruct H as [w [<- Hw]]. apply filter_In in Hw. destruct Hw as [Hw _].
    eapply i_waiter; eauto.
  - apply filter_In in H. destruct H as [H _]. eapply i_waiter; eauto.
  - rewrite tload_app. rewrite (i_wait I e).
    pose proof (tload_filter e (fun w => wev w =? x) (waiters s)). lia.
Qed.

Lemma inv_dispatch : forall s e q, Inv MNone None s -> qpop (queue s) e q ->
  Inv MNone None (dispatch fixed e (set_queue s q)).
Proof.
  intros s e q I Hq. unfold dispatch. cbv zeta.
  change (spec (set_queue s q) e) with (spec s e).
  destruct (ev_canc (spec s e)) eqn:Hx.
  - simpl fix_cancel. cbv iota. apply inv_walk; [lia|].
    (* a cancelled event is taken from the queue like any other and finishes at once *)
    apply (inv_fin (set_phase (set_queue (set_compl s (upd (compl s) e false)) q) (upd (phase s) e PActive)) e).
    + apply (inv_pop (set_compl s (upd (compl s) e false)) e q); [apply inv_set_compl; assumption|exact Hq|].
      simpl. congruence.
    + apply (inactive_waiting MNone None s e I). destruct Hq as [Hin _]. destruct (i_q I e Hin). congruence.
    + apply upd_same.
    + intros j N. simpl. rewrite !upd_other by exact N. reflexivity.
  - match goal with |- Inv _ _ (gate e (match kind ?t e with _ => _ end)) => set (s1 := t) end.
    assert (I1 : Inv MNone (Some e) s1).
    { subst s1. simpl (compl _ e). simpl (cause _ e).
      pose proof Hq as [Hin _]. destruct (i_q I e Hin) as [Hlt _].
      pose proof (i_compl I e Hlt Hx) as Hco.
      (* the tracking fields are set while the event is still queued *)
      destruct (compl s e); [destruct (cause s e) as [c|] eqn:Hca|].
      - apply (inv_pop (set_cause_eff s (cause s) (upd (effects s) e 1%Z) (trk s)) e q); [|exact Hq|].
        + apply inv_track_nested; [exact I|exact Hin|congruence].
        + intros _ _. apply (i_trk_live I). congruence.
      - apply (inv_pop (set_cause_eff s (upd (cause s) e (Some e)) (upd (effects s) e 1%Z) (upd (trk s) e true)) e q);
          [|exact Hq|].
        + apply inv_track_root; assumption.
        + intros _ _. apply upd_same.
      - apply (inv_pop s e q); [exact I|exact Hq|congruence]. }
    apply inv_gate. destruct (kind s1 e).
    + cbv zeta. match goal with |- Inv _ _ (if ?c then _ else _) => destruct c end;
        [apply inv_set_flags|]; apply inv_run_handlers; assumption.
    + apply inv_log_cur; [assumption|discriminate|intros d []].
    + apply inv_log_cur; [assumption|discriminate|auto].
    + apply inv_log_cur; [assumption|discriminate|auto].
    + apply inv_log_cur; [assumption|discriminate|auto].
    + apply inv_wake. apply inv_log_cur; [assumption|discriminate|auto].
Qed.

Lemma inv_task_update : forall s e ts' ws' W', Inv MNone (Some e) s ->
  (forall x, In x ts' -> In x (tasks s) \/ tev x = e) ->
  (forall w, In w ws' -> In w (waiters s) \/ tev (wtask w) = e) ->
  (forall e0, W' e0 = tload e0 ts' + tload e0 (map wtask ws')) ->
  (forall e0, e0 <> e -> W' e0 = waiting s e0) ->
  Inv MNone (Some e) (set_tasks s W' ts' ws').
Proof.
  intros s e ts' ws' W' I Ht Hw HW Hne. destruct (i_cur I _ eq_refl) as [Hlt Hph].
  frame I; intros.
  - destruct (Ht _ H) as [X|X]; [eapply i_task; eauto|rewrite X; auto].
  - destruct (Hw _ H) as [X|X]; [eapply i_waiter; eauto|rewrite X; auto].
  - destruct (Nat.eq_dec e0 e) as [->|N]; [left; reflexivity|].
    rewrite (Hne _ N). destruct (i_active I _ H) as [X|X]; [inversion X; congruence|right; assumption].
Qed.

Lemma inv_task_end : forall s e p t, Inv MNone (Some e) s -> nth_error (tasks s) p = Some t -> tev t = e ->
  Inv MNone (Some e) (task_end (tw t) p e s).
Proof.
  intros s e p t I Hn He. unfold task_end.
  apply inv_task_update; auto.
  - intros x Hx. left. eapply in_remove_nth; eauto.
  - intros e0. pose proof (tload_remove e0 _ _ _ Hn) as R. pose proof (i_wait I e0) as W.
    unfold upd. destruct (Nat.eqb_spec e0 e).
    + subst e0. rewrite He, Nat.eqb_refl in R. lia.
    + rewrite He in R. destruct (Nat.eqb_spec e e0); [congruence|]. lia.
  - intros e0 N. apply upd_other. assumption.
Qed.

Lemma inv_task_replace : forall s e p t t' W', Inv MNone (Some e) s -> nth_error (tasks s) p = Some t ->
  tev t = e -> tev t' = e -> tw t' <= tw t ->
  (forall e0, W' e0 = upd (waiting s) e (waiting s e - (tw t - tw t')) e0) ->
  Inv MNone None (set_tasks s W' (replace_nth p t' (tasks s)) (waiters s)).
Proof.
  intros s e p t t' W' I Hn He He' Hle HW.
  pose proof (tload_replace e _ p t t' Hn) as R. rewrite He, He', Nat.eqb_refl in R.
  pose proof (i_wait I e) as W. pose proof (tw_pos t').
  apply (inv_uncur _ e).
  - apply inv_task_update; auto.
    + intros x Hx. apply in_replace_nth in Hx. destruct Hx as [->|Hx]; auto.
    + intros e0. rewrite HW. pose proof (tload_replace e0 _ p t t' Hn) as R0. pose proof (i_wait I e0) as W0.
      unfold upd. destruct (Nat.eqb_spec e0 e).
      * subst e0. lia.
      * rewrite He in R0. rewrite He' in R0. destruct (Nat.eqb_spec e e0); [congruence|]. lia.
    + intros e0 N. rewrite HW. apply upd_other. assumption.
  - simpl. rewrite HW, upd_same.
    pose proof (tload_remove e _ _ _ Hn) as R'. rewrite He, Nat.eqb_refl in R'. lia.
Qed.

Lemma inv_gen_return : forall s p t, Inv MNone (Some (tev t)) s -> nth_error (tasks s) p = Some t ->
  Inv MNone None (gen_return p t s).
Proof.
  intros s p t I Hn. unfold gen_return. cbv zeta. destruct (tmode t) eqn:Hm.
  2: { set (t' := {| tev := tev t; thd := thd t; tk := tk t; trest := []; tmode := TExh |}).
       eapply inv_task_replace; eauto.
       - unfold tw. rewrite Hm. simpl. lia.
       - intros e0. unfold upd, tw. rewrite Hm. simpl. destruct (e0 =? tev t); [lia|reflexivity]. }
  all: apply inv_gate; replace 1 with (tw t) by (unfold tw; rewrite Hm; reflexivity);
    eapply inv_task_end; eauto.
Qed.

Lemma inv_step_task : forall s p, Inv MNone None s -> Inv MNone None (step_task fixed p s).
Proof.
  intros s p I. unfold step_task. destruct (nth_error (tasks s) p) as [t|] eqn:Hn; [|assumption].
  cbv zeta. simpl fix_gen. cbv iota.
  destruct (i_task I _ (nth_error_In _ _ Hn)) as [Hlt Hph].
  pose proof (inv_setcur _ _ I Hlt Hph) as Ic.
  set (e := tev t) in *. set (s0 := add_log (LG e (thd t) (tk t)) s).
  (* the step is logged and fires its events with e current; the task list stays as it is *)
  assert (Hfire : forall kids, let s1 := fire_all_g (Some e) (Some e) kids s0 in
                    Inv MNone (Some e) s1 /\ nth_error (tasks s1) p = Some t).
  { intros kids. split.
    - apply inv_fire_all, inv_log_cur; [assumption|discriminate|auto].
    - rewrite fire_all_tasks. exact Hn. }
  destruct (trest t) as [|[kids|kids|callee] rest] eqn:Hr.
  - apply inv_gen_return; assumption.
  - (* plain step *)
    destruct (Hfire kids) as [I1 Hn1]. set (s1 := fire_all_g (Some e) (Some e) kids s0) in *.
    destruct rest as [|st rest'].
    + apply inv_gen_return; assumption.
    + set (t' := {| tev := e; thd := thd t; tk := S (tk t); trest := st :: rest'; tmode := TRun |}).
      eapply (inv_task_replace s1 e p t t'); eauto.
      * unfold tw. simpl. destruct (tmode t); lia.
      * intros e0. unfold upd, tw. simpl. destruct (tmode t); simpl;
          destruct (Nat.eqb_spec e0 e); subst; try reflexivity; lia.
  - (* raising step *)
    destruct (Hfire kids) as [I1 Hn1]. set (s1 := fire_all_g (Some e) (Some e) kids s0) in *.
    change (match tmode t with TResume => 2 | _ => 1 end) with (tw t).
    pose proof (inv_task_end s1 e p t I1 Hn1 eq_refl) as I2.
    apply inv_gate_raise. rewrite <- fire_errs_eq. exact (inv_fire_errs _ e I2).
  - (* yield self.call(callee) *)
    destruct (Hfire [callee]) as [I1 Hn1].
    change (fire_user_g (Some e) (Some e) callee s0) with (fire_all_g (Some e) (Some e) [callee] s0).
    set (s1 := fire_all_g (Some e) (Some e) [callee] s0) in *.
    set (t' := {| tev := e; thd := thd t; tk := S (tk t); trest := rest; tmode := TResume |}).
    set (w := {| wev := next s0; wtask := t' |}).
    pose proof (i_wait I1 e) as We.
    pose proof (tload_remove e _ _ _ Hn1) as Re. fold e in Re. rewrite Nat.eqb_refl in Re.
    assert (Hload : forall e0, tload e0 (map wtask (waiters s1 ++ [w])) =
                               tload e0 (map wtask (waiters s1)) + (if Nat.eqb e e0 then 2 else 0)).
    { intros e0. rewrite map_app, tload_app. simpl. unfold tw. simpl. lia. }
    apply (inv_uncur _ e).
    + apply inv_task_update; auto.
      * intros x Hx. left. eapply in_remove_nth; eauto.
      * intros x Hx. apply in_app_or in Hx. destruct Hx as [Hx|[<-|[]]]; auto.
      * intros e0. rewrite Hload. pose proof (tload_remove e0 _ _ _ Hn1) as R0. fold e in R0.
        pose proof (i_wait I1 e0) as W0. unfold tw in *.
        destruct (tmode t); unfold upd; destruct (Nat.eqb_spec e0 e); subst;
          try rewrite Nat.eqb_refl in *; try (destruct (Nat.eqb_spec e e0); [congruence|]); lia.
      * intros e0 N. destruct (tmode t); try reflexivity; apply upd_other; assumption.
    + simpl. unfold tw in Re. destruct (tmode t); try rewrite upd_same; lia.
Qed.

Lemma inv_step : forall l s, Inv MNone None s -> Inv MNone None (step fixed l s).
Proof.
  intros [p|p] s I; simpl.
  - destruct (nth_error (queue s) p) as [e|] eqn:Hq; [|assumption].
    apply inv_dispatch; [assumption|]. exact (remove_nth_qpop _ _ _ Hq (i_q_nodup I)).
  - apply inv_step_task; assumption.
Qed.

Lemma inv_exec : forall ls s, Inv MNone None s -> Inv MNone None (exec fixed ls s).
Proof.
  unfold exec. induction ls as [|l r IH]; simpl; intros s I; [assumption|]. apply IH. apply inv_step; assumption.
Qed.

Lemma inv_reachable : forall s, reachable s -> Inv MNone None s.
Proof. intros s [roots [ls ->]]. apply inv_exec. apply inv_start. Qed.

Lemma gdesc_alloc : forall m cur s e d, Inv m cur s -> e < next s -> gdesc (gpar s) e d -> d < next s.
Proof. intros m cur s e d I He G. destruct G as [|d h G _]; [exact He|]. apply (i_gpar_lt I) in G. lia. Qed.

(* as soon as the closure of e has drained, its members have been released (no global quiescence
   needed): the youngest member that still had a cause attribute would count neither itself nor,
   its children being younger members, anything else *)
Lemma drained_released : forall cur s, Inv MNone cur s -> forall e,
  (forall d, gdesc (gpar s) e d -> phase s d = PFin) ->
  forall d, gdesc (gpar s) e d -> cause s d = None.
Proof.
  intros cur s I e Hfin.
  assert (H : forall n d, next s - d <= n -> gdesc (gpar s) e d -> cause s d <> None -> False).
  { induction n as [|n IH]; intros d Hn Hd Hl.
    - destruct (cause s d) as [c|] eqn:E; [|congruence]. apply (i_cause_lt I) in E. lia.
    - pose proof (i_count I _ Hl) as C. simpl in C.
      destruct (i_pos I _ Hl) as [P|[P|P]]; try discriminate.
      unfold selfc in C. rewrite (Hfin _ Hd) in C.
      destruct (cnt_pos_ex (childb (cause s) d) (next s)) as [i [Hi Hc]]; [lia|].
      apply childb_true in Hc. destruct Hc as [N E].
      pose proof (i_cause_lt I _ _ E).
      apply (IH i); [lia| |congruence].
      eapply gd_step; [|exact Hd]. apply (i_cause_shape I); auto. }
  intros d Hd. destruct (cause s d) eqn:E; [|reflexivity]. exfalso. apply (H (next s) d); [lia|assumption|congruence].
Qed.

Lemma drained_complete : forall cur s, Inv MNone cur s ->
  forall e, e < next s -> ev_compl (spec s e) = true -> ev_canc (spec s e) = false ->
  (forall d, gdesc (gpar s) e d -> phase s d = PFin) ->
  fc_count e (log s) = 1.
Proof.
  intros cur s I e He Hc Hx Hfin.
  assert (T : trk s e = true).
  { apply (i_disp_trk I); auto. rewrite (Hfin e (gd_refl _ _)). discriminate. }
  pose proof (i_fc_conv I _ T (drained_released _ _ I e Hfin e (gd_refl _ _)) Hx Hc) as F.
  pose proof (fc_count_in _ _ F). pose proof (i_fc_once I e). lia.
Qed.

Lemma quiet_all_fin : forall s, Inv MNone None s -> queue s = [] -> tasks s = [] -> waiters s = [] ->
  forall e, e < next s -> phase s e = PFin.
Proof.
  intros s I Hq Ht Hws e He. destruct (phase s e) eqn:P; [| |reflexivity].
  - pose proof (i_qd I _ He P) as X. rewrite Hq in X. contradiction.
  - destruct (i_active I _ P) as [X|X]; [discriminate|].
    rewrite (i_wait I), Ht, Hws in X. simpl in X. lia.
Qed.

Lemma reachable_step : forall l s, reachable s -> reachable (step fixed l s).
Proof.
  intros l s [roots [ls ->]]. exists roots, (ls ++ [l]). unfold exec. rewrite fold_left_app. reflexivity.
Qed.

Lemma reachable_step_named : forall keys s, reachable s -> reachable (step_named fixed keys s).
Proof.
  induction keys as [|[l i] r IH]; simpl; intros s R; [assumption|]. apply IH.
  destruct (find_task l i s (tasks s) 0) as [p|]; [apply (reachable_step (LTask p))|]; assumption.
Qed.

Lemma reachable_dispatch_n : forall n s, reachable s -> reachable (dispatch_n fixed n s).
Proof. induction n; simpl; intros; [assumption|]. apply IHn. apply (reachable_step (LDisp _)); assumption. Qed.

Lemma run_reachable : forall fuel sched s, reachable s -> oof (run fixed fuel sched s) = false ->
  reachable (run fixed fuel sched s).
Proof.
  induction fuel as [|f IH]; simpl; intros sched s R H.
  - destruct (quiet s); [assumption|discriminate].
  - destruct (quiet s); [assumption|]. apply IH; [|assumption].
    apply reachable_dispatch_n, reachable_step_named, R.
Qed.

Lemma start_reachable : forall roots, reachable (start roots).
Proof. intros. exists roots, []. reflexivity. Qed.

(* the ghost parent that [alloc] may give an event of kind k: the exception and x_failure events of x are fired while
   handling x, so theirs is x; [kg_ok]: every event of the state was allocated so *)
Definition fed (k : kindT) (gp : option nat) : Prop :=
  match k with KExc x | KFail x => gp = Some x | _ => True end.
Definition kg_ok (s : st) : Prop := forall d, fed (kind s d) (gpar s d).

(* [kind] and [gpar] are written by [alloc] only: for every other operation [kg_ok] of the result
   is [kg_ok] of the argument by conversion *)
Lemma kg_alloc : forall k sp gp s, kg_ok s -> fed k gp -> kg_ok (alloc k sp gp s).
Proof.
  intros k sp gp s H F d. simpl. unfold upd. destruct (d =? next s); [exact F|apply H].
Qed.

Lemma kg_fire : forall lk gp k sp s, kg_ok s -> fed k gp -> kg_ok (fire_g lk gp k sp s).
Proof.
  intros lk gp k sp s H F. destruct (fire_g_alloc lk gp k sp s) as [c [f [t ->]]].
  exact (kg_alloc k sp gp s H F).
Qed.

Lemma kg_fire_all : forall lk gp l s, kg_ok s -> kg_ok (fire_all_g lk gp l s).
Proof.
  induction l as [|sp r IH]; simpl; intros s H; [assumption|]. apply IH, kg_fire; [exact H|exact I].
Qed.

Lemma kg_walk : forall fuel e s, kg_ok s -> kg_ok (walk fuel e s).
Proof.
  induction fuel as [|f IH]; intros e s H; simpl; [exact H|].
  destruct (cause s e) as [c|]; [|exact H].
  destruct (0 <? effects s e - 1)%Z; [exact H|]. apply IH.
  match goal with |- kg_ok (set_cause_eff (if ?c then _ else _) _ _ _) => destruct c end; [|exact H].
  exact (kg_alloc (KCompl e) dummy None (add_log (LFC e) s) H I).
Qed.

Lemma kg_alloc_opt : forall (b : bool) k s, kg_ok s -> fed k None -> kg_ok (if b then alloc k dummy None s else s).
Proof. intros [|] k s H F; [apply kg_alloc|]; assumption. Qed.

Lemma kg_gate : forall e s, kg_ok s -> kg_ok (gate e s).
Proof.
  intros e s H. unfold gate, finish. destruct (waiting s e =? 0); [|exact H].
  cbv zeta. apply kg_walk. apply (kg_alloc_opt _ (KSucc e)); [|exact I]. apply (kg_alloc_opt _ (KDone e)); [exact H|exact I].
Qed.

Lemma kg_gate_raise : forall e s, kg_ok s -> kg_ok (gate_raise e s).
Proof.
  intros e s H. unfold gate_raise, finish_raise. destruct (waiting s e =? 0); [|exact H].
  cbv zeta. apply kg_walk. destruct (alert s e); [|exact H]. exact (kg_fire (Some e) (Some e) (KDone e) dummy s H I).
Qed.

(* a raising handler or generator step of e *)
Lemma kg_errs : forall lk e s, kg_ok s ->
  kg_ok (fire_g lk (Some e) (KExc e) dummy
           (if ev_fail (spec s e) then fire_g lk (Some e) (KFail e) dummy s else s)).
Proof.
  intros lk e s H. apply kg_fire; [|reflexivity].
  destruct (ev_fail (spec s e)); [apply kg_fire; [exact H|reflexivity]|exact H].
Qed.

Lemma kg_run_handlers : forall hs e i ch s, kg_ok s -> kg_ok (run_handlers e i ch hs s).
Proof.
  induction hs as [|h r IH]; intros e i ch s H; simpl; [exact H|].
  destruct (negb (hchan h =? ch)); [apply IH; exact H|].
  destruct h as [c kids stop raise|c steps]; [|apply IH; exact H].
  pose proof (kg_fire_all (Some e) (Some e) kids (add_log (LH e i) s) H) as H1.
  change (fire_all_g (Some e) (Some e)) with (fire_all (Some e)) in H1.
  set (s1 := fire_all (Some e) kids (add_log (LH e i) s)) in *.
  set (s2 := if stop then set_flags s1 (errs s1) (alert s1) (upd (stopd s1) e true) else s1).
  assert (H2 : kg_ok s2) by (subst s2; destruct stop; exact H1).
  assert (H3 : kg_ok (if raise then fire_errs e s2 else s2)).
  { destruct raise; [|exact H2].
    exact (kg_errs (Some e) e (set_flags s2 (upd (errs s2) e true) (alert s2) (stopd s2)) H2). }
  destruct stop; [exact H3|]. apply IH. exact H3.
Qed.

Lemma kg_dispatch : forall cf e s, kg_ok s -> kg_ok (dispatch cf e s).
Proof.
  intros cf e s H. unfold dispatch. cbv zeta. destruct (ev_canc (spec s e)).
  - destruct (fix_cancel cf); [apply kg_walk|]; exact H.
  - apply kg_gate.
    match goal with |- kg_ok (match kind ?t e with _ => _ end) => set (s1 := t) end.
    assert (H1 : kg_ok s1).
    { subst s1. match goal with |- kg_ok (if ?c then _ else _) => destruct c end; [|exact H].
      match goal with |- kg_ok (match ?c with _ => _ end) => destruct c end; exact H. }
    destruct (kind s1 e); try exact H1.
    cbv zeta. match goal with |- kg_ok (if ?c then _ else _) => destruct c end;
      apply kg_run_handlers; exact H1.
Qed.

Lemma kg_step_task : forall cf p s, kg_ok s -> kg_ok (step_task cf p s).
Proof.
  intros cf p s H. unfold step_task. destruct (nth_error (tasks s) p) as [t|]; [|exact H]. cbv zeta.
  assert (Hret : forall s', kg_ok s' -> kg_ok (gen_return p t s')).
  { intros s' H'. unfold gen_return. cbv zeta. destruct (tmode t); try exact H'; apply kg_gate; exact H'. }
  pose proof (fun kids => kg_fire_all (if fix_gen cf then Some (tev t) else None) (Some (tev t)) kids
                            (add_log (LG (tev t) (thd t) (tk t)) s) H) as H1.
  destruct (trest t) as [|[kids|kids|callee] rest].
  - apply Hret; exact H.
  - destruct rest; [apply Hret|]; exact (H1 kids).
  - apply kg_gate_raise.
    match goal with |- kg_ok (fire_g ?lk _ _ _ (if _ then fire_g _ _ _ _ ?s3 else _)) =>
      exact (kg_errs lk (tev t) s3 (H1 kids)) end.
  - exact (H1 [callee]).
Qed.

Lemma kg_step : forall cf l s, kg_ok s -> kg_ok (step cf l s).
Proof.
  intros cf [p|p] s H; simpl.
  - destruct (nth_error (queue s) p); [apply kg_dispatch|]; exact H.
  - apply kg_step_task; exact H.
Qed.

Lemma kg_reachable : forall cf s, reachable_cf cf s -> kg_ok s.
Proof.
  intros cf s [roots [ls ->]]. unfold exec.
  assert (H0 : kg_ok (start roots)) by (apply (kg_fire_all None None); exact (fun _ => I)).
  revert H0. generalize (start roots). induction ls as [|l r IH]; simpl; intros s0 H0; [exact H0|].
  apply IH. apply kg_step. exact H0.
Qed.

(* the programs on which Props/C05.v shows the two repaired defects (legacy model) *)
Definition legacy_cancel_prog : list ev :=
  [Ev 1 true false false false 1 0 [HP 0 [Ev 2 false true false false 1 0 []] false false]].
Definition legacy_genstep_prog : list ev :=
  [Ev 1 true false false false 1 0
      [HG 0 [GS []; GS [Ev 2 false false false false 1 0 [HP 0 [] false false]]]]].
