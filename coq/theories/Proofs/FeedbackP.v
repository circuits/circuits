(* Proofs about Model/Feedback.v (property C04), in three parts.
   What operations change: [ext] (only new events and log entries), [fr e l] (also the Value and counters of the
   event e being processed), [VC] (Value and feedback counts of an event agree with the log).
   Any program: operations that only fire events and update Values are [calm]; work on an event is built from them
   ([work]); [dispatch_frame] and [task_frame] say what a dispatcher pass and a task step do.
   Plain programs (no nested-Value returns, no event.stop()): a handler unit ([hunit]) keeps VC; every step ends at
   the _eventDone gate ([ssum]) and keeps [OKs] (no parent links, plain scripts) and [Inv] ([step_keeps]).  Last, for
   any program again: [AInv], one invariant that holds the at-most-once, sticky-errors ([N1], [N2]) and run-to-the-end
   ([HInv]) parts. *)
From Coq Require Import List Bool Arith Lia.
From Circ Require Import Lib.FunUpd Lib.ListFacts Model.Feedback.
Import ListNotations.

Arguments set_value : simpl never.
Arguments propagate : simpl never.

Record ext (l : list entry) (s s' : st) : Prop := {
  x_next : next s <= next s';
  x_old : forall d, d < next s ->
          spec s' d = spec s d /\ kind s' d = kind s d /\ val s' d = val s d /\
          waiting s' d = waiting s d /\ phase s' d = phase s d;
  x_new : forall d, next s <= d < next s' -> phase s' d = PQueued /\ waiting s' d = 0 /\ val s' d = vinit;
  x_tasks : tasks s' = tasks s;
  x_queue : queue s' = queue s ++ seq (next s) (next s' - next s);
  x_log : log s' = l ++ log s
}.

Lemma ext_refl : forall s, ext [] s s.
Proof.
  intros s. split.
  - lia.
  - auto.
  - intros d Hd. exfalso. lia.
  - reflexivity.
  - rewrite Nat.sub_diag. simpl. now rewrite app_nil_r.
  - reflexivity.
Qed.

Lemma seq_queue : forall (q : list nat) a b c, a <= b -> b <= c ->
  (q ++ seq a (b - a)) ++ seq b (c - b) = q ++ seq a (c - a).
Proof.
  intros. rewrite <- app_assoc. f_equal. replace (c - a) with ((b - a) + (c - b)) by lia.
  rewrite seq_app. do 2 f_equal. lia.
Qed.

Lemma ext_trans : forall l1 l2 s s1 s2, ext l1 s s1 -> ext l2 s1 s2 -> ext (l2 ++ l1) s s2.
Proof.
  intros l1 l2 s s1 s2 [n1 o1 w1 t1 q1 g1] [n2 o2 w2 t2 q2 g2]. split.
  - lia.
  - intros d Hd. destruct (o1 d Hd) as (a1 & a2 & a3 & a4 & a5).
    destruct (o2 d ltac:(lia)) as (b1 & b2 & b3 & b4 & b5).
    repeat split; congruence.
  - intros d Hd. destruct (Nat.lt_ge_cases d (next s1)) as [Hlt|Hge].
    + destruct (w1 d ltac:(lia)) as (a1 & a2 & a3).
      destruct (o2 d Hlt) as (b1 & b2 & b3 & b4 & b5). repeat split; congruence.
    + apply w2. lia.
  - congruence.
  - rewrite q2, q1. apply seq_queue; lia.
  - rewrite g2, g1. now rewrite app_assoc.
Qed.

Lemma ext_alloc : forall x k sp s, ext [x] s (alloc k sp (add_log x s)).
Proof.
  intros. split.
  - simpl. lia.
  - intros d Hd. simpl. rewrite !upd_other by lia. auto.
  - intros d Hd. simpl in *. assert (d = next s) by lia. subst. rewrite !upd_same. auto.
  - reflexivity.
  - cbn [alloc add_log queue next]. replace (S (next s) - next s) with 1 by lia. reflexivity.
  - reflexivity.
Qed.

Lemma ext_fire_user : forall sp s, ext [LF (next s)] s (fire_user sp s).
Proof. intros. apply ext_alloc. Qed.

Definition is_LF_from (n : nat) (x : entry) : Prop := exists d, x = LF d /\ n <= d.

Lemma ext_fire_all : forall kids s, exists l, ext l s (fire_all kids s) /\ Forall (is_LF_from (next s)) l.
Proof.
  induction kids as [|sp r IH]; intros s; simpl.
  - exists []. split; [apply ext_refl | constructor].
  - destruct (IH (fire_user sp s)) as (l & Hl & Fl).
    exists (l ++ [LF (next s)]). split.
    + eapply ext_trans; [apply ext_fire_user | exact Hl].
    + apply Forall_app. split.
      * eapply Forall_impl; [|exact Fl]. intros x (d & -> & Hd). exists d. split; auto. simpl in Hd. lia.
      * constructor; [|constructor]. exists (next s). split; auto.
Qed.

Lemma ext_fire_der : forall k e s, ext [LFD k e] s (fire_der k e s).
Proof. intros. unfold fire_der. destruct (der_chans k (spec s e)). apply ext_alloc. Qed.

Lemma ext_inform : forall f e s, exists l, ext l s (inform f e s) /\ (l = [] \/ l = [LFD DVC e]).
Proof.
  intros. unfold inform. destruct (vpromise (val s e) && negb f).
  - exists []. split; [apply ext_refl | auto].
  - destruct (ev_notify (spec s e)).
    + exists [LFD DVC e]. split; [apply ext_fire_der | auto].
    + exists []. split; [apply ext_refl | auto].
Qed.

Definition fb_log (fl : bool) (e : nat) : list entry :=
  LFD DExc e :: (if fl then [LFD DFail e] else []).

Lemma ext_raise_feedback : forall e s, ext (fb_log (ev_fail (spec s e)) e) s (raise_feedback e s).
Proof.
  intros. unfold raise_feedback, fb_log. destruct (ev_fail (spec s e)).
  - change [LFD DExc e; LFD DFail e] with ([LFD DExc e] ++ [LFD DFail e]).
    eapply ext_trans; apply ext_fire_der.
  - apply ext_fire_der.
Qed.

Lemma ext_add_log : forall x s, ext [x] s (add_log x s).
Proof. intros x s. pose proof (ext_refl s) as [n o w t q g]. split; auto. Qed.

Lemma ext_log_all : forall xs s, ext (rev xs) s (log_all xs s).
Proof.
  induction xs as [|x r IH]; intros s; simpl; [apply ext_refl|].
  eapply ext_trans; [apply ext_add_log | apply IH].
Qed.

Lemma ext_spec : forall l s s' d, ext l s s' -> d < next s -> spec s' d = spec s d.
Proof. intros l s s' d H Hd. now destruct (x_old _ _ _ H d Hd) as (? & ? & ? & ? & ?). Qed.
Lemma ext_kind : forall l s s' d, ext l s s' -> d < next s -> kind s' d = kind s d.
Proof. intros l s s' d H Hd. now destruct (x_old _ _ _ H d Hd) as (? & ? & ? & ? & ?). Qed.
Lemma ext_val : forall l s s' d, ext l s s' -> d < next s -> val s' d = val s d.
Proof. intros l s s' d H Hd. now destruct (x_old _ _ _ H d Hd) as (? & ? & ? & ? & ?). Qed.
Lemma ext_wait : forall l s s' d, ext l s s' -> d < next s -> waiting s' d = waiting s d.
Proof. intros l s s' d H Hd. now destruct (x_old _ _ _ H d Hd) as (? & ? & ? & ? & ?). Qed.
Lemma ext_phase : forall l s s' d, ext l s s' -> d < next s -> phase s' d = phase s d.
Proof. intros l s s' d H Hd. now destruct (x_old _ _ _ H d Hd) as (? & ? & ? & ? & ?). Qed.

(* entry x is not about any event other than e0 *)
Definition about (e0 : nat) (x : entry) : Prop :=
  match x with LH e _ | LG e _ _ | LFD _ e => e = e0 | _ => True end.

Record fr (e0 : nat) (l : list entry) (s s' : st) : Prop := {
  f_next : next s <= next s';
  f_spec : forall d, d < next s -> spec s' d = spec s d /\ kind s' d = kind s d;
  f_old : forall d, d < next s -> d <> e0 ->
          val s' d = val s d /\ waiting s' d = waiting s d /\ phase s' d = phase s d;
  f_new : forall d, next s <= d < next s' -> phase s' d = PQueued /\ waiting s' d = 0 /\ val s' d = vinit;
  f_queue : queue s' = queue s ++ seq (next s) (next s' - next s);
  f_log : log s' = l ++ log s;
  f_about : Forall (about e0) l
}.

Lemma ext_fr : forall e0 l s s', ext l s s' -> Forall (about e0) l -> fr e0 l s s'.
Proof.
  intros e0 l s s' [n o w t q g] Ha. split; auto.
  - intros d Hd. destruct (o d Hd) as (? & ? & ? & ? & ?). auto.
  - intros d Hd _. destruct (o d Hd) as (? & ? & ? & ? & ?). auto.
Qed.

Lemma fr_trans : forall e0 l1 l2 s s1 s2,
  e0 < next s -> fr e0 l1 s s1 -> fr e0 l2 s1 s2 -> fr e0 (l2 ++ l1) s s2.
Proof.
  intros e0 l1 l2 s s1 s2 He [n1 p1 o1 w1 q1 g1 a1] [n2 p2 o2 w2 q2 g2 a2]. split.
  - lia.
  - intros d Hd. destruct (p1 d Hd). destruct (p2 d ltac:(lia)). split; congruence.
  - intros d Hd Hne. destruct (o1 d Hd Hne) as (? & ? & ?).
    destruct (o2 d ltac:(lia) Hne) as (? & ? & ?). repeat split; congruence.
  - intros d Hd. destruct (Nat.lt_ge_cases d (next s1)) as [Hlt|Hge].
    + destruct (w1 d ltac:(lia)) as (? & ? & ?).
      destruct (o2 d Hlt ltac:(lia)) as (? & ? & ?). repeat split; congruence.
    + apply w2. lia.
  - rewrite q2, q1. apply seq_queue; lia.
  - rewrite g2, g1. now rewrite app_assoc.
  - apply Forall_app. auto.
Qed.

Lemma fr_after : forall e0 l s s1 s2, e0 < next s -> fr e0 [] s s1 -> fr e0 l s1 s2 -> fr e0 l s s2.
Proof. intros e0 l s s1 s2 He H1 H2. rewrite <- (app_nil_r l). eapply fr_trans; eauto. Qed.

Lemma fr_refl : forall e0 s, fr e0 [] s s.
Proof. intros. apply ext_fr; [apply ext_refl | constructor]. Qed.

Lemma fr_upd : forall e0 s s',
  next s' = next s -> spec s' = spec s -> kind s' = kind s -> queue s' = queue s -> log s' = log s ->
  (forall d, d <> e0 -> val s' d = val s d /\ waiting s' d = waiting s d /\ phase s' d = phase s d) ->
  fr e0 [] s s'.
Proof.
  intros e0 s s' Hn Hs Hk Hq Hl Ho. split; auto.
  - lia.
  - intros d _. now rewrite Hs, Hk.
  - intros d Hd. exfalso. lia.
  - rewrite Hn, Nat.sub_diag, Hq. simpl. now rewrite app_nil_r.
Qed.
Lemma fr_set_val : forall e0 v s, fr e0 [] s (set_val e0 v s).
Proof. intros. apply fr_upd; auto. intros d Hne. simpl. now rewrite upd_other. Qed.
Lemma fr_set_wait : forall e0 n s, fr e0 [] s (set_wait e0 n s).
Proof. intros. apply fr_upd; auto. intros d Hne. simpl. now rewrite upd_other. Qed.
Lemma fr_set_phase : forall e0 p s, fr e0 [] s (set_phase e0 p s).
Proof. intros. apply fr_upd; auto. intros d Hne. simpl. now rewrite upd_other. Qed.
Lemma fr_set_tasks : forall e0 t s, fr e0 [] s (set_tasks t s).
Proof. intros. apply fr_upd; auto. Qed.
Lemma fr_add_log : forall e0 x s, about e0 x -> fr e0 [x] s (add_log x s).
Proof.
  intros. split; simpl; auto.
  - intros d Hd. exfalso. lia.
  - rewrite Nat.sub_diag. simpl. now rewrite app_nil_r.
Qed.

Lemma fr_spec : forall e l s s' d, fr e l s s' -> d < next s -> spec s' d = spec s d.
Proof. intros e l s s' d H Hd. now destruct (f_spec _ _ _ _ H d Hd). Qed.

Definition nonempty {A} (l : list A) : bool := match l with [] => false | _ => true end.

Lemma accum_from_app : forall l1 l2 (c : pyval * bool),
  accum_from c (l1 ++ l2) = accum_from (accum_from c l1) l2.
Proof. induction l1 as [|x l1 IH]; intros; simpl; auto. Qed.

Lemma accum_from_coll : forall r l0, accum_from (PList l0, true) r = (PList (l0 ++ r), true).
Proof.
  induction r as [|x r IH]; intros l0; simpl.
  - now rewrite app_nil_r.
  - rewrite IH. now rewrite <- app_assoc.
Qed.

Lemma accum_from_pack : forall l, Forall (fun x => is_none x = false) l ->
  accum_from (PNone, false) l = (pack l, match l with _ :: _ :: _ => true | _ => false end).
Proof.
  intros [|x [|y r]] H; try reflexivity.
  inversion H; subst.
  change (accum_from (PNone, false) (x :: y :: r)) with (accum_from (set_slot (x, false) y) r).
  assert (E : set_slot (x, false) y = (PList [x; y], true))
    by (destruct x; try discriminate; reflexivity).
  rewrite E, accum_from_coll. reflexivity.
Qed.

Lemma produced_app : forall sp e l lg, produced sp e (l ++ lg) = produced sp e lg ++ produced sp e l.
Proof. intros. unfold produced. now rewrite rev_app_distr, flat_map_app. Qed.

Lemma produced_one : forall sp e x, produced sp e [x] = contrib sp e x.
Proof. intros. unfold produced. simpl. now rewrite app_nil_r. Qed.

Lemma produced_cons : forall sp e x lg, produced sp e (x :: lg) = produced sp e lg ++ contrib sp e x.
Proof. intros. change (x :: lg) with ([x] ++ lg). now rewrite produced_app, produced_one. Qed.

Lemma contrib_sp : forall sp sp' e x, sp' e = sp e -> contrib sp' e x = contrib sp e x.
Proof. intros. destruct x; simpl; now rewrite ?H. Qed.
Lemma raises_sp : forall sp sp' e x, sp' e = sp e -> raises sp' e x = raises sp e x.
Proof. intros. destruct x; simpl; now rewrite ?H. Qed.

Lemma produced_sp : forall sp sp' e l, sp' e = sp e -> produced sp' e l = produced sp e l.
Proof.
  intros. unfold produced. induction (rev l) as [|x r IH]; simpl; auto.
  now rewrite IH, (contrib_sp sp sp').
Qed.
Lemma nraised_sp : forall sp sp' e l, sp' e = sp e -> nraised sp' e l = nraised sp e l.
Proof.
  intros. unfold nraised. induction l as [|x r IH]; simpl; auto.
  rewrite (raises_sp sp sp') by auto. destruct (raises sp e x); simpl; now rewrite IH.
Qed.

Lemma nraised_app : forall sp e l1 l2, nraised sp e (l1 ++ l2) = nraised sp e l1 + nraised sp e l2.
Proof. intros. unfold nraised. now rewrite filter_app, app_length. Qed.

Lemma count_der_app : forall k e l1 l2, count_der k e (l1 ++ l2) = count_der k e l1 + count_der k e l2.
Proof.
  induction l1 as [|x l1 IH]; intros; simpl; auto.
  destruct x; auto. rewrite IH. lia.
Qed.

Lemma nonempty_app : forall A (a b : list A), nonempty (a ++ b) = nonempty a || nonempty b.
Proof. intros. destruct a; simpl; auto. Qed.

Lemma produced_no_none : forall sp e lg, Forall (fun x => is_none x = false) (produced sp e lg).
Proof.
  intros. unfold produced. induction (rev lg) as [|x r IH]; simpl; [constructor|].
  apply Forall_app. split; auto.
  assert (Hnn : forall v, Forall (fun x => is_none x = false) (nonnone v))
    by (intros v; unfold nonnone; destruct (is_none v) eqn:E; repeat constructor; auto).
  destruct x; simpl; try constructor.
  - destruct (Nat.eqb e0 e); [|constructor].
    destruct (nth_error (ev_hs (sp e)) i) as [[kids rr|]|]; try constructor.
    destruct (unstop rr); auto; repeat constructor.
  - destruct (Nat.eqb e0 e); [|constructor].
    destruct (nth_error (ev_hs (sp e)) i) as [[|ys lk gr]|]; try constructor.
    destruct (nth_error ys k) as [[kk y]|]; auto. destruct gr; repeat constructor.
Qed.

Record VC (s : st) (e : nat) : Prop := {
  vc_val : (vv (val s e), vcoll (val s e)) = accum_from (PNone, false) (produced (spec s) e (log s));
  vc_res : vresult (val s e) = nonempty (produced (spec s) e (log s));
  vc_err : verrors (val s e) = (0 <? nraised (spec s) e (log s));
  vc_exc : count_der DExc e (log s) = nraised (spec s) e (log s);
  vc_fail : count_der DFail e (log s) = if ev_fail (spec s e) then nraised (spec s) e (log s) else 0
}.

Lemma VC_step : forall s s' e l,
  VC s e -> spec s' e = spec s e -> log s' = l ++ log s ->
  (vv (val s' e), vcoll (val s' e)) = accum_from (vv (val s e), vcoll (val s e)) (produced (spec s) e l) ->
  vresult (val s' e) = vresult (val s e) || nonempty (produced (spec s) e l) ->
  verrors (val s' e) = verrors (val s e) || (0 <? nraised (spec s) e l) ->
  count_der DExc e l = nraised (spec s) e l ->
  count_der DFail e l = (if ev_fail (spec s e) then nraised (spec s) e l else 0) ->
  VC s' e.
Proof.
  intros s s' e l [v1 v2 v3 v4 v5] Hsp Hlog H1 H2 H3 H4 H5.
  assert (Hp : produced (spec s') e (log s') = produced (spec s) e (log s) ++ produced (spec s) e l).
  { rewrite Hlog, (produced_sp (spec s) (spec s')) by auto. apply produced_app. }
  assert (Hn : nraised (spec s') e (log s') = nraised (spec s) e l + nraised (spec s) e (log s)).
  { rewrite Hlog, (nraised_sp (spec s) (spec s')) by auto. apply nraised_app. }
  split.
  - rewrite Hp, H1, accum_from_app. now rewrite v1.
  - rewrite Hp, H2, nonempty_app. now rewrite v2.
  - rewrite Hn, H3, v3.
    destruct (nraised (spec s) e l), (nraised (spec s) e (log s)); simpl; auto.
  - rewrite Hn, Hlog, count_der_app. lia.
  - rewrite Hn, Hlog, count_der_app, Hsp, H5, v5. destruct (ev_fail (spec s e)); lia.
Qed.

Definition irrel (sp : nat -> ev) (d : nat) (x : entry) : Prop :=
  contrib sp d x = [] /\ raises sp d x = false /\ count_der DExc d [x] = 0 /\ count_der DFail d [x] = 0.

Lemma irrel_list : forall sp d l, Forall (irrel sp d) l ->
  produced sp d l = [] /\ nraised sp d l = 0 /\ count_der DExc d l = 0 /\ count_der DFail d l = 0.
Proof.
  induction 1 as [|x l (a & b & c & d') _ (IH1 & IH2 & IH3 & IH4)].
  - repeat split; reflexivity.
  - assert (E1 : count_der DExc d (x :: l) = 0)
      by (change (x :: l) with ([x] ++ l); rewrite count_der_app; lia).
    assert (E2 : count_der DFail d (x :: l) = 0)
      by (change (x :: l) with ([x] ++ l); rewrite count_der_app; lia).
    rewrite produced_cons, IH1, a. repeat split; auto.
    unfold nraised in *. simpl. rewrite b. exact IH2.
Qed.

Lemma VC_irrel : forall s s' d l,
  VC s d -> spec s' d = spec s d -> val s' d = val s d -> log s' = l ++ log s ->
  Forall (irrel (spec s) d) l -> VC s' d.
Proof.
  intros s s' d l Hv Hsp Hval Hlog Hl.
  destruct (irrel_list _ _ _ Hl) as (a & b & c & e).
  apply (VC_step s s' d l Hv Hsp Hlog); rewrite ?a, ?b, ?Hval; simpl; auto.
  - now rewrite orb_false_r.
  - now rewrite orb_false_r.
  - rewrite e. now destruct (ev_fail (spec s d)).
Qed.

Definition silent (x : entry) : Prop :=
  match x with LH _ _ | LG _ _ _ | LFD DExc _ | LFD DFail _ => False | _ => True end.

Lemma silent_irrel : forall sp d x, silent x -> irrel sp d x.
Proof. intros sp d [ | | |[] ?| | ]; simpl; intros H; try contradiction; repeat split; auto. Qed.

Lemma about_irrel : forall sp e0 d x, about e0 x -> d <> e0 -> irrel sp d x.
Proof.
  intros sp e0 d x Ha Hne. destruct x; simpl in *; subst;
    repeat split; simpl; auto;
    try (destruct (Nat.eqb e0 d) eqn:E; [apply Nat.eqb_eq in E; congruence | auto]).
  all: rewrite ?andb_false_r; auto.
Qed.

Lemma LF_silent : forall n l, Forall (is_LF_from n) l -> Forall silent l.
Proof. intros n l H. eapply Forall_impl; [|exact H]. intros x (d & -> & _). exact I. Qed.

Definition nosucc (x : entry) : Prop := match x with LFD DSucc _ => False | _ => True end.
Definition nonh (x : entry) : Prop := match x with LH _ _ | LG _ _ _ => False | _ => True end.

(* what work on e logs besides handler entries and feedback events: fired children, value_changed of e,
   what the catch-all observers saw *)
Definition side (e : nat) (x : entry) : Prop :=
  match x with LF _ | LDU _ _ | LDD _ _ _ => True | LFD DVC e' => e' = e | _ => False end.

Lemma side_silent : forall e l, Forall (side e) l -> Forall silent l.
Proof. intros e l H. eapply Forall_impl; [|exact H]. intros [ | | |[] ?| | ]; simpl; tauto. Qed.
Lemma side_nosucc : forall e l, Forall (side e) l -> Forall nosucc l.
Proof. intros e l H. eapply Forall_impl; [|exact H]. intros [ | | |[] ?| | ]; simpl; tauto. Qed.
Lemma side_about : forall e l, Forall (side e) l -> Forall (about e) l.
Proof. intros e l H. eapply Forall_impl; [|exact H]. intros [ | | |[] ?| | ]; simpl; tauto. Qed.
Lemma LF_side : forall e n l, Forall (is_LF_from n) l -> Forall (side e) l.
Proof. intros e n l H. eapply Forall_impl; [|exact H]. intros x (d & -> & _). exact I. Qed.

Lemma silent_nonh : forall l, Forall silent l -> Forall nonh l.
Proof. intros l H. eapply Forall_impl; [|exact H]. intros [ | | |[] ?| | ]; simpl; tauto. Qed.

Lemma nonh_list : forall sp e l, Forall nonh l -> produced sp e l = [] /\ nraised sp e l = 0.
Proof.
  induction 1 as [|x l Hx _ (IH1 & IH2)]; [split; reflexivity|].
  rewrite produced_cons, IH1. unfold nraised in *. simpl.
  destruct x; simpl in *; try contradiction; auto.
Qed.

Lemma nraised_nonh : forall sp e l, Forall nonh l -> nraised sp e l = 0.
Proof. intros. apply (nonh_list sp e l H). Qed.

Lemma silent_count : forall d l, Forall silent l -> count_der DExc d l = 0 /\ count_der DFail d l = 0.
Proof. intros d l H. apply (irrel_list (fun _ => dummy) d l). eapply Forall_impl; [|exact H]. apply silent_irrel. Qed.

Definition seterr (v : value) : value :=
  {| vv := vv v; vcoll := vcoll v; vresult := vresult v; verrors := true; vpromise := vpromise v |}.

Lemma val_set_errors : forall e s, val (set_errors e s) e = seterr (val s e).
Proof. intros. unfold set_errors. simpl. now rewrite upd_same. Qed.

Lemma nonh_snoc : forall sp e A x, Forall nonh A ->
  produced sp e (A ++ [x]) = contrib sp e x /\
  nraised sp e (A ++ [x]) = (if raises sp e x then 1 else 0).
Proof.
  intros sp e A x HA. destruct (nonh_list sp e A HA) as (a & b).
  rewrite produced_app, produced_one, a, app_nil_r, nraised_app, b. split; auto.
  unfold nraised. simpl. now destruct (raises sp e x).
Qed.

Lemma fb_count : forall e fl,
  count_der DExc e (fb_log fl e) = 1 /\ count_der DFail e (fb_log fl e) = (if fl then 1 else 0).
Proof. intros e []; simpl; rewrite Nat.eqb_refl; auto. Qed.

Lemma fb_about : forall e fl, Forall (about e) (fb_log fl e) /\ Forall nosucc (fb_log fl e) /\ Forall nonh (fb_log fl e).
Proof. intros e []; repeat split; repeat constructor. Qed.

Lemma hentry_about : forall x e, hentry x e -> about e x.
Proof. intros x e H. destruct x; simpl in *; tauto. Qed.

Lemma nosucc_snoc_hentry : forall e x A, hentry x e -> Forall nosucc A -> Forall nosucc (A ++ [x]) /\ In x (A ++ [x]).
Proof.
  intros e x A Hx HA. split; [|apply in_or_app; right; left; reflexivity].
  apply Forall_app. split; [exact HA|]. repeat constructor. destruct x; simpl in *; tauto.
Qed.

Lemma count_der_zero : forall k d l, count_der k d l = 0 <-> ~ In (LFD k d) l.
Proof.
  intros k d l. induction l as [|x l IH]; simpl; [tauto|].
  destruct x as [ | | |k' e'| | ]; try (rewrite IH; split; [intros H [E|E]; [discriminate | auto] | tauto]).
  destruct (dkind_eqb k' k && Nat.eqb e' d) eqn:E; simpl.
  - apply andb_prop in E. destruct E as (Ek & Ee). apply Nat.eqb_eq in Ee. subst e'.
    assert (k' = k) by (destruct k', k; try discriminate; reflexivity). subst k'.
    split; [discriminate | intros H; exfalso; auto].
  - rewrite IH. split; [intros H [E'|E']; [|auto] | tauto].
    inversion E'; subst. rewrite Nat.eqb_refl, andb_true_r in E. destruct k; discriminate.
Qed.

Lemma nosucc_count : forall d l, Forall nosucc l -> count_der DSucc d l = 0.
Proof. intros d l H. apply count_der_zero. intros Hin. rewrite Forall_forall in H. exact (H _ Hin). Qed.

Definition succ_log (e : nat) (b : bool) : list entry := if b then [LFD DSucc e] else [].

Lemma succ_log_about : forall e b, Forall (about e) (succ_log e b).
Proof. intros e []; repeat constructor. Qed.

(* _eventDone: past the gate the event is finished, and <name>_success is fired if it was asked for and nothing
   has failed *)
Lemma event_done_ext : forall e err s,
  ext (succ_log e (Nat.eqb (waiting s e) 0 && (negb err && negb (verrors (val s e)) && ev_succ (spec s e))))
      (if Nat.eqb (waiting s e) 0 then set_phase e PFin s else s) (event_done e err s).
Proof.
  intros e err s. unfold event_done. destruct (Nat.eqb (waiting s e) 0); [|apply ext_refl]. cbv zeta.
  change (val (set_phase e PFin s) e) with (val s e). change (spec (set_phase e PFin s) e) with (spec s e).
  destruct (negb err && negb (verrors (val s e)) && ev_succ (spec s e)); [apply ext_fire_der | apply ext_refl].
Qed.

Lemma event_done_idle : forall e err s, Nat.eqb (waiting s e) 0 = false -> event_done e err s = s.
Proof. intros e err s H. unfold event_done. now rewrite H. Qed.

Lemma step_cases : forall (P : st -> Prop) lb s,
  P s ->
  (forall e q, queue s = e :: q -> P (dispatch e (set_queue q s))) ->
  (forall p t ys lk gr, nth_error (tasks s) p = Some t ->
     nth_error (ev_hs (spec s (tev t))) (thd t) = Some (HG ys lk gr) -> P (step_task p s)) ->
  P (step lb s).
Proof.
  intros P lb s H0 Hd Ht. destruct lb as [|p]; simpl.
  - destruct (queue s) as [|e q]; auto.
  - destruct (nth_error (tasks s) p) as [t|] eqn:Hn; [|unfold step_task; now rewrite Hn].
    destruct (nth_error (ev_hs (spec s (tev t))) (thd t)) as [[|ys lk gr]|] eqn:Hh; eauto;
      unfold step_task; now rewrite Hn, Hh.
Qed.

Lemma hpart_app : forall a b, hpart (a ++ b) = hpart a ++ hpart b.
Proof. intros. apply filter_app. Qed.
Lemma hpart_nonh : forall l, Forall nonh l -> hpart l = [].
Proof. induction 1 as [|x l Hx _ IH]; simpl; auto. destruct x; simpl in *; try contradiction; auto. Qed.
Lemma hpart_nil : forall l, hpart l = [] -> Forall nonh l.
Proof.
  induction l as [|x l IH]; intros H; [constructor|]. destruct x; simpl in *; try discriminate; constructor; simpl; auto.
Qed.
Lemma in_hpart : forall x l, In x (hpart l) <-> In x l /\ is_h x = true.
Proof. intros. unfold hpart. apply filter_In. Qed.
Lemma is_h_hentry : forall x, is_h x = true -> exists d, hentry x d.
Proof. intros [] H; simpl in *; try discriminate; eauto. Qed.
Lemma hentry_is_h : forall x d, hentry x d -> is_h x = true.
Proof. intros [] d H; simpl in *; auto; contradiction. Qed.

Record calm (s s' : st) : Prop := {
  c_next : next s <= next s';
  c_old : forall d, d < next s ->
          spec s' d = spec s d /\ kind s' d = kind s d /\ phase s' d = phase s d /\
          waiting s' d = waiting s d /\ (verrors (val s d) = true -> verrors (val s' d) = true);
  c_new : forall d, next s <= d < next s' -> phase s' d = PQueued;
  c_queue : queue s' = queue s ++ seq (next s) (next s' - next s);
  c_tasks : tasks s' = tasks s;
  c_log : exists l, log s' = l ++ log s /\ Forall nonh l /\ Forall nosucc l
}.

Lemma calm_upd : forall s s',
  next s' = next s -> spec s' = spec s -> kind s' = kind s -> phase s' = phase s -> waiting s' = waiting s ->
  queue s' = queue s -> tasks s' = tasks s -> log s' = log s ->
  (forall d, verrors (val s d) = true -> verrors (val s' d) = true) -> calm s s'.
Proof.
  intros s s' Hn Hs Hk Hp Hw Hq Ht Hl He. split; auto.
  - lia.
  - intros d _. rewrite Hs, Hk, Hp, Hw. auto 6.
  - intros d Hd. exfalso. lia.
  - rewrite Hn, Nat.sub_diag, Hq. simpl. now rewrite app_nil_r.
  - exists []. auto.
Qed.

Lemma calm_refl : forall s, calm s s.
Proof. intros. apply calm_upd; auto. Qed.

Lemma calm_trans : forall s s1 s2, calm s s1 -> calm s1 s2 -> calm s s2.
Proof.
  intros s s1 s2 [n1 o1 w1 q1 t1 (l1 & g1 & h1 & p1)] [n2 o2 w2 q2 t2 (l2 & g2 & h2 & p2)]. split.
  - lia.
  - intros d Hd. destruct (o1 d Hd) as (a1 & a2 & a3 & a4 & a5).
    destruct (o2 d ltac:(lia)) as (b1 & b2 & b3 & b4 & b5). repeat split; try congruence. auto.
  - intros d Hd. destruct (Nat.lt_ge_cases d (next s1)) as [Hlt|Hge].
    + destruct (o2 d Hlt) as (_ & _ & -> & _). apply w1. lia.
    + apply w2. lia.
  - rewrite q2, q1. apply seq_queue; lia.
  - congruence.
  - exists (l2 ++ l1). split; [rewrite g2, g1; now rewrite app_assoc | split; apply Forall_app; auto].
Qed.

Lemma calm_ext : forall l s s', ext l s s' -> Forall nonh l -> Forall nosucc l -> calm s s'.
Proof.
  intros l s s' [n o w t q g] Hh Hn. split; auto.
  - intros d Hd. destruct (o d Hd) as (-> & -> & -> & -> & ->). auto.
  - intros d Hd. apply (w d Hd).
  - exists l. auto.
Qed.

Lemma calm_set_val : forall d v s, (verrors (val s d) = true -> verrors v = true) -> calm s (set_val d v s).
Proof.
  intros d v s H. apply calm_upd; auto. intros d' H'. simpl. unfold upd.
  destruct (Nat.eqb d' d) eqn:E; auto. apply Nat.eqb_eq in E. subst. auto.
Qed.

Lemma calm_fire_all : forall kids s, calm s (fire_all kids s).
Proof.
  intros. destruct (ext_fire_all kids s) as (l & Hx & Hl). apply (LF_side 0) in Hl.
  apply (calm_ext l); auto using (side_nosucc 0), silent_nonh, (side_silent 0).
Qed.
Lemma calm_fire_user : forall sp s, calm s (fire_user sp s).
Proof. intros. apply (calm_ext _ _ _ (ext_fire_user sp s)); repeat constructor. Qed.
Lemma calm_inform : forall f e s, calm s (inform f e s).
Proof.
  intros. destruct (ext_inform f e s) as (l & Hx & Hl).
  apply (calm_ext l); auto; destruct Hl as [-> | ->]; repeat constructor.
Qed.
Lemma calm_raise_feedback : forall e s, calm s (raise_feedback e s).
Proof. intros. apply (calm_ext _ _ _ (ext_raise_feedback e s)); apply fb_about. Qed.

Lemma calm_propagate : forall f o x s, calm s (propagate f o x s).
Proof.
  induction f as [|f IH]; intros o x s; unfold propagate; fold propagate; [apply calm_refl|].
  destruct (vpar s o) as [p|]; [|apply calm_refl].
  eapply calm_trans; [|apply IH].
  set (s1 := set_val p (with_flags (val s p) (vresult (val s o)) (verrors (val s p) || verrors (val s o))) s).
  eapply (calm_trans s s1); [apply calm_set_val; simpl; intros ->; reflexivity|].
  destruct x; try apply calm_refl;
    try (eapply calm_trans; [|apply calm_inform]); apply calm_set_val; simpl; auto.
  intros ->. reflexivity.
Qed.

Lemma calm_set_value : forall e x s, calm s (set_value e x s).
Proof.
  intros e x s. unfold set_value.
  assert (Hl : calm s (set_value_local e x s)).
  { unfold set_value_local.
    destruct (is_none x); [|eapply calm_trans; [|apply calm_inform]]; apply calm_set_val; simpl; auto. }
  destruct x; try (eapply calm_trans; [exact Hl | apply calm_propagate]).
  eapply calm_trans; [|apply calm_propagate].
  eapply calm_trans; [apply (calm_upd s (set_par d e s)); auto|].
  apply calm_set_val. simpl. intros ->. reflexivity.
Qed.

Lemma calm_log_all : forall e xs s, Forall (side e) xs -> calm s (log_all xs s).
Proof.
  intros e xs s H. apply Forall_rev in H.
  apply (calm_ext _ _ _ (ext_log_all xs s)); [apply silent_nonh, (side_silent e) | apply (side_nosucc e)]; exact H.
Qed.

(* three consequences of [calm] ([calm_q3]); only [lext] is used further on, by [lext_run_handlers] *)
Definition lext (s s' : st) : Prop := exists l, log s' = l ++ log s /\ Forall nosucc l.
Record emono (s s' : st) : Prop := {
  em_next : next s <= next s';
  em_spec : forall d, d < next s -> spec s' d = spec s d;
  em_err : forall d, d < next s -> verrors (val s d) = true -> verrors (val s' d) = true
}.
Definition qlog (s s' : st) : Prop := exists l, log s' = l ++ log s /\ Forall nonh l.
Definition q3 (s s' : st) : Prop := emono s s' /\ lext s s' /\ qlog s s'.

Lemma calm_q3 : forall s s', calm s s' -> q3 s s'.
Proof.
  intros s s' [n o w q t (l & g & h & p)]. split; [|split; exists l; auto].
  split; auto; intros d Hd; apply (o d Hd).
Qed.
Lemma q3_refl : forall s, q3 s s.
Proof. intros. apply calm_q3, calm_refl. Qed.

Lemma lext_refl : forall s, lext s s.
Proof. intros. exists []. split; auto. Qed.
Lemma lext_trans : forall s s1 s2, lext s s1 -> lext s1 s2 -> lext s s2.
Proof.
  intros s s1 s2 (l1 & a1 & b1) (l2 & a2 & b2). exists (l2 ++ l1). split.
  - rewrite a2, a1. now rewrite app_assoc.
  - apply Forall_app; auto.
Qed.

(* after its log entry x: the children and the result of a plain handler that returns, of a generator segment that yields *)
Lemma value_calm : forall e x kids y s,
  let s2 := fire_all kids (add_log x s) in calm (add_log x s) (if is_none y then s2 else set_value e y s2).
Proof.
  intros. destruct (is_none y); [apply calm_fire_all|].
  eapply calm_trans; [apply calm_fire_all | apply calm_set_value].
Qed.

(* processTask's StopIteration branch reaches the _eventDone gate in every case: the gate does nothing while
   handlers of e are pending *)
Lemma task_stop_gate : forall p e s,
  let s1 := set_tasks (remove_nth p (tasks s)) (set_wait e (pred (waiting s e)) s) in
  task_stop p e s = event_done e false (if Nat.eqb (waiting s1 e) 0 then inform true e s1 else s1).
Proof.
  intros. unfold task_stop. fold s1. destruct (Nat.eqb (waiting s1 e) 0) eqn:E; auto.
  symmetry. now apply event_done_idle.
Qed.

Lemma run_handler_calm : forall e i h err s,
  match h with
  | HP _ _ => calm (add_log (LH e i) s) (fst (run_handler e i h err s)) /\
              (e < next s -> raising h = true -> verrors (val (fst (run_handler e i h err s)) e) = true)
  | HG _ _ _ => fst (run_handler e i h err s) = add_task e i s
  end /\ snd (run_handler e i h err s) = err || raising h.
Proof.
  intros e i h err s. destruct h as [kids r | ys lk gr]; simpl; [|now rewrite orb_false_r].
  set (s1 := fire_all kids (add_log (LH e i) s)).
  assert (H1 : calm (add_log (LH e i) s) s1) by apply calm_fire_all.
  destruct (unstop r) as [v| |sp|r']; simpl; rewrite ?orb_false_r, ?orb_true_r;
    (split; [split; [|try discriminate]|reflexivity]).
  - destruct (is_none v); auto. eapply calm_trans; [exact H1 | apply calm_set_value].
  - eapply calm_trans; [exact H1|]. eapply calm_trans; [|apply calm_set_value].
    eapply calm_trans; [|apply calm_raise_feedback]. apply calm_set_val. auto.
  - intros He _.
    pose proof (calm_trans _ _ _ (calm_raise_feedback e (set_errors e s1)) (calm_set_value e PErr _)) as H2.
    apply (c_old _ _ H2 e); [pose proof (c_next _ _ H1); simpl in *; lia|]. now rewrite val_set_errors.
  - eapply calm_trans; [exact H1|]. eapply calm_trans; [apply calm_fire_user | apply calm_set_value].
  - exact H1.
Qed.

Lemma lext_run_handlers : forall e hs i err s,
  lext s (fst (run_handlers e i hs err s)) /\
  snd (run_handlers e i hs err s) = err || existsb raising (upto_stop hs).
Proof.
  intros e hs. induction hs as [|h r IH]; intros i err s; simpl.
  - split; [apply lext_refl | now rewrite orb_false_r].
  - destruct (run_handler_calm e i h err s) as (H1 & H2).
    destruct (run_handler e i h err s) as [s1 err1]. simpl in H1, H2. subst err1.
    assert (L1 : lext s s1).
    { destruct h; [|subst s1; exists []; split; auto]. destruct H1 as (H1 & _).
      destruct (c_log _ _ H1) as (l & Hl & _ & Hn). exists (l ++ [LH e i]).
      split; [rewrite Hl; now rewrite <- app_assoc | apply Forall_app; split; auto; repeat constructor]. }
    destruct (stops h); simpl; [split; auto; now rewrite orb_false_r|].
    destruct (IH (S i) (err || raising h) s1) as (H3 & H4). split.
    + eapply lext_trans; eauto.
    + rewrite H4. now rewrite orb_assoc.
Qed.

Lemma observers_side : forall e (f : nat -> entry) (c : bool) a o,
  (forall k, side e (f k)) -> Forall (side e) (if c then [] else map f (observers a o)).
Proof. intros e f c a o H. destruct c, a, o; repeat constructor; auto. Qed.

Theorem pass_failure_blocks_success : forall s e d,
  kind s e = KUser -> existsb raising (upto_stop (ev_hs (spec s e))) = true ->
  count_der DSucc d (log (dispatch e s)) = count_der DSucc d (log s).
Proof.
  intros s e d Hk Hr. unfold dispatch. rewrite Hk.
  set (s0 := set_phase e PActive s).
  destruct (lext_run_handlers e (ev_hs (spec s0 e)) 0 false s0) as ((l1 & Hl1 & Hn1) & H2).
  destruct (run_handlers e 0 (ev_hs (spec s0 e)) false s0) as [s1 err]. simpl in Hl1, H2.
  change (spec s0 e) with (spec s e) in H2. rewrite Hr in H2. simpl in H2. subst err.
  set (xs := if existsb stops (ev_hs (spec s0 e)) then [] else map (LDU e) (observers true (ev_both (spec s1 e)))).
  destruct (c_log _ _ (calm_log_all e xs s1 (observers_side e (LDU e) _ _ _ (fun _ => I)))) as (l2 & Hl2 & _ & Hn2).
  assert (H4 : log (event_done e true (log_all xs s1)) = log (log_all xs s1)).
  { unfold event_done. destruct (Nat.eqb (waiting (log_all xs s1) e) 0); reflexivity. }
  rewrite H4, Hl2, Hl1, !count_der_app, (nosucc_count d l1 Hn1), (nosucc_count d l2 Hn2). reflexivity.
Qed.

(* [frame e l s s']: what work on e that logs l changes in any program.  Unlike [fr], Values of other events may
   change (setValue reaches parent Values), but no errors flag is cleared *)
Record frame (e : nat) (l : list entry) (s s' : st) : Prop := {
  g_next : next s <= next s';
  g_old : forall d, d < next s ->
          spec s' d = spec s d /\ kind s' d = kind s d /\
          (verrors (val s d) = true -> verrors (val s' d) = true) /\ (d <> e -> phase s' d = phase s d);
  g_e : phase s e <> PQueued -> phase s' e <> PQueued;
  g_new : forall d, next s <= d < next s' -> phase s' d = PQueued;
  g_queue : queue s' = queue s ++ seq (next s) (next s' - next s);
  g_log : log s' = l ++ log s
}.

Lemma frame_spec : forall e l s s' d, frame e l s s' -> d < next s -> spec s' d = spec s d.
Proof. intros e l s s' d H Hd. apply (g_old _ _ _ _ H d Hd). Qed.
Lemma frame_phase : forall e l s s' d, frame e l s s' -> d < next s -> d <> e -> phase s' d = phase s d.
Proof. intros e l s s' d H Hd. apply (g_old _ _ _ _ H d Hd). Qed.
Lemma frame_err : forall e l s s' d,
  frame e l s s' -> d < next s -> verrors (val s d) = true -> verrors (val s' d) = true.
Proof. intros e l s s' d H Hd. apply (g_old _ _ _ _ H d Hd). Qed.

Lemma frame_trans : forall e l1 l2 s s1 s2,
  e < next s -> frame e l1 s s1 -> frame e l2 s1 s2 -> frame e (l2 ++ l1) s s2.
Proof.
  intros e l1 l2 s s1 s2 He [n1 o1 e1 w1 q1 g1] [n2 o2 e2 w2 q2 g2]. split.
  - lia.
  - intros d Hd. destruct (o1 d Hd) as (a1 & a2 & a3 & a4).
    destruct (o2 d ltac:(lia)) as (b1 & b2 & b3 & b4).
    repeat split; try congruence; auto. intros Hne. rewrite b4, a4; auto.
  - auto.
  - intros d Hd. destruct (Nat.lt_ge_cases d (next s1)) as [Hlt|Hge].
    + destruct (o2 d Hlt) as (_ & _ & _ & ->); [apply w1|]; lia.
    + apply w2. lia.
  - rewrite q2, q1. apply seq_queue; lia.
  - rewrite g2, g1. now rewrite app_assoc.
Qed.

Lemma frame_upd : forall e s s',
  next s' = next s -> spec s' = spec s -> kind s' = kind s -> queue s' = queue s -> log s' = log s ->
  (forall d, verrors (val s d) = true -> verrors (val s' d) = true) ->
  (forall d, d <> e -> phase s' d = phase s d) -> (phase s e <> PQueued -> phase s' e <> PQueued) ->
  frame e [] s s'.
Proof.
  intros e s s' Hn Hs Hk Hq Hl He Hp Hpe. split; auto.
  - lia.
  - intros d _. rewrite Hs, Hk. auto.
  - intros d Hd. exfalso. lia.
  - rewrite Hn, Nat.sub_diag, Hq. simpl. now rewrite app_nil_r.
Qed.

Lemma frame_set_phase : forall e p s, p <> PQueued -> frame e [] s (set_phase e p s).
Proof.
  intros e p s Hp. apply frame_upd; auto; simpl; intros.
  - now rewrite upd_other.
  - now rewrite upd_same.
Qed.

Lemma frame_add_log : forall e x s, frame e [x] s (add_log x s).
Proof. intros. pose proof (frame_upd e s s) as [n o pe w q g]; auto. split; auto. Qed.

Lemma frame_ext : forall e l s s', e < next s -> ext l s s' -> frame e l s s'.
Proof.
  intros e l s s' He [n o w t q g]. split; auto.
  - intros d Hd. destruct (o d Hd) as (-> & -> & -> & _ & ->). auto.
  - destruct (o e He) as (_ & _ & _ & _ & ->). auto.
  - intros d Hd. apply (w d Hd).
Qed.

Definition flags (e : nat) (l : list entry) (s s' : st) : Prop :=
  0 < nraised (spec s) e l -> verrors (val s' e) = true.

Lemma flags_nonh : forall e l s s', Forall nonh l -> flags e l s s'.
Proof. intros e l s s' H. unfold flags. rewrite (nraised_nonh _ _ _ H). lia. Qed.

(* [work e H s s']: work on e, under way since s.  Among what it logged (no success yet) the handler entries are H,
   newest first, and a raise among them has set e's errors flag ([flags]) *)
Definition work (e : nat) (H : list entry) (s s' : st) : Prop :=
  e < next s /\ exists l, frame e l s s' /\ Forall nosucc l /\ hpart l = H /\ flags e l s s'.

Lemma work_refl : forall e s, e < next s -> work e [] s s.
Proof.
  intros e s He. split; [exact He|]. exists []. split; [apply frame_upd; auto|].
  repeat split; auto. apply flags_nonh. constructor.
Qed.

Lemma work_next : forall e H s s', work e H s s' -> e < next s'.
Proof. intros e H s s' (He & l & F & _). pose proof (g_next _ _ _ _ F). lia. Qed.

Lemma work_then : forall e H l2 s s1 s2,
  frame e l2 s1 s2 -> Forall nonh l2 -> Forall nosucc l2 -> work e H s s1 -> work e H s s2.
Proof.
  intros e H l2 s s1 s2 F2 H2 N2 W. pose proof (work_next _ _ _ _ W) as He1.
  destruct W as (He & l1 & F1 & N1 & P1 & R1). split; [exact He|].
  exists (l2 ++ l1). split; [eapply frame_trans; eauto|]. split; [now apply Forall_app|].
  split; [now rewrite hpart_app, (hpart_nonh l2 H2)|].
  unfold flags in *. rewrite nraised_app, (nraised_nonh _ _ _ H2). intros Hpos.
  apply (frame_err _ _ _ _ e F2 He1), R1, Hpos.
Qed.

Lemma work_upd : forall e H s s1 s2, frame e [] s1 s2 -> work e H s s1 -> work e H s s2.
Proof. intros e H s s1 s2 F. apply (work_then e H []); auto. Qed.
Lemma work_set_tasks : forall ts e H s s1, work e H s s1 -> work e H s (set_tasks ts s1).
Proof. intros ts e H s s1. apply work_upd, frame_upd; auto. Qed.
Lemma work_set_wait : forall d w e H s s1, work e H s s1 -> work e H s (set_wait d w s1).
Proof. intros d w e H s s1. apply work_upd, frame_upd; auto. Qed.
Lemma work_set_phase : forall p e H s s1, p <> PQueued -> work e H s s1 -> work e H s (set_phase e p s1).
Proof. intros p e H s s1 Hp. apply work_upd, frame_set_phase, Hp. Qed.

Lemma work_calm : forall e H s s1 s2, calm s1 s2 -> work e H s s1 -> work e H s s2.
Proof.
  intros e H s s1 s2 [n o w q t (l & g & h & p)] W. pose proof (work_next _ _ _ _ W) as He1.
  apply (work_then e H l s s1 s2); auto. split; auto.
  - intros d Hd. destruct (o d Hd) as (-> & -> & -> & _ & a). auto.
  - destruct (o e He1) as (_ & _ & -> & _). auto.
Qed.

(* a handler unit: its entry x, then work that logs no handler activity *)
Lemma work_unit : forall e H x s s1 s2,
  work e H s s1 -> hentry x e -> work e [] (add_log x s1) s2 ->
  (raises (spec s) e x = true -> verrors (val s2 e) = true) -> work e (x :: H) s s2.
Proof.
  intros e H x s s1 s2 (He & l1 & F1 & N1 & P1 & R1) Hx (He1 & l2 & F2 & N2 & P2 & _) Hr. split; [exact He|].
  pose proof (hpart_nil l2 P2) as H2.
  assert (F12 : frame e (l2 ++ [x]) s1 s2) by (eapply frame_trans; [exact He1 | apply frame_add_log | exact F2]).
  exists ((l2 ++ [x]) ++ l1). split; [eapply frame_trans; eauto|].
  split; [apply Forall_app; split; auto; apply (nosucc_snoc_hentry e x l2 Hx N2)|]. split.
  - rewrite !hpart_app, P2, P1. simpl. now rewrite (hentry_is_h x e Hx).
  - unfold flags in *. rewrite nraised_app. destruct (nonh_snoc (spec s) e l2 x H2) as (_ & ->). intros Hpos.
    destruct (raises (spec s) e x); [auto|]. apply (frame_err _ _ _ _ e F12 He1), R1. simpl in Hpos. exact Hpos.
Qed.

Fixpoint entries_of (e i : nat) (hs : list hdl) : list entry :=
  match hs with
  | [] => []
  | HP _ _ :: r => LH e i :: entries_of e (S i) r
  | HG _ _ _ :: r => entries_of e (S i) r
  end.
Fixpoint tasks_of (e i : nat) (hs : list hdl) : list task :=
  match hs with
  | [] => []
  | HP _ _ :: r => tasks_of e (S i) r
  | HG _ _ _ :: r => {| tev := e; thd := i; tk := 0 |} :: tasks_of e (S i) r
  end.

Lemma entries_of_in : forall e x hs i, In x (entries_of e i hs) -> exists j, i <= j /\ x = LH e j.
Proof.
  intros e x hs. induction hs as [|[|] hs IH]; intros i; simpl; try contradiction.
  - intros [<-|H]; [exists i; auto|]. destruct (IH _ H) as (j & Hj & ->). exists j. split; [lia | auto].
  - intros H. destruct (IH _ H) as (j & Hj & ->). exists j. split; [lia | auto].
Qed.
Lemma in_entries_of : forall e hs i j k r,
  nth_error hs j = Some (HP k r) -> In (LH e (i + j)) (entries_of e i hs).
Proof.
  intros e hs. induction hs as [|h hs IH]; intros i [|j] k r H; try discriminate; simpl in H.
  - inversion H; subst. simpl. rewrite Nat.add_0_r. auto.
  - replace (i + S j) with (S i + j) by lia. destruct h; simpl entries_of; [right|]; eapply IH; eauto.
Qed.

Lemma tasks_of_in : forall e t hs i, In t (tasks_of e i hs) -> tev t = e /\ i <= thd t.
Proof.
  intros e t hs. induction hs as [|[|] hs IH]; intros i; simpl; try contradiction.
  - intros H. destruct (IH _ H). split; [auto | lia].
  - intros [<-|H]; [auto|]. destruct (IH _ H). split; [auto | lia].
Qed.
Lemma in_tasks_of : forall e hs i j ys lk gr,
  nth_error hs j = Some (HG ys lk gr) -> In {| tev := e; thd := i + j; tk := 0 |} (tasks_of e i hs).
Proof.
  intros e hs. induction hs as [|h hs IH]; intros i [|j] ys lk gr H; try discriminate; simpl in H.
  - inversion H; subst. simpl. rewrite Nat.add_0_r. auto.
  - replace (i + S j) with (S i + j) by lia. destruct h; simpl tasks_of; [|right]; eapply IH; eauto.
Qed.

Lemma entries_of_nodup : forall e hs i, NoDup (entries_of e i hs).
Proof.
  intros e hs. induction hs as [|[k r|ys lk gr] hs IH]; intros i; simpl; auto; [constructor|].
  constructor; auto. intros H. apply entries_of_in in H. destruct H as (j & Hj & H). inversion H. lia.
Qed.
Definition key (t : task) : nat * nat := (tev t, thd t).

Lemma tasks_of_nodup : forall e hs i, NoDup (map key (tasks_of e i hs)).
Proof.
  intros e hs. induction hs as [|[k r|ys lk gr] hs IH]; intros i; simpl; auto; [constructor|].
  constructor; auto. intros H. apply in_map_iff in H. destruct H as (t & Ht & H).
  apply tasks_of_in in H. inversion Ht. lia.
Qed.

Lemma run_handler_work : forall e i h err H s0 s,
  work e H s0 s -> nth_error (ev_hs (spec s0 e)) i = Some h ->
  work e (entries_of e i [h] ++ H) s0 (fst (run_handler e i h err s)) /\
  tasks (fst (run_handler e i h err s)) = tasks s ++ tasks_of e i [h] /\
  waiting (fst (run_handler e i h err s)) e = waiting s e + length (tasks_of e i [h]) /\
  phase (fst (run_handler e i h err s)) e = phase s e.
Proof.
  intros e i h err H s0 s W Hnth. pose proof (work_next _ _ _ _ W) as He.
  destruct (run_handler_calm e i h err s) as (C & _).
  destruct h as [kids r | ys lk gr]; simpl entries_of; simpl tasks_of.
  - destruct C as (C & Hr). destruct (c_old _ _ C e He) as (_ & _ & Hp & Hw & _).
    split; [|split; [|split; [|exact Hp]]].
    + apply (work_unit e H (LH e i) s0 s); auto; [reflexivity | apply (work_calm e _ _ _ _ C), work_refl, He |].
      simpl. rewrite Nat.eqb_refl, Hnth. simpl. auto.
    + rewrite (c_tasks _ _ C). simpl. now rewrite app_nil_r.
    + rewrite Hw. simpl. lia.
  - rewrite C. split; [|repeat split; simpl; rewrite ?upd_same; auto; lia].
    apply (work_upd e H s0 s); auto. apply frame_upd; auto.
    intros d. unfold add_task, set_promise. simpl. unfold upd.
    destruct (Nat.eqb d e) eqn:E; auto. apply Nat.eqb_eq in E. now subst.
Qed.

Lemma run_handlers_work : forall e hs i err H s0 s pre,
  work e H s0 s -> ev_hs (spec s0 e) = pre ++ hs -> length pre = i ->
  work e (rev (entries_of e i (upto_stop hs)) ++ H) s0 (fst (run_handlers e i hs err s)) /\
  tasks (fst (run_handlers e i hs err s)) = tasks s ++ tasks_of e i (upto_stop hs) /\
  waiting (fst (run_handlers e i hs err s)) e = waiting s e + length (tasks_of e i (upto_stop hs)) /\
  phase (fst (run_handlers e i hs err s)) e = phase s e.
Proof.
  intros e hs. induction hs as [|h r IH]; intros i err H s0 s pre W Hpre Hlen; simpl run_handlers.
  - simpl. rewrite app_nil_r, Nat.add_0_r. auto.
  - assert (Hnth : nth_error (ev_hs (spec s0 e)) i = Some h).
    { rewrite Hpre, nth_error_app2 by lia. now rewrite <- Hlen, Nat.sub_diag. }
    destruct (run_handler_work e i h err H s0 s W Hnth) as (W1 & T1 & Wt1 & Ph1).
    destruct (run_handler e i h err s) as [s1 err1]. simpl fst in *. simpl upto_stop.
    destruct (stops h).
    { split; [|auto]. destruct h; exact W1. }
    destruct (IH (S i) err1 _ s0 s1 (pre ++ [h]) W1) as (W2 & T2 & Wt2 & Ph2).
    { rewrite Hpre, <- app_assoc. reflexivity. }
    { rewrite app_length. simpl. lia. }
    split; [|split; [|split; [|congruence]]].
    + destruct h; simpl in *; [rewrite <- app_assoc|]; exact W2.
    + rewrite T2, T1, <- app_assoc. now destruct h.
    + rewrite Wt2, Wt1. destruct h; simpl; lia.
Qed.

Lemma event_done_frame : forall e err s, e < next s ->
  exists b, frame e (succ_log e b) s (event_done e err s) /\
    tasks (event_done e err s) = tasks s /\ val (event_done e err s) e = val s e /\
    waiting (event_done e err s) e = waiting s e /\
    (b = true -> verrors (val s e) = false).
Proof.
  intros e err s He. pose proof (event_done_ext e err s) as X.
  set (s1 := if Nat.eqb (waiting s e) 0 then set_phase e PFin s else s) in *.
  assert (F1 : frame e [] s s1)
    by (unfold s1; destruct (Nat.eqb (waiting s e) 0); [apply frame_set_phase; discriminate | apply frame_upd; auto]).
  assert (He1 : e < next s1) by (unfold s1; now destruct (Nat.eqb (waiting s e) 0)).
  eexists. split; [rewrite <- (app_nil_r (succ_log e _)); apply (frame_trans e [] _ s s1 _ He F1), frame_ext; eauto|].
  rewrite (x_tasks _ _ _ X), (ext_val _ _ _ e X He1), (ext_wait _ _ _ e X He1).
  unfold s1. destruct (Nat.eqb (waiting s e) 0); simpl; (split; [|split; [|split]]); auto; try discriminate.
  intros E. apply andb_prop in E. destruct E as (E & _). apply andb_prop in E. destruct E as (_ & E).
  now apply negb_true_iff.
Qed.

Lemma work_done : forall e H s s2 err, work e H s s2 ->
  exists l0 b, frame e (succ_log e b ++ l0) s (event_done e err s2) /\ Forall nosucc l0 /\
    hpart l0 = H /\ flags e l0 s (event_done e err s2) /\
    tasks (event_done e err s2) = tasks s2 /\ waiting (event_done e err s2) e = waiting s2 e /\
    (phase s2 e <> PQueued -> phase (event_done e err s2) e <> PQueued) /\
    (b = true -> verrors (val (event_done e err s2) e) = false).
Proof.
  intros e H s s2 err W. pose proof (work_next _ _ _ _ W) as He2. destruct W as (He & l & F & N & P & R).
  destruct (event_done_frame e err s2 He2) as (b & F' & T' & V' & W' & Hb).
  exists l, b. split; [eapply frame_trans; eauto|]. repeat (split; [assumption|]).
  split; [unfold flags in *; now rewrite V'|]. split; [exact T'|]. split; [exact W'|].
  split; [apply (g_e _ _ _ _ F')|]. intros E. rewrite V'. exact (Hb E).
Qed.

Definition invoked (s : st) (e : nat) : list hdl :=
  match kind s e with KUser => upto_stop (ev_hs (spec s e)) | KDer _ _ _ _ => [] end.

Lemma dispatch_frame : forall e s, e < next s ->
  exists l0 b, frame e (succ_log e b ++ l0) s (dispatch e s) /\ Forall nosucc l0 /\
    hpart l0 = rev (entries_of e 0 (invoked s e)) /\ flags e l0 s (dispatch e s) /\
    tasks (dispatch e s) = tasks s ++ tasks_of e 0 (invoked s e) /\
    waiting (dispatch e s) e = waiting s e + length (tasks_of e 0 (invoked s e)) /\
    phase (dispatch e s) e <> PQueued /\
    (b = true -> verrors (val (dispatch e s) e) = false).
Proof.
  intros e s He. pose proof (work_refl e s He) as W0. unfold dispatch, invoked. destruct (kind s e) as [|k x a o].
  - set (s0 := set_phase e PActive s).
    apply (work_set_phase PActive) in W0; [|discriminate]. fold s0 in W0.
    destruct (run_handlers_work e (ev_hs (spec s0 e)) 0 false [] s s0 [] W0 eq_refl eq_refl) as (W1 & T1 & Wt1 & Ph1).
    destruct (run_handlers e 0 (ev_hs (spec s0 e)) false s0) as [s1 err]. simpl fst in *. rewrite app_nil_r in W1.
    pose proof (work_next _ _ _ _ W1) as He1.
    set (xs := if existsb stops (ev_hs (spec s0 e)) then [] else map (LDU e) (observers true (ev_both (spec s1 e)))).
    pose proof (calm_log_all e xs s1 (observers_side e (LDU e) _ _ _ (fun _ => I))) as C2.
    destruct (c_old _ _ C2 e He1) as (_ & _ & Ph2 & Wt2 & _).
    apply (work_calm e _ _ _ _ C2) in W1.
    destruct (work_done e _ s _ err W1) as (l0 & b & F & N & P & R & T & Wt & Hp & Hb).
    exists l0, b. repeat (split; [assumption|]). split; [|split; [|split; [|exact Hb]]].
    + rewrite T, (c_tasks _ _ C2), T1. reflexivity.
    + rewrite Wt, Wt2, Wt1. reflexivity.
    + apply Hp. rewrite Ph2, Ph1. simpl. rewrite upd_same. discriminate.
  - pose proof (calm_log_all e _ s (observers_side e (LDD k x) false a o (fun _ => I))) as C.
    destruct (c_old _ _ C e He) as (_ & _ & _ & Wt & _).
    apply (work_calm e _ _ _ _ C) in W0. apply (work_set_phase PFin) in W0; [|discriminate].
    destruct W0 as (_ & l & F & N & P & R).
    exists l, false. repeat (split; [assumption|]).
    simpl. rewrite (c_tasks _ _ C), Wt, app_nil_r, upd_same. repeat split; auto; discriminate.
Qed.

Lemma task_frame : forall p t s ys lk gr,
  nth_error (tasks s) p = Some t -> tev t < next s ->
  nth_error (ev_hs (spec s (tev t))) (thd t) = Some (HG ys lk gr) ->
  exists l0 b, frame (tev t) (succ_log (tev t) b ++ l0) s (step_task p s) /\ Forall nosucc l0 /\
    hpart l0 = [LG (tev t) (thd t) (tk t)] /\ flags (tev t) l0 s (step_task p s) /\
    tasks (step_task p s) =
      match nth_error ys (tk t) with
      | Some _ => replace_nth p {| tev := tev t; thd := thd t; tk := S (tk t) |} (tasks s)
      | None => remove_nth p (tasks s)
      end /\
    waiting (step_task p s) (tev t) =
      match nth_error ys (tk t) with Some _ => waiting s (tev t) | None => pred (waiting s (tev t)) end /\
    (b = true -> verrors (val (step_task p s) (tev t)) = false).
Proof.
  intros p t s ys lk gr Hn He Hh. unfold step_task. rewrite Hn, Hh.
  set (e := tev t) in *. set (x := LG e (thd t) (tk t)).
  assert (Hr : raises (spec s) e x = match nth_error ys (tk t) with Some _ => false | None => gr end)
    by (simpl; now rewrite Nat.eqb_refl, Hh).
  assert (Hu : forall sb, work e [] (add_log x s) sb -> (raises (spec s) e x = true -> verrors (val sb e) = true) ->
                          work e [x] s sb) by (intros sb; apply (work_unit e [] x s s); [now apply work_refl | reflexivity]).
  pose proof (work_refl e (add_log x s) He) as T0.
  destruct (nth_error ys (tk t)) as [[kids y]|].
  - (* a yielding segment: no gate *)
    pose proof (value_calm e x kids y s) as C. cbv zeta in C.
    set (s3 := if is_none y then fire_all kids (add_log x s) else set_value e y (fire_all kids (add_log x s))) in *.
    destruct (Hu (set_tasks (replace_nth p {| tev := e; thd := thd t; tk := S (tk t) |} (tasks s3)) s3))
      as (_ & l & F & N & P & R); [apply work_set_tasks, (work_calm e _ _ _ _ C), T0 | rewrite Hr; discriminate |].
    exists l, false. repeat (split; [assumption|]).
    split; [simpl; now rewrite (c_tasks _ _ C) | split; [apply (c_old _ _ C e He) | discriminate]].
  - set (s2 := fire_all lk (add_log x s)).
    assert (C2 : calm (add_log x s) s2) by apply calm_fire_all.
    assert (W2 : waiting s2 e = waiting s e) by apply (c_old _ _ C2 e He).
    apply (work_calm e _ _ _ _ C2) in T0. destruct gr.
    + (* the except branch *)
      unfold task_raise.
      set (s3 := set_tasks (remove_nth p (tasks s2)) s2).
      set (s5 := set_errors e (set_value e PErr s3)).
      set (s7 := raise_feedback e (inform true e s5)).
      assert (C5 : calm s3 s5) by (eapply calm_trans; [apply calm_set_value | apply calm_set_val; auto]).
      assert (C7 : calm s5 s7) by (eapply calm_trans; [apply calm_inform | apply calm_raise_feedback]).
      assert (He3 : e < next s3) by (pose proof (c_next _ _ C2); simpl in *; lia).
      destruct (c_old _ _ (calm_trans _ _ _ C5 C7) e He3) as (_ & _ & _ & W7 & _).
      destruct (work_done e [x] s (set_wait e (pred (waiting s7 e)) s7) true) as (l0 & b & F & N & P & R & T & W & _ & Hb).
      { apply Hu; [apply work_set_wait, (work_calm e _ _ _ _ (calm_trans _ _ _ C5 C7)), work_set_tasks, T0|].
        intros _. apply (c_old _ _ C7 e); [pose proof (c_next _ _ C5); lia|]. unfold s5. now rewrite val_set_errors. }
      exists l0, b. repeat (split; [assumption|]). split; [|split; [|exact Hb]].
      * rewrite T. cbn [set_wait tasks]. rewrite (c_tasks _ _ C7), (c_tasks _ _ C5). unfold s3. cbn [set_tasks tasks].
        now rewrite (c_tasks _ _ C2).
      * rewrite W. cbn [set_wait waiting]. rewrite upd_same, W7. change (waiting s3 e) with (waiting s2 e). now rewrite W2.
    + (* the StopIteration branch *)
      rewrite task_stop_gate.
      set (s3 := set_tasks (remove_nth p (tasks s2)) (set_wait e (pred (waiting s2 e)) s2)).
      set (s4 := if Nat.eqb (waiting s3 e) 0 then inform true e s3 else s3).
      assert (C4 : calm s3 s4) by (unfold s4; destruct (Nat.eqb (waiting s3 e) 0); [apply calm_inform | apply calm_refl]).
      assert (He3 : e < next s3) by (pose proof (c_next _ _ C2); simpl in *; lia).
      destruct (c_old _ _ C4 e He3) as (_ & _ & _ & W4 & _).
      destruct (work_done e [x] s s4 false) as (l0 & b & F & N & P & R & T & W & _ & Hb).
      { apply Hu; [apply (work_calm e _ _ _ _ C4), work_set_tasks, work_set_wait, T0 | rewrite Hr; discriminate]. }
      exists l0, b. repeat (split; [assumption|]). split; [|split; [|exact Hb]].
      * rewrite T, (c_tasks _ _ C4). unfold s3. cbn [set_tasks tasks]. now rewrite (c_tasks _ _ C2).
      * rewrite W, W4. unfold s3. cbn [set_tasks set_wait waiting]. now rewrite upd_same, W2.
Qed.

(* Plain programs: no Value has a parent link, so setValue is the local update ([set_value_eq]) and VC can be
   followed through every handler unit. *)

Lemma VC_same : forall s s' e,
  spec s' e = spec s e -> log s' = log s -> vv (val s' e) = vv (val s e) ->
  vcoll (val s' e) = vcoll (val s e) ->
  vresult (val s' e) = vresult (val s e) -> verrors (val s' e) = verrors (val s e) -> VC s e -> VC s' e.
Proof.
  intros s s' e Hsp Hl H1 H1c H2 H3 [v1 v2 v3 v4 v5]. split; rewrite ?Hl, ?H1, ?H1c, ?H2, ?H3, ?Hsp; auto;
    rewrite ?(produced_sp (spec s) (spec s')), ?(nraised_sp (spec s) (spec s')); auto.
Qed.

Lemma VC_fr_silent : forall e l s s',
  e < next s -> fr e l s s' -> val s' e = val s e -> Forall silent l -> VC s e -> VC s' e.
Proof.
  intros e l s s' He Hfr Hval Hs Hvc. apply (VC_irrel s s' e l); auto.
  - eapply fr_spec; eauto.
  - apply (f_log _ _ _ _ Hfr).
  - eapply Forall_impl; [|exact Hs]. intros x Hx. now apply silent_irrel.
Qed.

Definition absorb (v : value) (c : list pyval) (r : bool) (v' : value) : Prop :=
  (vv v', vcoll v') = accum_from (vv v, vcoll v) c /\
  vresult v' = vresult v || nonempty c /\ verrors v' = verrors v || r.

Lemma absorb_refl : forall v, absorb v [] false v.
Proof. intros v. repeat split; simpl; now rewrite ?orb_false_r. Qed.
Lemma absorb_trans : forall v c r v1 c' r' v2,
  absorb v c r v1 -> absorb v1 c' r' v2 -> absorb v (c ++ c') (r || r') v2.
Proof.
  intros v c r v1 c' r' v2 (a1 & a2 & a3) (b1 & b2 & b3). split; [|split].
  - now rewrite accum_from_app, <- a1.
  - now rewrite b2, a2, nonempty_app, orb_assoc.
  - now rewrite b3, a3, orb_assoc.
Qed.
Definition setv (v : value) (x : pyval) : value :=
  {| vv := fst (set_slot (vv v, vcoll v) x); vcoll := snd (set_slot (vv v, vcoll v) x);
     vresult := vresult v || negb (is_none x); verrors := verrors v; vpromise := vpromise v |}.
Lemma absorb_value : forall v y, is_none y = false -> absorb v [y] false (setv v y).
Proof.
  intros v y E. repeat split; simpl; rewrite ?E, ?orb_false_r; auto. symmetry. apply surjective_pairing.
Qed.
Lemma absorb_err : forall v, absorb v [] true (seterr v).
Proof. intros v. repeat split; simpl; now rewrite ?orb_false_r, ?orb_true_r. Qed.

Lemma vpar_fire_all : forall kids s, vpar (fire_all kids s) = vpar s.
Proof. induction kids as [|sp r IH]; intros s; simpl; auto. now rewrite IH. Qed.
Lemma vpar_fire_der : forall k e s, vpar (fire_der k e s) = vpar s.
Proof. intros. unfold fire_der. now destruct (der_chans k (spec s e)). Qed.
Lemma vpar_inform : forall f e s, vpar (inform f e s) = vpar s.
Proof.
  intros. unfold inform. destruct (vpromise (val s e) && negb f); auto.
  destruct (ev_notify (spec s e)); auto using vpar_fire_der.
Qed.
Lemma vpar_raise_feedback : forall e s, vpar (raise_feedback e s) = vpar s.
Proof.
  intros. unfold raise_feedback. rewrite vpar_fire_der. destruct (ev_fail (spec s e)); auto using vpar_fire_der.
Qed.
Lemma vpar_event_done : forall e err s, vpar (event_done e err s) = vpar s.
Proof.
  intros. unfold event_done. destruct (Nat.eqb (waiting s e) 0); auto. cbv zeta.
  match goal with |- context [if ?c then _ else _] => destruct c end; auto. now rewrite vpar_fire_der.
Qed.
Lemma vpar_log_all : forall xs s, vpar (log_all xs s) = vpar s.
Proof. induction xs as [|x r IH]; intros s; simpl; auto. now rewrite IH. Qed.
Lemma vpar_set_value_local : forall e x s, vpar (set_value_local e x s) = vpar s.
Proof. intros. unfold set_value_local. destruct (is_none x); auto. now rewrite vpar_inform. Qed.

Lemma propagate_none : forall f o x s, vpar s o = None -> propagate f o x s = s.
Proof. intros f o x s H. destruct f; unfold propagate; auto. now rewrite H. Qed.

Lemma set_value_eq : forall e x s,
  vpar s e = None -> is_ref x = false -> set_value e x s = set_value_local e x s.
Proof.
  intros e x s Hp Hx. unfold set_value.
  destruct x; try discriminate; apply propagate_none; now rewrite vpar_set_value_local.
Qed.

(* [hunit e x n c r s s']: a unit of handler activity on e, under way.  It logged its handler entry x first;
   what followed only fired events and updated e's Value: n raises were answered by the feedback events,
   e's Value absorbed the results c and, if r, the errors flag *)
Definition hunit (e : nat) (x : entry) (n : nat) (c : list pyval) (r : bool) (s s' : st) : Prop :=
  e < next s /\ exists A,
    fr e (A ++ [x]) s s' /\ Forall nonh A /\ Forall nosucc A /\
    count_der DExc e A = n /\ count_der DFail e A = (if ev_fail (spec s e) then n else 0) /\
    phase s' e = phase s e /\ vpar s' = vpar s /\ absorb (val s e) c r (val s' e).

Lemma hunit_enter : forall e x s, e < next s -> hentry x e -> hunit e x 0 [] false s (add_log x s).
Proof.
  intros e x s He Hx. split; [exact He|]. exists [].
  split; [apply fr_add_log, hentry_about, Hx|]. repeat (split; [now auto|]).
  split; [now destruct (ev_fail (spec s e))|]. repeat (split; [reflexivity|]). apply absorb_refl.
Qed.

Lemma hunit_next : forall e x n c r s s', hunit e x n c r s s' -> e < next s'.
Proof. intros e x n c r s s' (He & A & F & _). pose proof (f_next _ _ _ _ F). lia. Qed.

Lemma hunit_then : forall e x n c r s s1 s2 l m c' r',
  hunit e x n c r s s1 -> fr e l s1 s2 -> Forall nonh l -> Forall nosucc l ->
  count_der DExc e l = m -> count_der DFail e l = (if ev_fail (spec s e) then m else 0) ->
  phase s2 e = phase s1 e -> vpar s2 = vpar s1 -> absorb (val s1 e) c' r' (val s2 e) ->
  hunit e x (m + n) (c ++ c') (r || r') s s2.
Proof.
  intros e x n c r s s1 s2 l m c' r' (He & A & F & H1 & H2 & H3 & H4 & H5 & H6 & H7) F' N1 N2 C1 C2 P V Hab.
  split; [exact He|]. exists (l ++ A). rewrite <- app_assoc.
  split; [eapply fr_trans; eauto|]. split; [now apply Forall_app|]. split; [now apply Forall_app|].
  rewrite !count_der_app, C1, C2, H3, H4. split; [reflexivity|]. split; [destruct (ev_fail (spec s e)); lia|].
  split; [congruence|]. split; [congruence|]. eapply absorb_trans; eauto.
Qed.

Lemma hunit_side : forall e x n c r s s1 s2 l,
  hunit e x n c r s s1 -> fr e l s1 s2 -> Forall (side e) l ->
  phase s2 e = phase s1 e -> vpar s2 = vpar s1 -> val s2 e = val s1 e -> hunit e x n c r s s2.
Proof.
  intros e x n c r s s1 s2 l U F L P V E.
  destruct (silent_count e l (side_silent e l L)) as (c1 & c2).
  rewrite <- (app_nil_r c), <- (orb_false_r r).
  apply (hunit_then e x n c r s s1 s2 l 0 [] false U); auto using (side_nosucc e), silent_nonh, (side_silent e).
  - rewrite c2. now destruct (ev_fail (spec s e)).
  - rewrite E. apply absorb_refl.
Qed.

Lemma hunit_ext : forall e x n c r s s1 s2 l,
  hunit e x n c r s s1 -> ext l s1 s2 -> Forall (side e) l -> vpar s2 = vpar s1 -> hunit e x n c r s s2.
Proof.
  intros e x n c r s s1 s2 l U X L V. pose proof (hunit_next _ _ _ _ _ _ _ U) as He1.
  apply (hunit_side e x n c r s s1 s2 l); auto.
  - apply ext_fr; auto using (side_about e).
  - eapply ext_phase; eauto.
  - eapply ext_val; eauto.
Qed.

Lemma hunit_fire_all : forall kids e x n c r s s1, hunit e x n c r s s1 -> hunit e x n c r s (fire_all kids s1).
Proof.
  intros kids e x n c r s s1 U. destruct (ext_fire_all kids s1) as (l & X & L). apply (LF_side e) in L.
  apply (hunit_ext e x n c r s s1 _ l); auto using vpar_fire_all.
Qed.
Lemma hunit_inform : forall f e x n c r s s1, hunit e x n c r s s1 -> hunit e x n c r s (inform f e s1).
Proof.
  intros f e x n c r s s1 U. destruct (ext_inform f e s1) as (l & X & L).
  apply (hunit_ext e x n c r s s1 _ l); auto using vpar_inform. destruct L as [-> | ->]; repeat constructor.
Qed.
Lemma hunit_set_tasks : forall ts e x n c r s s1, hunit e x n c r s s1 -> hunit e x n c r s (set_tasks ts s1).
Proof. intros ts e x n c r s s1 U. apply (hunit_side e x n c r s s1 _ []); auto using fr_set_tasks. Qed.
Lemma hunit_set_wait : forall w e x n c r s s1, hunit e x n c r s s1 -> hunit e x n c r s (set_wait e w s1).
Proof. intros w e x n c r s s1 U. apply (hunit_side e x n c r s s1 _ []); auto using fr_set_wait. Qed.

Lemma hunit_raise_feedback : forall e x n c r s s1,
  hunit e x n c r s s1 -> hunit e x (S n) c r s (raise_feedback e s1).
Proof.
  intros e x n c r s s1 U. pose proof (hunit_next _ _ _ _ _ _ _ U) as He1.
  pose proof (ext_raise_feedback e s1) as X.
  assert (Hsp : spec s1 e = spec s e) by (destruct U as (He & A & F & _); apply (fr_spec _ _ _ _ e F He)).
  rewrite Hsp in X. destruct (fb_count e (ev_fail (spec s e))) as (c1 & c2). destruct (fb_about e (ev_fail (spec s e))) as (a1 & a2 & a3).
  rewrite <- (app_nil_r c), <- (orb_false_r r).
  apply (hunit_then e x n c r s s1 _ (fb_log (ev_fail (spec s e)) e) 1 [] false U); auto using vpar_raise_feedback.
  - now apply ext_fr.
  - eapply ext_phase; eauto.
  - rewrite (ext_val _ _ _ e X He1). apply absorb_refl.
Qed.

Lemma hunit_set_val : forall v c' r' e x n c r s s1,
  absorb (val s1 e) c' r' v -> hunit e x n c r s s1 -> hunit e x n (c ++ c') (r || r') s (set_val e v s1).
Proof.
  intros v c' r' e x n c r s s1 Hab U.
  apply (hunit_then e x n c r s s1 _ [] 0 c' r' U); auto using fr_set_val.
  - now destruct (ev_fail (spec s e)).
  - simpl. now rewrite upd_same.
Qed.
Lemma hunit_set_errors : forall e x n c r s s1, hunit e x n c r s s1 -> hunit e x n c true s (set_errors e s1).
Proof.
  intros e x n c r s s1 U. rewrite <- (app_nil_r c), <- (orb_true_r r). apply hunit_set_val; auto. apply absorb_err.
Qed.
Lemma hunit_set_value : forall y e x n c r s s1,
  is_none y = false -> is_ref y = false -> vpar s e = None ->
  hunit e x n c r s s1 -> hunit e x n (c ++ [y]) r s (set_value e y s1).
Proof.
  intros y e x n c r s s1 Hn Hr Hp U.
  assert (Hp1 : vpar s1 e = None) by (destruct U as (_ & A & _ & _ & _ & _ & _ & _ & -> & _); exact Hp).
  assert (E : set_value_local e y s1 = inform false e (set_val e (setv (val s1 e) y) s1))
    by (unfold set_value_local, setv; destruct (is_none y); [discriminate | reflexivity]).
  rewrite (set_value_eq e y s1 Hp1 Hr), E. apply hunit_inform. rewrite <- (orb_false_r r). apply hunit_set_val; auto. now apply absorb_value.
Qed.

Lemma hentry_count : forall k e x, hentry x e -> count_der k e [x] = 0.
Proof. intros k e x H. destruct x; simpl in *; tauto. Qed.

(* A finished unit: e's Value has absorbed what the handler entry contributes, each raise was answered.  VC
   passes through it. *)
Lemma hunit_sum : forall e x c (r : bool) s s', hentry x e ->
  hunit e x (if r then 1 else 0) c r s s' -> contrib (spec s) e x = c -> raises (spec s) e x = r ->
  exists l, fr e l s s' /\ Forall nosucc l /\ In x l /\ (VC s e -> VC s' e) /\
            phase s' e = phase s e /\ vpar s' = vpar s /\ verrors (val s' e) = verrors (val s e) || r.
Proof.
  intros e x c r s s' Hx (He & A & F & H1 & H2 & H3 & H4 & H5 & H6 & a1 & a2 & a3) Hc Hr.
  destruct (nosucc_snoc_hentry e x A Hx H2) as (N & Hin).
  exists (A ++ [x]). repeat (split; [assumption|]). split; [|auto].
  intros Hvc. destruct (nonh_snoc (spec s) e A x H1) as (p & n). rewrite Hc in p. rewrite Hr in n.
  apply (VC_step s s' e _ Hvc (fr_spec _ _ _ _ e F He) (f_log _ _ _ _ F));
    rewrite ?p, ?n, ?count_der_app, ?(hentry_count _ e x Hx), ?H3, ?H4, ?Nat.add_0_r; auto.
  rewrite a3. now destruct r.
Qed.

Record vop (e : nat) (l : list entry) (s s' : st) : Prop := {
  v_fr : fr e l s s';
  v_phase : phase s' e = phase s e;
  v_wait : waiting s' e = waiting s e;
  v_tasks : tasks s' = tasks s
}.

(* a finished unit that is calm: the task list and waitingHandlers are read off [calm] *)
Lemma hunit_vop : forall e x c (r : bool) s s', hentry x e ->
  hunit e x (if r then 1 else 0) c r s s' -> calm (add_log x s) s' ->
  contrib (spec s) e x = c -> raises (spec s) e x = r ->
  exists l, vop e l s s' /\ Forall nosucc l /\ In x l /\ (VC s e -> VC s' e) /\ vpar s' = vpar s /\
            verrors (val s' e) = verrors (val s e) || r.
Proof.
  intros e x c r s s' Hx U C Hc Hr. pose proof U as (He & _).
  destruct (hunit_sum e x c r s s' Hx U Hc Hr) as (l & F & N & Hin & Hvc & Hp & Hv & Herr).
  destruct (c_old _ _ C e He) as (_ & _ & _ & Hw & _).
  exists l. split; [split; [exact F | exact Hp | exact Hw | exact (c_tasks _ _ C)] | auto 6].
Qed.

Lemma value_hunit : forall e x kids y s,
  e < next s -> hentry x e -> vpar s e = None -> is_ref y = false ->
  let s2 := fire_all kids (add_log x s) in
  hunit e x 0 (nonnone y) false s (if is_none y then s2 else set_value e y s2).
Proof.
  intros e x kids y s He Hx Hp Hr s2.
  pose proof (hunit_fire_all kids _ _ _ _ _ _ _ (hunit_enter e x s He Hx)) as U. fold s2 in U.
  unfold nonnone. destruct (is_none y) eqn:E; [exact U|]. now apply (hunit_set_value y) in U.
Qed.

Lemma raise_hunit : forall e i kids s, e < next s -> vpar s e = None ->
  hunit e (LH e i) 1 [PErr] true s
    (set_value e PErr (raise_feedback e (set_errors e (fire_all kids (add_log (LH e i) s))))).
Proof.
  intros e i kids s He Hp.
  apply (hunit_set_value PErr e (LH e i) 1 [] true); auto.
  eapply hunit_raise_feedback, hunit_set_errors, hunit_fire_all, hunit_enter; auto. reflexivity.
Qed.

Lemma plain_unit : forall e i kids r err s,
  e < next s -> nth_error (ev_hs (spec s e)) i = Some (HP kids r) ->
  vpar s e = None -> plain_hdl (HP kids r) = true ->
  exists l, vop e l s (fst (run_handler e i (HP kids r) err s)) /\ Forall nosucc l /\ In (LH e i) l /\
    (VC s e -> VC (fst (run_handler e i (HP kids r) err s)) e) /\
    ((err = true -> verrors (val s e) = true) ->
     snd (run_handler e i (HP kids r) err s) = true ->
     verrors (val (fst (run_handler e i (HP kids r) err s)) e) = true) /\
    (verrors (val s e) = true -> verrors (val (fst (run_handler e i (HP kids r) err s)) e) = true) /\
    vpar (fst (run_handler e i (HP kids r) err s)) = vpar s.
Proof.
  intros e i kids r err s He Hnth Hnp Hpl.
  destruct (run_handler_calm e i (HP kids r) err s) as ((C & _) & _).
  assert (Hc : contrib (spec s) e (LH e i) = match unstop r with RRet v => nonnone v | RRaise => [PErr] | _ => [] end).
  { simpl. now rewrite Nat.eqb_refl, Hnth. }
  assert (Hr : raises (spec s) e (LH e i) = match unstop r with RRaise => true | _ => false end).
  { simpl. now rewrite Nat.eqb_refl, Hnth. }
  simpl in Hpl. apply andb_prop in Hpl. destruct Hpl as (_ & Hpl).
  destruct r as [v| |sp|r']; try discriminate; simpl unstop in Hc, Hr; simpl run_handler in *; simpl fst in *; simpl snd.
  - apply negb_true_iff in Hpl.
    destruct (hunit_vop e (LH e i) (nonnone v) false s _ eq_refl (value_hunit e (LH e i) kids v s He eq_refl Hnp Hpl) C Hc Hr)
      as (l & Hv & Hl & Hin & Hvc & Hp & Herr).
    rewrite orb_false_r in Herr. exists l. rewrite Herr. auto 8.
  - destruct (hunit_vop e (LH e i) [PErr] true s _ eq_refl (raise_hunit e i kids s He Hnp) C Hc Hr)
      as (l & Hv & Hl & Hin & Hvc & Hp & Herr).
    rewrite orb_true_r in Herr. exists l. auto 8.
Qed.

Lemma yield_unit : forall e i k kids y s,
  e < next s -> contrib (spec s) e (LG e i k) = nonnone y -> raises (spec s) e (LG e i k) = false ->
  vpar s e = None -> is_ref y = false ->
  let s2 := fire_all kids (add_log (LG e i k) s) in
  let s' := if is_none y then s2 else set_value e y s2 in
  exists l, vop e l s s' /\ Forall nosucc l /\ In (LG e i k) l /\ (VC s e -> VC s' e) /\ vpar s' = vpar s.
Proof.
  intros e i k kids y s He Hc Hr Hnp Hry.
  destruct (hunit_vop e (LG e i k) (nonnone y) false s _ eq_refl
              (value_hunit e (LG e i k) kids y s He eq_refl Hnp Hry) (value_calm e _ kids y s) Hc Hr)
    as (l & Hv & Hl & Hin & Hvc & Hp & _).
  exists l. auto.
Qed.

(* what a stretch of work on e short of the _eventDone gate does (a handler unit, add_task, a run of handlers): such
   stretches compose (vsum_trans), and the gate after one gives [ssum] (ssum_done) *)
Definition vsum (e : nat) (l : list entry) (s s' : st) : Prop :=
  fr e l s s' /\ Forall nosucc l /\ phase s' e = phase s e /\ (VC s e -> VC s' e).

Lemma vsum_trans : forall e l1 l2 s s1 s2,
  e < next s -> vsum e l1 s s1 -> vsum e l2 s1 s2 -> vsum e (l2 ++ l1) s s2.
Proof.
  intros e l1 l2 s s1 s2 He (a1 & a2 & a3 & a4) (b1 & b2 & b3 & b4).
  split; [eapply fr_trans; eauto|]. split; [now apply Forall_app|]. split; [congruence | auto].
Qed.

Lemma add_task_vsum : forall e i s, vsum e [] s (add_task e i s).
Proof.
  intros. unfold add_task, set_promise. split; [|split; [constructor|split; [reflexivity|]]].
  - apply fr_upd; auto. intros d Hne. simpl. now rewrite !upd_other.
  - intros Hvc. apply (VC_same s); auto; simpl; rewrite ?upd_same; reflexivity.
Qed.

Lemma ext_vsum : forall e l s s', e < next s -> ext l s s' -> Forall (side e) l ->
  vsum e l s s' /\ val s' e = val s e.
Proof.
  intros e l s s' He X L. pose proof (ext_val _ _ _ e X He) as Hval.
  assert (F : fr e l s s') by (apply ext_fr; auto using (side_about e)).
  split; [|exact Hval]. split; [exact F|]. split; [now apply (side_nosucc e)|].
  split; [eapply ext_phase; eauto|]. apply (VC_fr_silent e _ s _ He F Hval). now apply (side_silent e).
Qed.

Lemma plain_ev_hs : forall sp, plain_ev sp = forallb plain_hdl (ev_hs sp).
Proof. intros []. reflexivity. Qed.

Lemma forallb_nth : forall A (f : A -> bool) l i x, forallb f l = true -> nth_error l i = Some x -> f x = true.
Proof.
  intros A f l i x H Hn. rewrite forallb_forall in H. apply H. eapply nth_error_In; eauto.
Qed.

Definition OKs (s : st) : Prop := (forall d, vpar s d = None) /\ (forall d, plain_ev (spec s d) = true).

Lemma oks_alloc : forall k sp s, OKs s -> plain_ev sp = true -> OKs (alloc k sp s).
Proof.
  intros k sp s (H1 & H2) Hp. split; simpl; auto.
  intros d. unfold upd. destruct (Nat.eqb d (next s)); auto.
Qed.
Lemma oks_fire_all : forall kids s, OKs s -> forallb plain_ev kids = true -> OKs (fire_all kids s).
Proof.
  induction kids as [|sp r IH]; intros s H Hp; simpl; auto.
  simpl in Hp. apply andb_prop in Hp. destruct Hp as (Hp1 & Hp2).
  apply IH; auto. unfold fire_user. apply oks_alloc; auto.
Qed.
Lemma oks_fire_der : forall k e s, OKs s -> OKs (fire_der k e s).
Proof. intros. unfold fire_der. destruct (der_chans k (spec s e)). apply oks_alloc; auto. Qed.
Lemma oks_inform : forall f e s, OKs s -> OKs (inform f e s).
Proof.
  intros. unfold inform. destruct (vpromise (val s e) && negb f); auto.
  destruct (ev_notify (spec s e)); auto using oks_fire_der.
Qed.
Lemma oks_raise_feedback : forall e s, OKs s -> OKs (raise_feedback e s).
Proof.
  intros. unfold raise_feedback. apply oks_fire_der. destruct (ev_fail (spec s e)); auto using oks_fire_der.
Qed.
Lemma oks_event_done : forall e err s, OKs s -> OKs (event_done e err s).
Proof.
  intros. unfold event_done. destruct (Nat.eqb (waiting s e) 0); auto. cbv zeta.
  match goal with |- context [if ?c then _ else _] => destruct c end; auto.
  apply oks_fire_der. exact H.
Qed.
Lemma oks_log_all : forall xs s, OKs s -> OKs (log_all xs s).
Proof. induction xs as [|x r IH]; intros s H; simpl; auto. Qed.
Lemma oks_set_value : forall e x s, OKs s -> is_ref x = false -> OKs (set_value e x s).
Proof.
  intros e x s H Hx. rewrite set_value_eq; auto; [|apply H]. unfold set_value_local.
  destruct (is_none x); [exact H|]. apply oks_inform. exact H.
Qed.

Lemma oks_run_handler : forall e i h err s,
  OKs s -> plain_hdl h = true -> OKs (fst (run_handler e i h err s)).
Proof.
  intros e i h err s H Hp. destruct h as [kids r | ys lk gr]; simpl.
  - simpl in Hp. apply andb_prop in Hp. destruct Hp as (Hk & Hr).
    assert (H1 : OKs (fire_all kids (add_log (LH e i) s))) by (apply oks_fire_all; auto).
    destruct r as [v| |sp|r']; simpl; try discriminate.
    + destruct (is_none v); auto. apply oks_set_value; auto. now apply negb_true_iff in Hr.
    + apply oks_set_value; auto. apply oks_raise_feedback. exact H1.
  - exact H.
Qed.

Lemma oks_task_stop : forall p e s, OKs s -> OKs (task_stop p e s).
Proof.
  intros p e s H. unfold task_stop. cbv zeta.
  match goal with |- context [if ?c then _ else _] => destruct c end; [|exact H].
  apply oks_event_done. apply oks_inform. exact H.
Qed.
Lemma oks_same : forall s s', vpar s' = vpar s -> spec s' = spec s -> OKs s -> OKs s'.
Proof. intros s s' Hv Hs (H1 & H2). split; intros d; rewrite ?Hv, ?Hs; auto. Qed.

Lemma oks_task_raise : forall p e s, OKs s -> OKs (task_raise p e s).
Proof.
  intros p e s H. unfold task_raise. apply oks_event_done.
  set (s1 := set_value e PErr (set_tasks (remove_nth p (tasks s)) s)).
  set (s3 := raise_feedback e (inform true e (set_errors e s1))).
  apply (oks_same s3); auto. apply oks_raise_feedback, oks_inform.
  apply (oks_same s1); auto. apply oks_set_value; auto.
Qed.

Lemma oks_start : forall roots, forallb plain_ev roots = true -> OKs (start roots).
Proof. intros roots H. unfold start. apply oks_fire_all; auto. split; reflexivity. Qed.

Lemma plain_stops : forall h, plain_hdl h = true -> stops h = false.
Proof.
  intros [kids r|ys lk gr] H; auto. destruct r; auto. simpl in H. rewrite andb_false_r in H. discriminate.
Qed.

Lemma plain_no_stop : forall hs, forallb plain_hdl hs = true -> existsb stops hs = false.
Proof.
  induction hs as [|h r IH]; intros H; simpl; auto. simpl in H. apply andb_prop in H. destruct H as (H1 & H2).
  now rewrite (plain_stops _ H1), IH.
Qed.

Lemma run_handlers_sum : forall e hs i err s pre,
  e < next s -> ev_hs (spec s e) = pre ++ hs -> length pre = i -> OKs s ->
  exists l, vsum e l s (fst (run_handlers e i hs err s)) /\ OKs (fst (run_handlers e i hs err s)) /\
    ((err = true -> verrors (val s e) = true) ->
     snd (run_handlers e i hs err s) = true -> verrors (val (fst (run_handlers e i hs err s)) e) = true).
Proof.
  intros e hs. induction hs as [|h r IH]; intros i err s pre He Hpre Hlen Hok.
  - exists []. split; [|simpl; auto]. split; [apply fr_refl | auto].
  - assert (Hnth : nth_error (ev_hs (spec s e)) i = Some h).
    { rewrite Hpre, nth_error_app2 by lia. now rewrite <- Hlen, Nat.sub_diag. }
    assert (Hph : plain_hdl h = true) by (eapply forallb_nth; [|exact Hnth]; rewrite <- plain_ev_hs; apply Hok).
    simpl run_handlers. rewrite (plain_stops _ Hph).
    pose proof (oks_run_handler e i h err s Hok Hph) as Hok1.
    destruct (run_handler e i h err s) as [s1 err1] eqn:Hrun. simpl in Hok1.
    assert (Hunit : exists l1, vsum e l1 s s1 /\
              ((err = true -> verrors (val s e) = true) -> err1 = true -> verrors (val s1 e) = true)).
    { destruct h as [kids rr | ys lk gr].
      - destruct (plain_unit e i kids rr err s He Hnth (proj1 Hok e) Hph) as (l & Hv & Hn & _ & Hvc & Herr & _).
        rewrite Hrun in *. simpl in *. exists l. split; [|exact Herr].
        split; [apply Hv | split; [exact Hn | split; [exact (v_phase _ _ _ _ Hv) | exact Hvc]]].
      - simpl in Hrun. inversion Hrun; subst. exists []. split; [apply add_task_vsum|].
        intros Herr E. specialize (Herr E). unfold add_task, set_promise. simpl. now rewrite !upd_same. }
    destruct Hunit as (l1 & Hd1 & Herr1).
    assert (He1 : e < next s1) by (pose proof (f_next _ _ _ _ (proj1 Hd1)); lia).
    assert (Hsp1 : spec s1 e = spec s e) by (apply (fr_spec _ _ _ _ e (proj1 Hd1) He)).
    destruct (IH (S i) err1 s1 (pre ++ [h]) He1) as (l2 & Hd2 & Hok2 & Herr2); auto.
    { rewrite Hsp1, Hpre, <- app_assoc. reflexivity. }
    { rewrite app_length. simpl. lia. }
    exists (l2 ++ l1). split; [eapply vsum_trans; eauto | split; [exact Hok2|]].
    intros Herr E. apply Herr2; auto.
Qed.

Lemma event_done_sum : forall e err s,
  e < next s -> (err = true -> verrors (val s e) = true) ->
  fr e (succ_log e (Nat.eqb (waiting s e) 0 && negb (verrors (val s e)) && ev_succ (spec s e)))
     s (event_done e err s) /\
  val (event_done e err s) e = val s e /\
  waiting (event_done e err s) e = waiting s e /\
  phase (event_done e err s) e = (if Nat.eqb (waiting s e) 0 then PFin else phase s e).
Proof.
  intros e err s He Herr. pose proof (event_done_ext e err s) as X.
  (* a failure of the pass has set the errors flag *)
  replace (negb err && negb (verrors (val s e))) with (negb (verrors (val s e))) in X
    by (destruct err; [rewrite Herr|]; reflexivity).
  rewrite andb_assoc in X.
  set (s1 := if Nat.eqb (waiting s e) 0 then set_phase e PFin s else s) in *.
  assert (F1 : fr e [] s s1)
    by (unfold s1; destruct (Nat.eqb (waiting s e) 0); [apply fr_set_phase | apply fr_refl]).
  assert (He1 : e < next s1) by (unfold s1; now destruct (Nat.eqb (waiting s e) 0)).
  split; [apply (fr_after e _ s s1 _ He F1), ext_fr; [exact X | apply succ_log_about]|].
  rewrite (ext_val _ _ _ e X He1), (ext_wait _ _ _ e X He1), (ext_phase _ _ _ e X He1).
  unfold s1. destruct (Nat.eqb (waiting s e) 0); simpl; rewrite ?upd_same; auto.
Qed.

Definition ctasks (d : nat) (ts : list task) : nat := length (filter (fun t => Nat.eqb (tev t) d) ts).
Definition is_fin (p : phaseT) : bool := match p with PFin => true | _ => false end.

Definition lbound (n : nat) (x : entry) : Prop :=
  match x with LH e _ | LG e _ _ | LFD _ e => e < n | _ => True end.

Definition succ_formula (s : st) (d : nat) : bool :=
  is_fin (phase s d) && negb (verrors (val s d)) && ev_succ (spec s d).

(* [PInv None] is the invariant between steps; [PInv (Some e)] is its form while event e is being
   dispatched (e has left the queue but is still marked queued) *)
Record PInv (cur : option nat) (s : st) : Prop := {
  i_q1 : forall d, In d (queue s) -> d < next s /\ phase s d = PQueued;
  i_q2 : NoDup (queue s);
  i_q3 : forall d, d < next s -> Some d <> cur -> phase s d = PQueued -> In d (queue s);
  i_t : forall t, In t (tasks s) -> tev t < next s /\ phase s (tev t) = PActive;
  i_w : forall d, d < next s -> waiting s d = ctasks d (tasks s);
  i_a : forall d, d < next s -> phase s d = PActive -> 0 < waiting s d;
  i_lb : Forall (lbound (next s)) (log s);
  i_vc : forall d, d < next s -> VC s d;
  i_s : forall d, d < next s -> kind s d = KUser ->
        count_der DSucc d (log s) = (if succ_formula s d then 1 else 0);
  i_sl : forall d l1 l2, d < next s -> kind s d = KUser -> log s = l1 ++ LFD DSucc d :: l2 ->
         forall x, In x l1 -> ~ hentry x d
}.
Definition Inv := PInv None.

(* what a whole step (a dispatcher pass or a task step) does to the event e it works on, as much of it as step_inv needs:
   l0 is written before the _eventDone gate of e, b says whether the gate logs success, the rest is the gate's bookkeeping *)
Definition ssum (e : nat) (s s' : st) : Prop :=
  exists l0 b,
    fr e (succ_log e b ++ l0) s s' /\ Forall nosucc l0 /\
    (kind s e = KUser -> b = succ_formula s' e) /\
    (VC s e -> VC s' e) /\
    waiting s' e = ctasks e (tasks s') /\
    (forall d, d <> e -> ctasks d (tasks s') = ctasks d (tasks s)) /\
    (forall t, In t (tasks s') -> tev t = e \/ In t (tasks s)) /\
    phase s' e = (if Nat.eqb (waiting s' e) 0 then PFin else PActive).

Lemma about_count : forall k e0 d l, Forall (about e0) l -> d <> e0 -> count_der k d l = 0.
Proof. intros k e0 d l H Hne. apply count_der_zero. intros Hin. rewrite Forall_forall in H. exact (Hne (H _ Hin)). Qed.

Lemma lbound_count : forall k n d l, Forall (lbound n) l -> n <= d -> count_der k d l = 0.
Proof.
  intros k n d l H Hd. apply count_der_zero. intros Hin. rewrite Forall_forall in H. specialize (H _ Hin). simpl in H. lia.
Qed.

Lemma ctasks_pos : forall d t ts, In t ts -> tev t = d -> 0 < ctasks d ts.
Proof. intros d t ts Hin Ht. apply (filter_len_pos _ _ t Hin). now apply Nat.eqb_eq. Qed.

Lemma in_split_app : forall (x : entry) l a l1 l2,
  l ++ a = l1 ++ x :: l2 -> ~ In x l ->
  exists l1', l1 = l ++ l1' /\ a = l1' ++ x :: l2.
Proof.
  induction l as [|y l IH]; intros a l1 l2 H Hn; simpl in *.
  - exists l1. auto.
  - destruct l1 as [|z l1]; simpl in H; inversion H; subst.
    + exfalso. apply Hn. auto.
    + destruct (IH a l1 l2 H2) as (l1' & -> & ->); [intros Hi; apply Hn; auto|].
      exists l1'. auto.
Qed.

Lemma ctasks_zero : forall d ts, (forall t, In t ts -> tev t <> d) -> ctasks d ts = 0.
Proof. intros d ts H. apply filter_len_zero. intros t Ht. apply Nat.eqb_neq, H, Ht. Qed.

Lemma queue_grow : forall e q s s',
  next s <= next s' -> queue s' = q ++ seq (next s) (next s' - next s) ->
  NoDup q -> ~ In e q -> (forall d, In d q -> d < next s /\ phase s d = PQueued) ->
  (forall d, d < next s -> d <> e -> phase s' d = phase s d) ->
  (forall d, next s <= d < next s' -> phase s' d = PQueued) ->
  (forall d, In d (queue s') -> d < next s' /\ phase s' d = PQueued) /\ NoDup (queue s').
Proof.
  intros e q s s' n qq nd Hnq q1 o w. rewrite qq. split.
  - intros d Hd. apply in_app_or in Hd. destruct Hd as [Hd|Hd].
    + destruct (q1 d Hd) as (Hlt & Hp). assert (d <> e) by (intros ->; contradiction).
      split; [lia|]. rewrite o; auto.
    + apply in_seq in Hd. split; [lia|]. apply w. lia.
  - apply NoDup_app_intro; auto; [apply seq_NoDup|].
    intros x Hx Hs. apply in_seq in Hs. destruct (q1 x Hx). lia.
Qed.

Lemma step_inv : forall e s s',
  PInv (Some e) s -> e < next s -> ~ In e (queue s) -> phase s e <> PFin ->
  ssum e s s' -> Inv s'.
Proof.
  intros e s s' [q1 q2 q3 t w a lb vc sc sl] He Hnq Hnf
         (l0 & b & Hfr & Hns & Hb & Hvc & Hw & Hct & Htk & Hph).
  pose proof Hfr as [f1 f2 f3 f4 f5 f6 f7].
  assert (Hab0 : Forall (about e) l0) by (apply Forall_app in f7; tauto).
  assert (Hwpos : forall t0, In t0 (tasks s') -> tev t0 = e -> phase s' e = PActive).
  { intros t0 Hin Ht. rewrite Hph, Hw. pose proof (ctasks_pos e t0 _ Hin Ht).
    destruct (Nat.eqb (ctasks e (tasks s')) 0) eqn:E; auto. apply Nat.eqb_eq in E. lia. }
  assert (Hz : kind s e = KUser -> count_der DSucc e (log s) = 0).
  { intros Hk. rewrite (sc e He Hk). unfold succ_formula. destruct (phase s e); try congruence; reflexivity. }
  (* every event afterwards: the one worked on, another that existed, one just fired *)
  assert (Hev : forall d, d < next s' ->
            waiting s' d = ctasks d (tasks s') /\ (phase s' d = PActive -> 0 < waiting s' d) /\ VC s' d /\
            (kind s' d = KUser -> count_der DSucc d (log s') = (if succ_formula s' d then 1 else 0))).
  { intros d Hd. rewrite f6, !count_der_app, (nosucc_count d l0 Hns).
    destruct (Nat.eq_dec d e) as [->|Hne]; [|destruct (Nat.lt_ge_cases d (next s)) as [Hlt|Hge]].
    - destruct (f2 e He) as (Hsp & Hk'). split; [exact Hw|]. split; [|split; [now auto|]].
      + intros Hp. rewrite Hph in Hp. destruct (Nat.eqb (waiting s' e) 0) eqn:E; [discriminate|].
        apply Nat.eqb_neq in E. lia.
      + intros Hk. rewrite Hk' in Hk. rewrite (Hz Hk), <- (Hb Hk). destruct b; simpl; rewrite ?Nat.eqb_refl; reflexivity.
    - destruct (f3 d Hlt Hne) as (Hv' & Hw' & Hp'). destruct (f2 d Hlt) as (Hsp & Hk').
      rewrite (Hct d Hne), Hw', Hp', (about_count DSucc e d _ (succ_log_about e b) Hne).
      split; [now apply w|]. split; [now apply a|]. split.
      + eapply VC_irrel; eauto. eapply Forall_impl; [|exact f7]. intros x Hx. eapply about_irrel; eauto.
      + intros Hk. simpl. rewrite (sc d Hlt ltac:(congruence)). unfold succ_formula. now rewrite Hv', Hp', Hsp.
    - destruct (f4 d ltac:(lia)) as (Hp' & Hw' & Hv').
      rewrite (Hct d Hne), Hw', Hp', (about_count DSucc e d _ (succ_log_about e b) Hne).
      split; [symmetry; apply ctasks_zero; intros t0 Hin Heq; destruct (t t0 Hin); lia|].
      split; [discriminate|]. split.
      + assert (Hl : Forall (irrel (spec s') d) (log s')).
        { rewrite f6. apply Forall_app. split.
          - eapply Forall_impl; [|exact f7]. intros x Hx. eapply about_irrel; eauto.
          - eapply Forall_impl; [|exact lb]. intros x Hx.
            destruct x; simpl in Hx; try (apply silent_irrel; exact I);
              apply (about_irrel _ e0); simpl; auto; lia. }
        destruct (irrel_list _ _ _ Hl) as (p1 & p2 & p3 & p4).
        split; rewrite ?Hv', ?p1, ?p2, ?p3, ?p4; simpl; auto. now destruct (ev_fail (spec s' d)).
      + intros _. unfold succ_formula. rewrite Hp'. simpl. apply (lbound_count _ (next s)); auto. }
  destruct (queue_grow e (queue s) s s' f1 f5 q2 Hnq q1 (fun d Hd Hne => proj2 (proj2 (f3 d Hd Hne)))
              (fun d Hd => proj1 (f4 d Hd))) as (Q1 & Q2).
  split.
  - (* q1 *) exact Q1.
  - (* q2 *) exact Q2.
  - (* q3 *) intros d Hd _ Hp. rewrite f5. apply in_or_app.
    destruct (Nat.lt_ge_cases d (next s)) as [Hlt|Hge].
    + left. destruct (Nat.eq_dec d e) as [->|Hne].
      * exfalso. rewrite Hph in Hp. destruct (Nat.eqb (waiting s' e) 0); discriminate.
      * destruct (f3 d Hlt Hne) as (_ & _ & Hp'). apply q3; auto; congruence.
    + right. apply in_seq. lia.
  - (* t *) intros t0 Hin. destruct (Htk t0 Hin) as [Ht|Hold].
    + split; [lia|]. rewrite Ht. eapply Hwpos; eauto.
    + destruct (t t0 Hold) as (Hlt & Hp). split; [lia|].
      destruct (Nat.eq_dec (tev t0) e) as [Ht|Hne]; [rewrite Ht; eapply Hwpos; eauto|].
      destruct (f3 _ Hlt Hne) as (_ & _ & Hp'). congruence.
  - (* w *) intros d Hd. apply (Hev d Hd).
  - (* a *) intros d Hd. apply (Hev d Hd).
  - (* lb *) rewrite f6. apply Forall_app. split.
    + eapply Forall_impl; [|exact f7]. intros x Hx. destruct x; simpl in *; subst; auto; lia.
    + eapply Forall_impl; [|exact lb]. intros x Hx. destruct x; simpl in *; auto; lia.
  - (* vc *) intros d Hd. apply (Hev d Hd).
  - (* s *) intros d Hd. apply (Hev d Hd).
  - (* sl *) intros d l1 l2 Hd Hk Hlog x Hx Hh. rewrite f6 in Hlog.
    destruct (Nat.lt_ge_cases d (next s)) as [Hlt|Hge].
    2:{ (* a new event has no success entry yet *)
      assert (Hin : In (LFD DSucc d) (log s')) by (rewrite f6, Hlog; apply in_or_app; right; left; auto).
      rewrite f6 in Hin. apply in_app_or in Hin. destruct Hin as [Hin|Hin].
      - rewrite Forall_forall in f7. specialize (f7 _ Hin). simpl in f7. lia.
      - rewrite Forall_forall in lb. specialize (lb _ Hin). simpl in lb. lia. }
    destruct (f2 d Hlt) as (Hsp & Hk').
    destruct (Nat.eq_dec d e) as [->|Hne].
    + (* the event worked on: its success entry, if any, is the newest entry *)
      specialize (Hz ltac:(congruence)).
      assert (Hnot : ~ In (LFD DSucc e) (l0 ++ log s))
        by (apply count_der_zero; rewrite count_der_app, (nosucc_count e l0 Hns); exact Hz).
      destruct b; unfold succ_log in Hlog; simpl in Hlog.
      * destruct l1 as [|z l1]; [contradiction|]. simpl in Hlog. inversion Hlog; subst.
        apply Hnot. rewrite H1. apply in_or_app. right. left. auto.
      * apply Hnot. rewrite Hlog. apply in_or_app. right. left. auto.
    + (* another event: the new entries are not about it *)
      rewrite <- app_assoc in Hlog.
      assert (Hnin : ~ In (LFD DSucc d) (succ_log e b ++ l0)).
      { intros Hi. rewrite Forall_forall in f7. specialize (f7 _ Hi). simpl in f7. congruence. }
      rewrite app_assoc in Hlog.
      destruct (in_split_app _ _ _ _ _ Hlog Hnin) as (l1' & -> & Hlog').
      apply in_app_or in Hx. destruct Hx as [Hx|Hx].
      * rewrite Forall_forall in f7. specialize (f7 _ Hx).
        destruct x; simpl in *; try contradiction; congruence.
      * eapply (sl d l1' l2); eauto. congruence.
Qed.

Lemma ctasks_app : forall d a b, ctasks d (a ++ b) = ctasks d a + ctasks d b.
Proof. intros. unfold ctasks. now rewrite filter_app, app_length. Qed.

Lemma ctasks_grow : forall e tn ts, (forall t, In t tn -> tev t = e) ->
  ctasks e (ts ++ tn) = ctasks e ts + length tn /\
  (forall d, d <> e -> ctasks d (ts ++ tn) = ctasks d ts) /\
  (forall t, In t (ts ++ tn) -> tev t = e \/ In t ts).
Proof.
  intros e tn ts H. split; [|split].
  - rewrite ctasks_app. f_equal. unfold ctasks. induction tn as [|t tn IH]; simpl; auto.
    rewrite (H t), Nat.eqb_refl by (simpl; auto). simpl. f_equal. apply IH. intros x Hx. apply H. simpl; auto.
  - intros d Hne. rewrite ctasks_app, (ctasks_zero d tn); [lia|]. intros t Ht. rewrite (H t Ht). auto.
  - intros t Ht. apply in_app_or in Ht. destruct Ht; auto.
Qed.

Lemma ctasks_cons : forall d x l, ctasks d (x :: l) = (if Nat.eqb (tev x) d then 1 else 0) + ctasks d l.
Proof. intros. unfold ctasks. simpl. now destruct (Nat.eqb (tev x) d). Qed.

(* the task list around position p, where a task step puts the next segment's task or nothing *)
Lemma task_split : forall (A : Type) (o : option A) p (t v : task) ts, nth_error ts p = Some t ->
  exists a b, ts = a ++ t :: b /\
    match o with Some _ => replace_nth p v ts | None => remove_nth p ts end =
    a ++ match o with Some _ => v :: b | None => b end.
Proof.
  intros A o p t v ts. revert p. induction ts as [|t1 ts IH]; intros [|p] Hn; try discriminate; simpl in Hn.
  - inversion Hn; subst. exists [], ts. split; [reflexivity | now destruct o].
  - destruct (IH p Hn) as (a & b & -> & E). exists (t1 :: a), b. split; [reflexivity|].
    destruct o; simpl in *; now rewrite E.
Qed.

(* Every step on an active event e ends at the _eventDone gate of e (which does nothing while generator
   handlers of e are pending).  What it did before, up to s2, is given by its effect on Values; the task
   bookkeeping is that of the final state, as [dispatch_frame] and [task_frame] give it. *)
Lemma ssum_done : forall e err l0 s s2,
  e < next s -> fr e l0 s s2 -> Forall nosucc l0 -> (VC s e -> VC s2 e) ->
  phase s2 e = PActive -> (err = true -> verrors (val s2 e) = true) ->
  let s' := event_done e err s2 in
  waiting s' e = ctasks e (tasks s') ->
  (forall d, d <> e -> ctasks d (tasks s') = ctasks d (tasks s)) ->
  (forall t, In t (tasks s') -> tev t = e \/ In t (tasks s)) ->
  ssum e s s'.
Proof.
  intros e err l0 s s2 He Hfr Hns Hvc Hph Herr s' Hw Hct Htk.
  assert (He2 : e < next s2) by (pose proof (f_next _ _ _ _ Hfr); lia).
  destruct (event_done_sum e err s2 He2 Herr) as (F & Hval & Hw' & Hp). fold s' in F, Hval, Hw', Hp.
  set (b := Nat.eqb (waiting s2 e) 0 && negb (verrors (val s2 e)) && ev_succ (spec s2 e)) in *.
  exists l0, b. split; [eapply fr_trans; eauto|]. split; [exact Hns|]. split; [|split].
  - intros _. unfold b, succ_formula. rewrite Hp, Hval, (fr_spec _ _ _ _ e F He2), Hph.
    now destruct (Nat.eqb (waiting s2 e) 0).
  - intros H. apply (VC_fr_silent e _ s2 _ He2 F Hval); auto. unfold succ_log. destruct b; repeat constructor.
  - repeat (split; [assumption|]). now rewrite Hp, Hw', Hph.
Qed.

Lemma dispatch_user_ssum : forall e s,
  e < next s -> kind s e = KUser -> waiting s e = ctasks e (tasks s) ->
  OKs s -> ssum e s (dispatch e s) /\ OKs (dispatch e s).
Proof.
  intros e s He Hk Hw Hok. pose proof (proj2 Hok e) as Hpl.
  destruct (dispatch_frame e s He) as (_ & _ & _ & _ & _ & _ & Htk & Hw' & _).
  destruct (ctasks_grow e _ (tasks s) (fun t Ht => proj1 (tasks_of_in e t (invoked s e) 0 Ht))) as (g1 & g2 & g3).
  rewrite <- Htk in g1, g2, g3. rewrite Hw, <- g1 in Hw'. clear Htk g1.
  unfold dispatch in *. rewrite Hk in *. rewrite plain_ev_hs in Hpl. set (s0 := set_phase e PActive s) in *.
  rewrite (plain_no_stop (ev_hs (spec s0 e)) Hpl) in *.
  destruct (run_handlers_sum e (ev_hs (spec s0 e)) 0 false s0 [] He eq_refl eq_refl Hok)
    as (l1 & (f1 & n1 & p1 & c1) & Hok1 & Herr1).
  destruct (run_handlers e 0 (ev_hs (spec s0 e)) false s0) as [s1 err]. simpl fst in *. simpl snd in *.
  assert (He1 : e < next s1) by (pose proof (f_next _ _ _ _ f1); simpl in *; lia).
  set (xs := map (LDU e) (observers true (ev_both (spec s1 e)))) in *.
  destruct (ext_vsum e _ s1 _ He1 (ext_log_all xs s1))
    as ((f2 & n2 & p2 & c2) & Hval2); [apply Forall_rev, (observers_side e (LDU e) false); exact (fun _ => I)|].
  split; [|apply oks_event_done, oks_log_all, Hok1]. apply (ssum_done e err (rev xs ++ l1)); auto.
  - apply (fr_trans e l1 _ s s1); auto. apply (fr_after e l1 s s0); auto. apply fr_set_phase.
  - now apply Forall_app.
  - intros Hvc. apply c2, c1. apply (VC_same s); auto.
  - rewrite p2, p1. simpl. apply upd_same.
  - rewrite Hval2. intros E. apply Herr1; auto. discriminate.
Qed.

Lemma dispatch_der_ssum : forall e k x a o s,
  e < next s -> kind s e = KDer k x a o -> waiting s e = ctasks e (tasks s) -> ctasks e (tasks s) = 0 ->
  OKs s -> ssum e s (dispatch e s) /\ OKs (dispatch e s).
Proof.
  intros e k x a o s He Hk Hw Hc Hok. unfold dispatch. rewrite Hk.
  split; [|exact (oks_log_all (map (LDD k x) (observers a o)) s Hok)].
  set (xs := map (LDD k x) (observers a o)). pose proof (ext_log_all xs s) as X.
  destruct (ext_vsum e _ s _ He X) as ((f & n & p & c) & Hval);
    [apply Forall_rev, (observers_side e (LDD k x) false); exact (fun _ => I)|].
  exists (rev xs), false. split; [apply (fr_trans e _ [] s _ _ He f), fr_set_phase|].
  split; [exact n|]. split; [intros E; congruence|]. split.
  { intros Hvc. apply (VC_same (log_all xs s)); auto. }
  simpl. rewrite (ext_wait _ _ _ e X He), (x_tasks _ _ _ X), Hw, Hc, upd_same. simpl. auto.
Qed.

Lemma hunit_ssum : forall e x c (r : bool) err s s2, hentry x e ->
  hunit e x (if r then 1 else 0) c r s s2 -> contrib (spec s) e x = c -> raises (spec s) e x = r ->
  phase s e = PActive -> (err = true -> r = true) ->
  let s' := event_done e err s2 in
  waiting s' e = ctasks e (tasks s') ->
  (forall d, d <> e -> ctasks d (tasks s') = ctasks d (tasks s)) ->
  (forall t, In t (tasks s') -> tev t = e \/ In t (tasks s)) ->
  ssum e s s'.
Proof.
  intros e x c r err s s2 Hx U Hc Hr Hph Herr s' C1 C2 C3. pose proof U as (He & _).
  destruct (hunit_sum e x c r s s2 Hx U Hc Hr) as (l & F & N & _ & Hvc & Hp & _ & Hv).
  apply (ssum_done e err l); auto; [congruence|]. intros E. rewrite Hv, (Herr E). apply orb_true_r.
Qed.

Lemma task_ctasks : forall A p t ts (o : option A) ts' w',
  nth_error ts p = Some t ->
  ts' = match o with
        | Some _ => replace_nth p {| tev := tev t; thd := thd t; tk := S (tk t) |} ts
        | None => remove_nth p ts
        end ->
  w' = match o with Some _ => ctasks (tev t) ts | None => pred (ctasks (tev t) ts) end ->
  w' = ctasks (tev t) ts' /\
  (forall d, d <> tev t -> ctasks d ts' = ctasks d ts) /\
  (forall x, In x ts' -> tev x = tev t \/ In x ts).
Proof.
  intros A p t ts o ts' w' Hn -> ->. set (t' := {| tev := tev t; thd := thd t; tk := S (tk t) |}).
  destruct (task_split A o p t t' ts Hn) as (a & b & -> & ->).
  assert (Hd : forall d, ctasks d (a ++ t :: b) = ctasks d (a ++ b) + (if Nat.eqb (tev t) d then 1 else 0))
    by (intros d; rewrite !ctasks_app, ctasks_cons; lia).
  split; [|split].
  - rewrite Hd, Nat.eqb_refl. destruct o; rewrite !ctasks_app, ?ctasks_cons; simpl; rewrite ?Nat.eqb_refl; lia.
  - intros d Hne. rewrite Hd. destruct (Nat.eqb (tev t) d) eqn:E; [apply Nat.eqb_eq in E; congruence|].
    destruct o; rewrite !ctasks_app, ?ctasks_cons; simpl; rewrite ?E; lia.
  - intros x Hx. rewrite !in_app_iff in *. simpl. destruct o, Hx as [Hx|Hx]; auto. destruct Hx as [<-|Hx]; auto.
Qed.

Lemma step_task_ssum : forall p t s ys lk gr,
  nth_error (tasks s) p = Some t -> nth_error (ev_hs (spec s (tev t))) (thd t) = Some (HG ys lk gr) ->
  tev t < next s -> phase s (tev t) = PActive -> waiting s (tev t) = ctasks (tev t) (tasks s) ->
  OKs s -> ssum (tev t) s (step_task p s) /\ OKs (step_task p s).
Proof.
  intros p t s ys lk gr Hn Hh He Hph Hw Hok. pose proof (proj1 Hok (tev t)) as Hnp.
  assert (Hpl : plain_hdl (HG ys lk gr) = true) by (eapply forallb_nth; [|exact Hh]; rewrite <- plain_ev_hs; apply Hok).
  simpl in Hpl. apply andb_prop in Hpl. destruct Hpl as (Hys & Hlk).
  destruct (task_frame p t s ys lk gr Hn He Hh) as (_ & _ & _ & _ & _ & _ & Htk & Hw' & _).
  rewrite Hw in Hw'. destruct (task_ctasks _ p t (tasks s) _ _ _ Hn Htk Hw') as (C1 & C2 & C3).
  pose proof (ctasks_pos (tev t) t _ (nth_error_In _ _ Hn) eq_refl) as Hpos. clear Htk.
  unfold step_task in *. rewrite Hn, Hh in *. set (e := tev t) in *. set (x := LG e (thd t) (tk t)) in *.
  assert (Hc : contrib (spec s) e x =
               match nth_error ys (tk t) with Some (_, y) => nonnone y | None => if gr then [PErr] else [] end)
    by (simpl; now rewrite Nat.eqb_refl, Hh).
  assert (Hr : raises (spec s) e x = match nth_error ys (tk t) with Some _ => false | None => gr end)
    by (simpl; now rewrite Nat.eqb_refl, Hh).
  pose proof (hunit_enter e x s He eq_refl) as U.
  assert (Hkids : forall kids, forallb plain_ev kids = true -> OKs (fire_all kids (add_log x s))) by (intros; now apply oks_fire_all).
  destruct (nth_error ys (tk t)) as [[kids y]|] eqn:Hy; [|destruct gr].
  - (* a yielding segment: the task stays, so the gate does nothing *)
    pose proof (forallb_nth _ _ _ _ _ Hys Hy) as H2. simpl in H2. apply andb_prop in H2.
    destruct H2 as (Hk & Hry). apply negb_true_iff in Hry.
    split; [|destruct (is_none y); [exact (Hkids _ Hk) | exact (oks_set_value e y _ (Hkids _ Hk) Hry)]].
    set (s' := set_tasks _ _) in *.
    assert (Hid : event_done e false s' = s') by (apply event_done_idle, Nat.eqb_neq; lia).
    rewrite <- Hid in C1, C2, C3 |- *.
    apply (hunit_ssum e x (nonnone y) false false s s' eq_refl); auto.
    apply hunit_set_tasks, value_hunit; auto. reflexivity.
  - (* the terminal segment raises (processTask's except branch) *)
    split; [|exact (oks_task_raise _ _ _ (Hkids _ Hlk))]. unfold task_raise in *. apply (hunit_ssum e x [PErr] true true s _ eq_refl); auto.
    eapply hunit_set_wait, hunit_raise_feedback, hunit_inform, hunit_set_errors.
    apply (hunit_set_value PErr e x 0 [] false); auto. apply hunit_set_tasks, hunit_fire_all, U.
  - (* it returns (the StopIteration branch) *)
    split; [|exact (oks_task_stop _ _ _ (Hkids _ Hlk))]. rewrite task_stop_gate in *. apply (hunit_ssum e x [] false false s _ eq_refl); auto.
    destruct (Nat.eqb _ 0); [apply hunit_inform|]; apply hunit_set_tasks, hunit_set_wait, hunit_fire_all, U.
Qed.

Lemma start_shape : forall roots,
  Forall (is_LF_from 0) (log (start roots)) /\
  queue (start roots) = seq 0 (next (start roots)) /\ tasks (start roots) = [] /\
  forall d, d < next (start roots) ->
    phase (start roots) d = PQueued /\ waiting (start roots) d = 0 /\ val (start roots) d = vinit.
Proof.
  intros roots. unfold start. destruct (ext_fire_all roots init) as (l & [x1 x2 x3 x4 x5 x6] & Hl).
  simpl in x3, x4, x5, x6. rewrite Nat.sub_0_r in x5. rewrite app_nil_r in x6.
  rewrite x6. repeat split; auto; apply x3; lia.
Qed.

Lemma inv_start : forall roots, Inv (start roots).
Proof.
  intros roots. destruct (start_shape roots) as (Hl & x5 & x4 & x3). set (s := start roots) in *.
  pose proof (LF_silent _ _ Hl) as Hs.
  split.
  - intros d Hd. rewrite x5 in Hd. apply in_seq in Hd. split; [lia|]. apply x3. lia.
  - rewrite x5. apply seq_NoDup.
  - intros d Hd _ _. rewrite x5. apply in_seq. lia.
  - intros t Hin. rewrite x4 in Hin. contradiction.
  - intros d Hd. rewrite x4. destruct (x3 d Hd) as (_ & Hw & _). rewrite Hw. reflexivity.
  - intros d Hd Hp. destruct (x3 d Hd) as (Hq & _ & _). congruence.
  - eapply Forall_impl; [|exact Hl]. intros x (d & -> & _). exact I.
  - intros d Hd. destruct (x3 d Hd) as (_ & _ & Hv).
    destruct (nonh_list (spec s) d _ (silent_nonh _ Hs)) as (a & b).
    destruct (silent_count d _ Hs) as (c1 & c2).
    split; rewrite ?Hv, ?a, ?b, ?c1, ?c2; simpl; auto.
    now destruct (ev_fail (spec s d)).
  - intros d Hd Hk. rewrite (nosucc_count d _ (side_nosucc 0 _ (LF_side 0 _ _ Hl))). unfold succ_formula.
    destruct (x3 d Hd) as (Hq & _ & _). now rewrite Hq.
  - intros d l1 l2 Hd Hk Hlog. exfalso.
    rewrite Forall_forall in Hl. destruct (Hl (LFD DSucc d)) as (d' & Hx & _); [|discriminate].
    rewrite Hlog. apply in_or_app. right. left. reflexivity.
Qed.

Lemma step_keeps : forall lb s, OKs s -> Inv s -> OKs (step lb s) /\ Inv (step lb s).
Proof.
  intros lb s Hok HI. pose proof HI as [q1 q2 q3 t w a lbd vc sc sl]. apply step_cases; [auto | |].
  - intros e q Hq. rewrite Hq in *.
    assert (He : e < next s /\ phase s e = PQueued) by (apply q1; simpl; auto).
    destruct He as (He & Hpe). inversion q2; subst.
    set (s0 := set_queue q s).
    assert (HP : PInv (Some e) s0).
    { split; simpl; auto.
      - intros d Hd. apply q1. simpl; auto.
      - intros d Hd Hne Hp. destruct (q3 d Hd ltac:(discriminate) Hp) as [->|]; auto. congruence.
      - intros d Hd. apply (VC_same s); auto. }
    assert (Hz : ctasks e (tasks s) = 0).
    { apply ctasks_zero. intros t0 Hin Heq. destruct (t t0 Hin) as (_ & Hp). congruence. }
    assert (S : ssum e s0 (dispatch e s0) /\ OKs (dispatch e s0))
      by (destruct (kind s e) eqn:Hk; [apply dispatch_user_ssum | eapply dispatch_der_ssum]; simpl; eauto).
    split; [apply S|]. apply (step_inv e s0); auto; try (simpl; congruence). apply S.
  - intros p t0 ys lk gr Hn Hh. destruct (t t0 (nth_error_In _ _ Hn)) as (He & Hp).
    destruct (step_task_ssum p t0 s ys lk gr) as (S & Hok'); auto.
    split; [exact Hok'|]. apply (step_inv (tev t0) s); auto.
    + split; auto. intros d Hd _ Hpd. apply q3; auto. discriminate.
    + intros Hin. destruct (q1 _ Hin). congruence.
    + congruence.
Qed.

Lemma inv_step : forall lb s, OKs s -> Inv s -> Inv (step lb s).
Proof. intros lb s H HI. apply (step_keeps lb s H HI). Qed.

Lemma inv_exec : forall ls s, OKs s -> Inv s -> OKs (exec ls s) /\ Inv (exec ls s).
Proof.
  induction ls as [|lb ls IH]; intros s H0 H; simpl; auto. apply IH; apply (step_keeps lb s H0 H).
Qed.

Theorem reachable_inv : forall s, reachable_plain s -> Inv s.
Proof. intros s (roots & ls & Hp & ->). apply inv_exec; [now apply oks_start | apply inv_start]. Qed.

Theorem progress : forall s, reachable_plain s -> quiet s = true ->
  forall d, d < next s -> phase s d = PFin /\ waiting s d = 0.
Proof.
  intros s Hr Hq d Hd. pose proof (reachable_inv s Hr) as HI.
  unfold quiet in Hq. destruct (queue s) eqn:Eq; [|discriminate]. destruct (tasks s) eqn:Et; [|discriminate].
  assert (Hw : waiting s d = 0) by (rewrite (i_w _ _ HI d Hd), Et; reflexivity).
  split; auto. destruct (phase s d) eqn:Ep; auto.
  - pose proof (i_q3 _ _ HI d Hd ltac:(discriminate) Ep) as Hin. rewrite Eq in Hin. contradiction.
  - pose proof (i_a _ _ HI d Hd Ep). lia.
Qed.

Lemma upto_stop_id : forall hs, existsb stops hs = false -> upto_stop hs = hs.
Proof.
  induction hs as [|h r IH]; simpl; auto. intros H. apply orb_false_elim in H. destruct H as (-> & H).
  now rewrite IH.
Qed.
Lemma upto_stop_nth : forall hs i h, nth_error (upto_stop hs) i = Some h -> nth_error hs i = Some h.
Proof.
  induction hs as [|h0 r IH]; intros i h; simpl; auto.
  destruct (stops h0); destruct i; simpl; auto. destruct i; discriminate.
Qed.

Lemma invoked_plain : forall s e, kind s e = KUser -> plain_ev (spec s e) = true -> invoked s e = ev_hs (spec s e).
Proof. intros s e Hk Hpl. unfold invoked. rewrite Hk. apply upto_stop_id, plain_no_stop. now rewrite <- plain_ev_hs. Qed.

Theorem dispatch_runs_invoked : forall s e j h,
  e < next s -> nth_error (invoked s e) j = Some h ->
  match h with
  | HP _ _ => In (LH e j) (log (dispatch e s))
  | HG _ _ _ => In {| tev := e; thd := j; tk := 0 |} (tasks (dispatch e s))
  end.
Proof.
  intros s e j h He Hj. destruct (dispatch_frame e s He) as (l0 & b & F & _ & Hh & _ & Ht & _).
  destruct h as [k r|ys lk gr].
  - rewrite (g_log _ _ _ _ F). apply in_or_app. left. apply in_or_app. right.
    apply (in_hpart (LH e j) l0). rewrite Hh. apply in_rev. rewrite rev_involutive.
    apply (in_entries_of e _ 0 j k r Hj).
  - rewrite Ht. apply in_or_app. right. apply (in_tasks_of e _ 0 j ys lk gr Hj).
Qed.

Lemma hpart_succ_log : forall e b l, hpart (succ_log e b ++ l) = hpart l.
Proof. intros e [] l; reflexivity. Qed.

Definition N1 (s : st) : Prop :=
  forall d, d < next s -> 0 < nraised (spec s) d (log s) -> verrors (val s d) = true.
Definition N2 (s : st) : Prop :=
  forall d l1 l2, log s = l1 ++ LFD DSucc d :: l2 -> nraised (spec s) d l2 = 0.
Definition HB (s : st) : Prop := forall x d, In x (log s) -> hentry x d -> d < next s.

Lemma nraised_zero : forall sp d l, (forall x, In x l -> ~ hentry x d) -> nraised sp d l = 0.
Proof.
  intros sp d l H. apply filter_len_zero. intros x Hx. specialize (H x Hx).
  destruct x; simpl in *; auto; destruct (Nat.eqb_spec e d); auto; exfalso; apply H; auto.
Qed.

Lemma nraised_sub : forall sp d l1 l2, nraised sp d (l1 ++ l2) = 0 -> nraised sp d l2 = 0.
Proof. intros sp d l1 l2 H. rewrite nraised_app in H. lia. Qed.

Lemma n_frame : forall e l0 b s s',
  e < next s -> frame e (succ_log e b ++ l0) s s' -> Forall nosucc l0 ->
  (forall x, In x (hpart l0) -> hentry x e) -> flags e l0 s s' ->
  (b = true -> verrors (val s' e) = false) ->
  HB s -> N1 s -> N2 s -> N1 s' /\ N2 s'.
Proof.
  intros e l0 b s s' He F Hns Hh R Hb B A C.
  pose proof (g_log _ _ _ _ F) as Hl. pose proof (g_next _ _ _ _ F) as Hn.
  assert (Hnr : forall d sp, d <> e -> nraised sp d l0 = 0).
  { intros d sp Hne. apply nraised_zero. intros x Hin Hx. apply Hne.
    assert (Hxe : hentry x e) by (apply Hh, in_hpart; split; [auto | eapply hentry_is_h; eauto]).
    destruct x; simpl in *; try contradiction; congruence. }
  assert (Hnew : forall d sp l, next s <= d -> (forall x, In x l -> In x (log s)) -> nraised sp d l = 0).
  { intros d sp l Hd Hsub. apply nraised_zero. intros x Hin Hx. pose proof (B x d (Hsub x Hin) Hx). lia. }
  assert (Hsucc : forall sp d l, nraised sp d (succ_log e b ++ l) = nraised sp d l) by (intros; now destruct b).
  assert (A' : N1 s').
  { intros d Hd Hpos. rewrite Hl, <- app_assoc, Hsucc, nraised_app in Hpos.
    destruct (Nat.lt_ge_cases d (next s)) as [Hlt|Hge].
    - rewrite !(nraised_sp (spec s) (spec s')) in Hpos by (apply (frame_spec _ _ _ _ d F Hlt)).
      destruct (Nat.eq_dec d e) as [->|Hne].
      + destruct (nraised (spec s) e l0) eqn:E; [|apply R; lia].
        apply (frame_err _ _ _ _ e F Hlt). apply A; auto.
      + rewrite (Hnr d _ Hne) in Hpos. apply (frame_err _ _ _ _ d F Hlt). apply A; auto.
    - exfalso. rewrite (Hnr d) in Hpos by lia. rewrite (Hnew d _ (log s)) in Hpos; auto. lia. }
  split; [exact A'|]. intros d l1 l2 Hlog. rewrite Hl, <- app_assoc in Hlog.
  assert (Hold : forall l1, l0 ++ log s = l1 ++ LFD DSucc d :: l2 -> nraised (spec s') d l2 = 0).
  { intros k1 Hk. destruct (in_split_app _ _ _ _ _ Hk) as (k1' & -> & Hk').
    { intros Hin. rewrite Forall_forall in Hns. apply (Hns _ Hin). }
    destruct (Nat.lt_ge_cases d (next s)) as [Hlt|Hge].
    - rewrite (nraised_sp (spec s) (spec s')) by (apply (frame_spec _ _ _ _ d F Hlt)). eapply C; eauto.
    - apply (Hnew d); auto. intros x Hin. rewrite Hk'. apply in_or_app. right. right. auto. }
  destruct b; [|eapply Hold; eauto]. destruct l1 as [|y l1]; injection Hlog as Hy Hlog; [|eapply Hold; eauto].
  (* the success fired now *)
  subst d l2. destruct (nraised (spec s') e (l0 ++ log s)) eqn:E; auto.
  rewrite A' in Hb; [discriminate (Hb eq_refl) | lia|]. rewrite Hl, <- app_assoc, Hsucc, E. lia.
Qed.

(* handler i of event d (script h): it has been invoked (plain) / each of its segments has been entered, or a
   pending task of the handler has not got that far yet (generator) *)
Definition hdone (s : st) (d i : nat) (h : hdl) : Prop :=
  match h with
  | HP _ _ => In (LH d i) (log s)
  | HG ys _ _ => forall k, k <= length ys ->
      In (LG d i k) (log s) \/ exists t, In t (tasks s) /\ tev t = d /\ thd t = i /\ tk t <= k
  end.

Definition HInv (s : st) : Prop :=
  forall d i h, d < next s -> phase s d <> PQueued -> nth_error (invoked s d) i = Some h -> hdone s d i h.

Lemma task_eq_dec : forall a b : task, {a = b} + {a <> b}.
Proof. decide equality; apply Nat.eq_dec. Qed.

Lemma hdone_mono : forall s s' d i h,
  (forall t, In t (tasks s) -> tev t = d -> In t (tasks s')) ->
  (forall x, In x (log s) -> In x (log s')) -> hdone s d i h -> hdone s' d i h.
Proof.
  intros s s' d i h Ht Hl H. destruct h as [|ys lk gr]; simpl in *; auto.
  intros k Hk. destruct (H k Hk) as [Hin|(t & Hin & Hd & Hi & Hle)]; [left; auto | right; exists t; auto].
Qed.

Lemma invoked_frame : forall e l s s' d, frame e l s s' -> d < next s -> invoked s' d = invoked s d.
Proof. intros e l s s' d F Hd. unfold invoked. destruct (g_old _ _ _ _ F d Hd) as (-> & -> & _). reflexivity. Qed.

(* The invariant of ANY program.  Each plain handler is invoked and each generator segment entered at most once, the
   segments of a handler in order (a_o1, a_o2, carried by the bookkeeping a_q1 .. a_l3); the errors flag is sticky and
   no success follows a failure (a_n); every segment of every invoked handler of a dispatched event has been entered,
   unless a pending task of the handler has not reached it yet (a_h). *)
Record AInv (s : st) : Prop := {
  a_q1 : forall d, In d (queue s) -> d < next s /\ phase s d = PQueued;
  a_q2 : NoDup (queue s);
  a_t1 : forall t, In t (tasks s) -> tev t < next s /\ phase s (tev t) <> PQueued;
  a_t2 : NoDup (map key (tasks s));
  a_l1 : forall x d, In x (log s) -> hentry x d -> d < next s /\ phase s d <> PQueued;
  a_l3 : forall t k, In t (tasks s) -> In (LG (tev t) (thd t) k) (log s) -> k < tk t;
  a_o1 : NoDup (hpart (log s));
  a_o2 : hordered (hpart (log s));
  a_n : N1 s /\ N2 s;
  a_h : HInv s
}.

Lemma ainv_start : forall roots, AInv (start roots).
Proof.
  intros roots. destruct (start_shape roots) as (Hl & x5 & x4 & x3). set (s := start roots) in *.
  pose proof (silent_nonh _ (LF_silent _ _ Hl)) as Hnh.
  assert (Hh : hpart (log s) = []) by apply hpart_nonh, Hnh.
  split.
  - intros d Hd. rewrite x5 in Hd. apply in_seq in Hd. split; [lia|]. apply x3. lia.
  - rewrite x5. apply seq_NoDup.
  - intros t Hin. rewrite x4 in Hin. contradiction.
  - rewrite x4. constructor.
  - intros x d Hin Hh'. exfalso. assert (In x (hpart (log s))) by (apply in_hpart; split; auto; eapply hentry_is_h; eauto).
    rewrite Hh in H. contradiction.
  - intros t k Hin. rewrite x4 in Hin. contradiction.
  - rewrite Hh. constructor.
  - rewrite Hh. intros h1 h2 e i k H. destruct h1; discriminate.
  - split.
    + intros d Hd Hpos. rewrite (nraised_nonh _ _ _ Hnh) in Hpos. lia.
    + intros d l1 l2 H. exfalso. rewrite Forall_forall in Hl.
      destruct (Hl (LFD DSucc d)) as (d' & Hd' & _); [|discriminate]. rewrite H. apply in_or_app. right. left. auto.
  - intros d i h Hd Hp. exfalso. apply Hp, (x3 d Hd).
Qed.

Lemma ainv_dispatch : forall e q s, AInv s -> queue s = e :: q -> AInv (dispatch e (set_queue q s)).
Proof.
  intros e q s [q1 q2 t1 t2 l1 l3 o1 o2 (A & B) HH] Hq.
  assert (Hb : HB s) by (intros x d Hin Hx; apply (l1 x d Hin Hx)).
  rewrite Hq in q1, q2.
  assert (He : e < next s /\ phase s e = PQueued) by (apply q1; simpl; auto).
  destruct He as (He & Hpe). inversion q2 as [|? ? Hnin Hnd]; subst.
  set (s0 := set_queue q s).
  destruct (dispatch_frame e s0 He) as (l0 & b & Hfr & Hns & Hh & R & Htk & _ & Hpe' & Hs).
  set (s' := dispatch e s0) in *. set (h := rev (entries_of e 0 (invoked s0 e))) in *.
  set (tn := tasks_of e 0 (invoked s0 e)) in *.
  pose proof (g_next _ _ _ _ Hfr) as n. pose proof (g_log _ _ _ _ Hfr) as Hl.
  assert (o : forall d, d < next s -> d <> e -> phase s' d = phase s d) by (intros d Hd Hne; exact (frame_phase e _ s0 s' d Hfr Hd Hne)).
  assert (p1 : forall x, In x h -> exists j, x = LH e j).
  { intros x Hx. apply in_rev, entries_of_in in Hx. destruct Hx as (j & _ & ->). eauto. }
  assert (HN : N1 s' /\ N2 s').
  { apply (n_frame e l0 b s0); auto. intros x Hx. rewrite Hh in Hx. destruct (p1 x Hx) as (j & ->). reflexivity. }
  rewrite <- (hpart_succ_log e b) in Hh. set (l := succ_log e b ++ l0) in *. simpl in n, Hl.
  assert (p2 : NoDup h) by apply NoDup_rev, entries_of_nodup.
  assert (p3 : forall t, In t tn -> tev t = e).
  { intros t Ht. apply (tasks_of_in e t _ 0 Ht). }
  assert (Hnoh : forall x, In x (log s) -> ~ hentry x e).
  { intros x Hin Hx. destruct (l1 x e Hin Hx) as (_ & Hp). congruence. }
  assert (Hlh : forall x, In x l -> is_h x = true -> exists j, x = LH e j).
  { intros x Hin Hx. apply p1. rewrite <- Hh. apply in_hpart. auto. }
  assert (Htold : forall t, In t (tasks s) -> tev t <> e).
  { intros t Hin Heq. destruct (t1 t Hin) as (_ & Hp). congruence. }
  destruct (queue_grow e q s s' n (g_queue _ _ _ _ Hfr) Hnd Hnin (fun d Hd => q1 d (or_intror Hd)) o (g_new _ _ _ _ Hfr))
    as (Q1 & Q2).
  split.
  - (* q1 *) exact Q1.
  - (* q2 *) exact Q2.
  - (* t1 *) intros t Hin. rewrite Htk in Hin. apply in_app_or in Hin. destruct Hin as [Hin|Hin].
    + destruct (t1 t Hin) as (Hlt & Hp). split; [lia|]. rewrite o; auto.
    + rewrite (p3 t Hin). split; [lia | exact Hpe'].
  - (* t2 *) rewrite Htk, map_app. apply NoDup_app_intro; auto.
    + apply tasks_of_nodup.
    + intros x Hx Hx'. apply in_map_iff in Hx. destruct Hx as (t & <- & Hin).
      apply in_map_iff in Hx'. destruct Hx' as (t' & Hk & Hin').
      apply (Htold t Hin). unfold key in Hk. rewrite <- (p3 t' Hin'). congruence.
  - (* l1 *) intros x d Hin Hx. rewrite Hl in Hin. apply in_app_or in Hin. destruct Hin as [Hin|Hin].
    + destruct (Hlh x Hin (hentry_is_h _ _ Hx)) as (j & ->). simpl in Hx. subst d. split; [lia | exact Hpe'].
    + destruct (l1 x d Hin Hx) as (Hlt & Hp). split; [lia|].
      assert (d <> e) by (intros ->; congruence). rewrite o; auto.
  - (* l3 *) intros t k Hin Hlg. rewrite Hl in Hlg. apply in_app_or in Hlg. destruct Hlg as [Hlg|Hlg].
    + destruct (Hlh _ Hlg eq_refl) as (j & Hj). discriminate.
    + rewrite Htk in Hin. apply in_app_or in Hin. destruct Hin as [Hin|Hin]; [eapply l3; eauto|].
      exfalso. apply (Hnoh _ Hlg). simpl. exact (p3 t Hin).
  - (* o1 *) rewrite Hl, hpart_app, Hh. apply NoDup_app_intro; auto.
    intros x Hx Hx'. apply in_hpart in Hx'. destruct Hx' as (Hin & _).
    destruct (p1 x Hx) as (j & ->). apply (Hnoh _ Hin). reflexivity.
  - (* o2 *) rewrite Hl, hpart_app, Hh. intros h1 h2 e' i k Heq k' Hin.
    assert (Hnot : ~ In (LG e' i k) h).
    { intros Hi. destruct (p1 _ Hi) as (j & Hj). discriminate. }
    destruct (in_split_app _ _ _ _ _ Heq Hnot) as (h1' & -> & Heq'). eapply o2; eauto.
  - (* n *) exact HN.
  - (* h: the handlers of e have just been invoked or registered; the other events keep theirs *)
    intros d i hd Hd Hp Hnth.
    destruct (Nat.lt_ge_cases d (next s)) as [Hlt|Hge].
    2:{ exfalso. apply Hp. apply (g_new _ _ _ _ Hfr d). simpl. lia. }
    rewrite (invoked_frame _ _ _ _ d Hfr Hlt) in Hnth.
    destruct (Nat.eq_dec d e) as [->|Hne].
    + pose proof (dispatch_runs_invoked s0 e i hd He Hnth) as Rn. destruct hd as [k r|ys lk gr]; simpl; [exact Rn|].
      intros k _. right. exists {| tev := e; thd := i; tk := 0 |}. simpl. auto with arith.
    + apply (hdone_mono s0).
      * intros t Hin _. rewrite Htk. apply in_or_app. auto.
      * intros x Hx. rewrite Hl. apply in_or_app. auto.
      * rewrite (o d Hlt Hne) in Hp. apply (HH d i hd); auto.
Qed.

Lemma ainv_task : forall p t0 ys lk gr s, AInv s -> nth_error (tasks s) p = Some t0 ->
  nth_error (ev_hs (spec s (tev t0))) (thd t0) = Some (HG ys lk gr) -> AInv (step_task p s).
Proof.
  intros p t0 ys lk gr s [q1 q2 t1 t2 l1 l3 o1 o2 (A & B) HH] Hn Hhd.
  assert (Hb : HB s) by (intros x d Hin Hx; apply (l1 x d Hin Hx)).
  destruct (t1 t0 (nth_error_In _ _ Hn)) as (He & Hp0).
  destruct (task_frame p t0 s ys lk gr Hn He Hhd) as (l0 & b & Hfr & Hns & Hh & R & Htk & _ & Hs).
  set (s' := step_task p s) in *. set (e := tev t0) in *.
  pose proof (g_next _ _ _ _ Hfr) as n. pose proof (g_log _ _ _ _ Hfr) as Hl.
  assert (o : forall d, d < next s -> d <> e -> phase s' d = phase s d) by (intros d Hd Hne; exact (frame_phase e _ s s' d Hfr Hd Hne)).
  assert (Hpe : phase s' e <> PQueued) by (apply (g_e _ _ _ _ Hfr Hp0)).
  assert (HN : N1 s' /\ N2 s').
  { apply (n_frame e l0 b s); auto. intros x Hx. rewrite Hh in Hx. destruct Hx as [<-|[]]. reflexivity. }
  rewrite <- (hpart_succ_log e b) in Hh. set (l := succ_log e b ++ l0) in *.
  assert (Hlg : forall x, In x l -> is_h x = true -> x = LG e (thd t0) (tk t0)).
  { intros x Hin Hx. assert (Hi : In x (hpart l)) by (apply in_hpart; auto). rewrite Hh in Hi.
    destruct Hi as [<-|[]]. reflexivity. }
  assert (Hnew : In (LG e (thd t0) (tk t0)) (log s')).
  { rewrite Hl. apply in_or_app. left. apply (in_hpart _ l). rewrite Hh. left. auto. }
  assert (Hsub : forall x, In x (log s) -> In x (log s')) by (intros x Hx; rewrite Hl; apply in_or_app; auto).
  assert (Hfresh : ~ In (LG e (thd t0) (tk t0)) (log s)).
  { intros Hin. pose proof (l3 t0 _ (nth_error_In _ _ Hn) Hin). lia. }
  assert (Hneq : ~ In e (queue s)) by (intros Hin; destruct (q1 _ Hin); congruence).
  set (t0' := {| tev := e; thd := thd t0; tk := S (tk t0) |}) in *.
  (* the other tasks stay; they are those of other handlers *)
  destruct (task_split _ (nth_error ys (tk t0)) p t0 t0' (tasks s) Hn) as (ta & tb & Hts & Hts').
  rewrite Hts' in Htk. clear Hts'.
  assert (B2 : forall t', In t' (tasks s) -> t' <> t0 -> In t' (tasks s')).
  { intros t' Hin Hne. rewrite Htk. rewrite Hts, in_app_iff in Hin. rewrite in_app_iff.
    destruct Hin as [Hin|[<-|Hin]]; [auto | contradiction | right; destruct (nth_error ys (tk t0)); simpl; auto]. }
  rewrite Hts, map_app in t2. simpl in t2.
  assert (Hold : forall t, In t (ta ++ tb) -> In t (tasks s) /\ key t <> key t0).
  { intros t Hin. split; [rewrite Hts; rewrite in_app_iff in *; simpl; tauto|].
    intros Hk. apply (NoDup_remove_2 _ _ _ t2). rewrite <- Hk, <- map_app. now apply in_map. }
  assert (Hrem : forall t, In t (tasks s') -> t = t0' \/ In t (ta ++ tb)).
  { intros t Hin. rewrite Htk in Hin. rewrite in_app_iff in *. destruct (nth_error ys (tk t0)); simpl in Hin; intuition. }
  destruct (queue_grow e (queue s) s s' n (g_queue _ _ _ _ Hfr) q2 Hneq q1 o (g_new _ _ _ _ Hfr)) as (Q1 & Q2).
  split.
  - (* q1 *) exact Q1.
  - (* q2 *) exact Q2.
  - (* t1 *) intros t Hin. destruct (Hrem t Hin) as [->|Hin'].
    + simpl. split; [lia | exact Hpe].
    + destruct (t1 t (proj1 (Hold t Hin'))) as (Hlt & Hp). split; [lia|].
      destruct (Nat.eq_dec (tev t) e) as [->|Hne]; auto. rewrite o; auto.
  - (* t2 *) rewrite Htk, map_app. destruct (nth_error ys (tk t0)); [exact t2 | apply (NoDup_remove_1 _ _ _ t2)].
  - (* l1 *) intros x d Hin Hx. rewrite Hl in Hin. apply in_app_or in Hin. destruct Hin as [Hin|Hin].
    + rewrite (Hlg x Hin (hentry_is_h _ _ Hx)) in Hx. simpl in Hx. subst d. split; [lia | exact Hpe].
    + destruct (l1 x d Hin Hx) as (Hlt & Hp). split; [lia|].
      destruct (Nat.eq_dec d e) as [->|Hne]; auto. rewrite o; auto.
  - (* l3 *) intros t k Hin Hlgk. rewrite Hl in Hlgk. apply in_app_or in Hlgk.
    destruct (Hrem t Hin) as [->|Hin'].
    + simpl. destruct Hlgk as [Hi|Hi].
      * pose proof (Hlg _ Hi eq_refl) as Heq. simpl in Heq. inversion Heq. lia.
      * pose proof (l3 t0 k (nth_error_In _ _ Hn) Hi). lia.
    + destruct (Hold t Hin') as (Hin0 & Hk). destruct Hlgk as [Hi|Hi].
      * exfalso. pose proof (Hlg _ Hi eq_refl) as Heq. inversion Heq.
         apply Hk. unfold key. fold e. congruence.
      * eapply l3; eauto.
  - (* o1 *) rewrite Hl, hpart_app, Hh. simpl. constructor; auto.
    intros Hin. apply in_hpart in Hin. destruct Hin as (Hin & _). contradiction.
  - (* o2 *) rewrite Hl, hpart_app, Hh. simpl. intros h1 h2 e' i k Heq k' Hin.
    destruct h1 as [|x h1]; simpl in Heq; inversion Heq; subst.
    + apply in_hpart in Hin. destruct Hin as (Hin & _).
      pose proof (l3 t0 k' (nth_error_In _ _ Hn) Hin). lia.
    + eapply o2; eauto.
  - (* n *) exact HN.
  - (* h: the segment just entered is in the log; the later ones of that handler still have its task before them *)
    intros d i hd Hd Hp Hnth.
    destruct (Nat.lt_ge_cases d (next s)) as [Hlt|Hge].
    2:{ exfalso. apply Hp. apply (g_new _ _ _ _ Hfr d). lia. }
    rewrite (invoked_frame _ _ _ _ d Hfr Hlt) in Hnth.
    assert (Hdone : hdone s d i hd).
    { apply HH; auto. destruct (Nat.eq_dec d e) as [->|Hne]; [exact Hp0 | now rewrite <- (o d Hlt Hne)]. }
    destruct hd as [|ys' lk' gr']; [simpl in *; auto|]. simpl in Hdone |- *.
    intros k Hk. destruct (Hdone k Hk) as [Hin|(t & Hin & Ht & Hi & Hle)]; [left; auto|].
    destruct (task_eq_dec t t0) as [->|Hnt]; [|right; exists t; auto].
    subst d i. fold e in Hnth. destruct (Nat.eq_dec k (tk t0)) as [->|Hnk]; [left; exact Hnew|].
    assert (Hsame : HG ys' lk' gr' = HG ys lk gr).
    { unfold invoked in Hnth. destruct (kind s e); [|destruct (thd t0); discriminate].
      apply upto_stop_nth in Hnth. congruence. }
    inversion Hsame; subst ys' lk' gr'. right. exists t0'.
    (* k lies beyond the segment just entered, so that was no terminal one (those are numbered >= length ys): the task stays *)
    destruct (nth_error ys (tk t0)) eqn:Hy; [|apply nth_error_None in Hy; lia].
    split; [rewrite Htk; apply in_or_app; right; left; reflexivity | simpl; repeat split; auto; lia].
Qed.

Lemma ainv_step : forall lb s, AInv s -> AInv (step lb s).
Proof.
  intros lb s HI. apply step_cases; [exact HI | intros e q; now apply ainv_dispatch | intros p t ys lk gr; now apply ainv_task].
Qed.

Lemma ainv_exec : forall ls s, AInv s -> AInv (exec ls s).
Proof. induction ls as [|lb ls IH]; intros s H; simpl; auto. apply IH. now apply ainv_step. Qed.

Lemma reachable_ainv : forall s, reachable s -> AInv s.
Proof. intros s (roots & ls & ->). apply ainv_exec, ainv_start. Qed.

Theorem finished_complete : forall s e i h,
  reachable_plain s -> e < next s -> kind s e = KUser -> phase s e = PFin ->
  nth_error (ev_hs (spec s e)) i = Some h -> handler_finished (log s) e i h.
Proof.
  intros s e i h (roots & ls & Hpl & ->) He Hk Hp Hnth.
  destruct (inv_exec ls (start roots) (oks_start roots Hpl) (inv_start roots)) as ((_ & Hsp) & HI).
  pose proof (a_h _ (reachable_ainv _ (ex_intro _ roots (ex_intro _ ls eq_refl))) e i h He ltac:(congruence)) as Hd.
  rewrite (invoked_plain _ e Hk (Hsp e)) in Hd.
  specialize (Hd Hnth). destruct h as [|ys lk gr]; simpl in *; auto.
  intros k Hk0. destruct (Hd k Hk0) as [|(t & Hin & Ht & _)]; auto.
  exfalso. destruct (i_t _ _ HI t Hin) as (_ & Hpa). rewrite Ht in Hpa. congruence.
Qed.
