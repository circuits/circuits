(* Proofs about Model/FrontEnd.v: the composition HTTP front end + Static is contained. *)
From Coq Require Import List Bool.
From Circ Require Import Lib.ByteStr Model.StaticPath Model.FrontEnd Proofs.StaticPathP.
Import ListNotations.
Open Scope N_scope.

Definition nodot (p : str) : Prop := is_dot p = false /\ is_dotdot p = false.

(* the stack of URL.abspath only ever receives segments that are neither '.' nor '..' *)
Lemma abs_loop_Forall : forall (P : str -> Prop) parts stack dir,
  Forall P stack -> Forall (fun p => nodot p -> P p) parts ->
  Forall P (fst (abs_loop stack dir parts)).
Proof.
  induction parts as [|p r IH]; intros stack dir Hs Hp; simpl; [assumption|].
  inversion Hp as [|? ? Hp1 Hp2]; subst.
  destruct (is_dotdot p) eqn:E1.
  - apply IH; [|assumption]. destruct Hs; simpl; auto.
  - destruct (is_dot p) eqn:E2; simpl; apply IH; auto.
    constructor; [|assumption]. apply Hp1. split; assumption.
Qed.

Lemma Forall_split_intercalate : forall (P : str -> Prop) l, P [] ->
  Forall (fun c => Forall P (split_slash c)) l -> Forall P (split_slash (intercalate l)).
Proof.
  intros P l P0 H. induction H as [|a r Ha Hr IH]; [repeat constructor; exact P0|].
  destruct r as [|b r]; [exact Ha|].
  change (intercalate (a :: b :: r)) with (a ++ SL :: intercalate (b :: r)).
  unfold split_slash in *. rewrite split_on_app. apply Forall_app. auto.
Qed.

Lemma abspath_segments_nodot : forall path, Forall nodot (split_slash (url_abspath path)).
Proof.
  intros path. unfold url_abspath.
  pose proof (abs_loop_Forall (fun c => nodot c /\ ~ In SL c)
                (split_slash (collapse path)) [] false (Forall_nil _)) as H.
  destruct (abs_loop [] false (split_slash (collapse path))) as [stack dir].
  apply Forall_split_intercalate; [split; reflexivity|].
  apply Forall_app. split.
  - apply Forall_rev. eapply Forall_impl; [|apply H].
    + intros c [Hc Hs]. unfold split_slash. rewrite split_on_id by assumption. repeat constructor; apply Hc.
    + eapply Forall_impl; [|apply split_on_nodelim]. intros c Hs Hc. auto.
  - destruct dir; simpl; repeat constructor.
Qed.

Section Composition.
  Variables quote unquote : str -> str.
  Variables fexists isfile isdir : str -> bool.
  Variable unq : str -> str.

  Lemma frontend_dispatch : forall path p,
    frontend quote unquote path = FeDispatch p ->
    p = path /\ is_ascii path = true /\
    (path = sanitized quote unquote path \/ quote path = sanitized quote unquote path).
  Proof.
    intros path p H. unfold frontend in H.
    destruct (is_ascii path); simpl in H; [|discriminate].
    destruct (canonical quote unquote path) eqn:Hc; [|discriminate].
    unfold canonical in Hc. rewrite orb_true_iff, !str_eqb_eq in Hc.
    injection H as <-. auto.
  Qed.

  Theorem http_static_contained : forall mount d defaults dirlisting path loc,
    starts_slash d = true -> Forall plain defaults ->
    served (http_static quote unquote fexists isfile isdir unq mount d defaults dirlisting path) = Some loc ->
    (frontend quote unquote path = FeDispatch path /\ is_ascii path = true /\
     (path = sanitized quote unquote path \/ quote path = sanitized quote unquote path)) /\
    contained d loc.
  Proof.
    intros mount d defaults dirlisting path loc Hd Hdf H. unfold http_static in H.
    destruct (frontend quote unquote path) as [p| |] eqn:E; try discriminate.
    destruct (frontend_dispatch _ _ E) as (-> & Hc). split; [auto|].
    eapply static_contained; eassumption.
  Qed.
End Composition.
