(* C01 -- proofs about Model/Handlers.v.  [get_handlers_spec]: the lookup implements the matching rule.
   [Inv]: ids are unique, every component's root exists and is its own root, global handlers are well-formed, and
   the cache of every clean root agrees with an uncached lookup in the world as it is.  Every operation maps a
   function over the world: those that keep each component's view (dispatch's cache update, queue bookkeeping)
   go through [Inv_same_views], those that change registrations or roots through [Inv_tree_step]. *)
From Coq Require Import List Arith Bool.
From Circ Require Import Lib.ListFacts Lib.ListMem Model.Handlers.
Import ListNotations.

Lemma chan_eqb_eq a b : chan_eqb a b = true <-> a = b.
Proof. destruct a, b; cbn; rewrite ?Nat.eqb_eq; split; congruence. Qed.
Lemma chan_eqb_refl a : chan_eqb a a = true.
Proof. now apply chan_eqb_eq. Qed.

Lemma kc_eqb_eq a b : kc_eqb a b = true <-> a = b.
Proof. destruct a as [a1 a2], b as [b1 b2]. unfold kc_eqb. cbn.
  rewrite andb_true_iff, Nat.eqb_eq, chan_eqb_eq. split; [intros [-> ->]; reflexivity|intros [= -> ->]; auto]. Qed.

Lemma dedup_In x l : In x (dedup l) <-> In x l.
Proof. induction l as [|y r IH]; [tauto|]. cbn [dedup].
  destruct (existsb (Nat.eqb y) r) eqn:E.
  - rewrite IH. cbn. split; [tauto|]. intros [->|H]; [now apply existsb_eqb_In|exact H].
  - cbn. now rewrite IH. Qed.

Lemma dedup_NoDup l : NoDup (dedup l).
Proof. induction l as [|y r IH]; [constructor|]. cbn [dedup].
  destruct (existsb (Nat.eqb y) r) eqn:E; [exact IH|].
  constructor; [|exact IH]. rewrite dedup_In. now apply existsb_eqb_notIn. Qed.

(* the property's matching rule, stated on its own *)
Definition declared_for (e : key * hdecl) (n : nat) : Prop :=
  match fst e with KGlobal | KAll => True | KName m => m = n end.
(* channels equal, either side the wildcard, or the event is addressed to the component instance itself *)
Definition listens (c : comp) (e : key * hdecl) (ch : chan) : Prop :=
  ch = CStar \/ hchan_eff c (snd e) = CStar \/ hchan_eff c (snd e) = ch \/ ch = CComp (cid c).

Definition delivers (w : world) (r n : nat) (ch : chan) (h : nat) : Prop :=
  exists c e, In c w /\ rootf c = r /\ In e (reg c) /\ hid (snd e) = h /\
              declared_for e n /\ listens c e ch.

(* a global handler is a catch-all handler whose own channel is the wildcard *)
Definition global_ok (c : comp) : Prop :=
  forall e, In e (reg c) -> fst e = KGlobal -> hchan (snd e) = Some CStar.

Lemma entry_match_spec c n ch e : global_ok c -> In e (reg c) ->
  entry_match c n ch e = true <-> declared_for e n /\ listens c e ch.
Proof.
  intros G He. unfold entry_match, declared_for, listens, chan_match.
  destruct (fst e) eqn:K.
  - split; [intros _|reflexivity]. split; [exact I|]. right; left.
    unfold hchan_eff. now rewrite (G e He K).
  - rewrite !orb_true_iff, !chan_eqb_eq. tauto.
  - rewrite andb_true_iff, !orb_true_iff, !chan_eqb_eq, Nat.eqb_eq. tauto.
Qed.

Lemma get_handlers_spec w r n ch h : (forall c, In c w -> global_ok c) ->
  In h (get_handlers w r n ch) <-> delivers w r n ch h.
Proof.
  intros G. unfold get_handlers, delivers, members, local.
  rewrite dedup_In, in_flat_map. split.
  - intros (c & Hc & Hh). apply filter_In in Hc as [Hc Hr]. apply Nat.eqb_eq in Hr.
    apply in_map_iff in Hh as (e & <- & He). apply filter_In in He as [He Hm].
    apply (entry_match_spec c n ch e (G c Hc) He) in Hm as [D L].
    exists c, e. repeat split; auto.
  - intros (c & e & Hc & Hr & He & Hh & D & L). exists c. split.
    + apply filter_In. split; [exact Hc|now apply Nat.eqb_eq].
    + apply in_map_iff. exists e. split; [exact Hh|]. apply filter_In. split; [exact He|].
      apply (entry_match_spec c n ch e (G c Hc) He). now split.
Qed.

Lemma get_handlers_NoDup w r n ch : NoDup (get_handlers w r n ch).
Proof. apply dedup_NoDup. Qed.

(* get_handlers only looks at the "view" of the members of the tree *)
Definition view (c : comp) := (cid c, cchan c, reg c, rootf c).

Lemma view_eq c c' : view c = view c' ->
  cid c = cid c' /\ cchan c = cchan c' /\ reg c = reg c' /\ rootf c = rootf c'.
Proof. intros [= -> -> -> ->]. auto. Qed.

Lemma local_view n ch c c' : view c = view c' -> local n ch c = local n ch c'.
Proof. intros V. destruct (view_eq c c' V) as (E1 & E2 & E3 & _).
  unfold local, entry_match, chan_match, hchan_eff. now rewrite E1, E2, E3. Qed.

Lemma gh_unaffected r f w n ch :
  (forall x, In x w -> (rootf x = r \/ rootf (f x) = r) -> view (f x) = view x) ->
  get_handlers (map f w) r n ch = get_handlers w r n ch.
Proof.
  intros H. unfold get_handlers, members. f_equal.
  induction w as [|x w IH]; [reflexivity|]. cbn [map filter].
  assert (IH' := IH (fun y Hy => H y (or_intror Hy))).
  assert (V := H x (or_introl eq_refl)).
  destruct (Nat.eqb_spec (rootf (f x)) r) as [E'|N'], (Nat.eqb_spec (rootf x) r) as [E|N]; cbn [flat_map].
  - now rewrite (local_view n ch _ _ (V (or_introl E))), IH'.
  - destruct (view_eq _ _ (V (or_intror E'))) as (_ & _ & _ & Er). congruence.
  - destruct (view_eq _ _ (V (or_introl E))) as (_ & _ & _ & Er). congruence.
  - exact IH'.
Qed.

Definition uniq (w : world) := NoDup (map cid w).
Definition roots_ok (w : world) :=
  forall c, In c w -> exists r, In r w /\ cid r = rootf c /\ rootf r = cid r.
Definition globals_ok (w : world) := forall c, In c w -> global_ok c.
Definition coherent (w : world) :=
  forall c, In c w -> rootf c = cid c -> dirty c = false ->
  forall n ch l, lookup (n, ch) (cache c) = Some l -> l = get_handlers w (cid c) n ch.
Definition Inv (w : world) := uniq w /\ roots_ok w /\ globals_ok w /\ coherent w.

Lemma find_comp_some w c x : find_comp w c = Some x -> In x w /\ cid x = c.
Proof. unfold find_comp. intros H. apply find_some in H as [H1 H2]. apply Nat.eqb_eq in H2. auto. Qed.

Lemma find_comp_none w c : find_comp w c = None -> forall x, In x w -> cid x <> c.
Proof. unfold find_comp. intros H x Hx E. apply (find_none _ _ H) in Hx. apply Nat.eqb_neq in Hx. contradiction. Qed.

Lemma find_comp_uniq w x : uniq w -> In x w -> find_comp w (cid x) = Some x.
Proof. apply find_uniq_key. Qed.

Lemma uniq_eq w x y : uniq w -> In x w -> In y w -> cid x = cid y -> x = y.
Proof. apply NoDup_map_eq. Qed.

Lemma root_of_in w x : uniq w -> In x w -> root_of w (cid x) = rootf x.
Proof. intros U H. unfold root_of. now rewrite (find_comp_uniq w x U H). Qed.

Lemma root_of_idem w c : uniq w -> roots_ok w -> root_of w (root_of w c) = root_of w c.
Proof.
  intros U R. unfold root_of at 2 3. destruct (find_comp w c) as [x|] eqn:F; [|unfold root_of; now rewrite F].
  destruct (R x (proj1 (find_comp_some _ _ _ F))) as (r & Hr & E1 & E2).
  rewrite <- E1, (root_of_in w r U Hr). congruence.
Qed.

Lemma members_none w r : roots_ok w -> find_comp w r = None -> members w r = [].
Proof.
  intros R F. unfold members. destruct (filter _ w) as [|x l] eqn:E; [reflexivity|].
  assert (Hx : In x (x :: l)) by now left. rewrite <- E in Hx. apply filter_In in Hx as [Hx Er].
  apply Nat.eqb_eq in Er. destruct (R x Hx) as (z & Hz & Ez & _).
  destruct (find_comp_none w r F z Hz). congruence.
Qed.

Lemma find_comp_map f w c : (forall x, cid (f x) = cid x) ->
  find_comp (map f w) c = option_map f (find_comp w c).
Proof. intros Fc. unfold find_comp. induction w as [|z w IH]; [reflexivity|]. cbn [map find]. rewrite Fc.
  destruct (Nat.eqb (cid z) c); [reflexivity|exact IH]. Qed.

Lemma root_of_map f w c : (forall x, cid (f x) = cid x) -> (forall x, rootf (f x) = rootf x) ->
  root_of (map f w) c = root_of w c.
Proof. intros Fc Fr. unfold root_of. rewrite (find_comp_map f w c Fc). destruct (find_comp w c); cbn; auto. Qed.

Lemma uniq_map f w : (forall x, cid (f x) = cid x) -> uniq w -> uniq (map f w).
Proof. intros H U. unfold uniq. rewrite map_map. erewrite map_ext; [exact U|]. intros; apply H. Qed.

Lemma Inv_same_views f w : Inv w -> (forall x, view (f x) = view x) ->
  (forall x, In x w -> rootf x = cid x -> dirty (f x) = false ->
     forall n ch l, lookup (n, ch) (cache (f x)) = Some l -> l = get_handlers w (cid x) n ch) ->
  Inv (map f w) /\ forall c, root_of (map f w) c = root_of w c.
Proof.
  intros (U & R & G & C) V Hc.
  assert (E : forall x, cid (f x) = cid x /\ cchan (f x) = cchan x /\ reg (f x) = reg x /\ rootf (f x) = rootf x)
    by (intros x; apply view_eq, V).
  split; [|intros c; apply root_of_map; apply E].
  split; [apply uniq_map; [apply E|exact U]|]. split; [|split]; intros c' Hc';
    apply in_map_iff in Hc' as (x & <- & Hx); destruct (E x) as (Ec & _ & Eg & Er).
  - destruct (R x Hx) as (r & Hr & E1 & E2), (E r) as (Ec' & _ & _ & Er').
    exists (f r). split; [now apply in_map|]. now rewrite Ec', Er', Er.
  - unfold global_ok. rewrite Eg. exact (G x Hx).
  - rewrite Ec, Er. intros Hr Hd n ch l. rewrite gh_unaffected by (intros; apply V). now apply Hc.
Qed.

Lemma set_queue_ok c q w : Inv w ->
  let w' := on c (fun x => set_queue x (q x)) w in Inv w' /\ forall x, root_of w' x = root_of w x.
Proof.
  intros I. apply Inv_same_views; [exact I|intros x; destruct (Nat.eqb (cid x) c); reflexivity|].
  intros x Hx Hr Hd n ch l Hl. destruct I as (_ & _ & _ & C). apply (C x Hx Hr); now destruct (Nat.eqb (cid x) c).
Qed.

(* The cache protocol.  A step that gives the components new registrations reg' and roots root' and marks
   some dirty keeps the invariant if every root that comes out clean has kept all that was, and gained nothing that
   becomes, a member of its tree. *)
Lemma Inv_tree_step f reg' root' dirtied w : Inv w ->
  (forall x, cid (f x) = cid x /\ cchan (f x) = cchan x /\ cache (f x) = cache x /\
             dirty (f x) = dirtied x || dirty x /\ reg (f x) = reg' x /\ rootf (f x) = root' x) ->
  (forall y, In y w -> exists z, In z w /\ cid z = root' y /\ root' z = cid z) ->
  (forall y, In y w -> global_ok (set_reg y (reg' y))) ->
  (forall r y, In r w -> In y w -> root' r = cid r -> dirtied r = false ->
     rootf y = cid r \/ root' y = cid r -> reg' y = reg y /\ root' y = rootf y) ->
  Inv (map f w).
Proof.
  intros (U & _ & _ & C) Hf R' G' Hp.
  split; [apply uniq_map; [apply Hf|exact U]|]. split; [|split].
  - intros c' Hc'. apply in_map_iff in Hc' as (y & <- & Hy). destruct (R' y Hy) as (z & Hz & E1 & E2).
    exists (f z). split; [now apply in_map|]. destruct (Hf y) as (_ & _ & _ & _ & _ & ->).
    destruct (Hf z) as (-> & _ & _ & _ & _ & ->). auto.
  - intros c' Hc'. apply in_map_iff in Hc' as (y & <- & Hy). unfold global_ok.
    destruct (Hf y) as (_ & _ & _ & _ & -> & _). exact (G' y Hy).
  - intros c' Hc' Hr Hd n ch l Hl. apply in_map_iff in Hc' as (x & <- & Hx).
    destruct (Hf x) as (Ec & _ & Eca & Ed & _ & Er). rewrite Ec, Er in *. rewrite Eca in Hl. rewrite Ed in Hd.
    apply orb_false_iff in Hd as [Hd Hdx].
    assert (V : forall y, In y w -> rootf y = cid x \/ rootf (f y) = cid x -> view (f y) = view y).
    { intros y Hy Ey. destruct (Hf y) as (E1 & E2 & _ & _ & E3 & E4). rewrite E4 in Ey.
      destruct (Hp x y Hx Hy Hr Hd Ey) as (E5 & E6). unfold view. now rewrite E1, E2, E3, E4, E5, E6. }
    rewrite (gh_unaffected (cid x) f w n ch V). apply (C x Hx); auto.
    destruct (Hp x x Hx Hx Hr Hd (or_intror Hr)) as (_ & <-). exact Hr.
Qed.

Lemma dispatch_ok w r n ch l w' : Inv w -> root_of w r = r -> dispatch w r n ch = (l, w') ->
  l = get_handlers w r n ch /\ Inv w' /\ forall x, root_of w' x = root_of w x.
Proof.
  intros I Hr D. unfold dispatch in D. destruct (find_comp w r) as [c|] eqn:F.
  2:{ injection D as <- <-. split; [|now split]. unfold get_handlers.
      now rewrite (members_none w r (proj1 (proj2 I)) F). }
  destruct (find_comp_some _ _ _ F) as [Hc Ec]. unfold root_of in Hr. rewrite F in Hr.
  set (ca := if dirty c then [] else cache c) in *.
  pose (valid ca' := forall n' ch' l', lookup (n', ch') ca' = Some l' -> l' = get_handlers w r n' ch').
  assert (Hca : valid ca).
  { intros n' ch' l' Hl. subst ca. destruct (dirty c) eqn:Dc; [discriminate Hl|].
    rewrite <- Ec. destruct I as (_ & _ & _ & C). apply (C c Hc); [congruence|exact Dc|exact Hl]. }
  assert (Gen : forall ca', valid ca' ->
     let w1 := on r (fun x => set_cache x ca') w in Inv w1 /\ forall x, root_of w1 x = root_of w x).
  { intros ca' Hca'. apply Inv_same_views; [exact I|intros x; destruct (Nat.eqb (cid x) r); reflexivity|].
    intros x Hx Hrx Hd. destruct (Nat.eqb_spec (cid x) r) as [->|NE]; [exact Hca'|].
    destruct I as (_ & _ & _ & C). exact (C x Hx Hrx Hd). }
  destruct (lookup (n, ch) ca) as [l0|] eqn:L; injection D as <- <-.
  - split; [now apply Hca|now apply Gen].
  - split; [reflexivity|]. apply Gen.
    intros n' ch' l' Hl. cbn [lookup] in Hl. destruct (kc_eqb (n', ch') (n, ch)) eqn:K.
    + apply kc_eqb_eq in K. injection K as -> ->. now injection Hl as <-.
    + now apply Hca.
Qed.

Definition good (d : delivery) : Prop :=
  Inv (d_world d) /\ d_invoked d = get_handlers (d_world d) (d_root d) (d_name d) (d_chan d).

Lemma flush_queue_ok q : forall w r ds w', Inv w -> root_of w r = r -> flush_queue w r q = (ds, w') ->
  Forall good ds /\ Inv w' /\ forall x, root_of w' x = root_of w x.
Proof.
  induction q as [|[[e n] ch] q IH]; intros w r ds w' I Hr H; cbn [flush_queue] in H.
  - injection H as <- <-. auto.
  - destruct (dispatch w r n ch) as [l w1] eqn:D.
    destruct (flush_queue w1 r q) as [ds1 w2] eqn:FQ. injection H as <- <-.
    destruct (dispatch_ok w r n ch l w1 I Hr D) as (El & I1 & S1).
    destruct (IH w1 r ds1 w2 I1 (eq_trans (S1 r) Hr) FQ) as (G2 & I2 & S2).
    split; [constructor; [split; [exact I|exact El]|exact G2]|]. split; [exact I2|].
    intros x. now rewrite S2.
Qed.

Lemma flush_ok w r ds w' : Inv w -> root_of w r = r -> flush w r = (ds, w') ->
  Forall good ds /\ Inv w' /\ forall x, root_of w' x = root_of w x.
Proof.
  intros I Hr H. unfold flush in H. destruct (find_comp w r) as [c|].
  - destruct (set_queue_ok r (fun _ => []) w I) as (I1 & S1).
    destruct (flush_queue_ok _ _ _ _ _ I1 (eq_trans (S1 r) Hr) H) as (G & I2 & S2).
    split; [exact G|]. split; [exact I2|]. intros x. now rewrite S2.
  - injection H as <- <-. auto.
Qed.

(* addHandler / removeHandler: the registration of component c changes, the root of c becomes dirty *)
Lemma reg_change_ok w c k : Inv w -> (forall x, In x w -> global_ok (set_reg x (k x))) ->
  Inv (on (root_of w c) (fun x => set_dirty x true) (on c (fun x => set_reg x (k x)) w)).
Proof.
  intros I Hk. pose proof I as (U & R & G & _). unfold on. rewrite map_map. set (r0 := root_of w c).
  apply (Inv_tree_step _ (fun x => if Nat.eqb (cid x) c then k x else reg x) rootf
           (fun x => Nat.eqb (cid x) r0) w I); cbv beta.
  - intros x. destruct (Nat.eqb (cid x) c); cbn [cid set_reg]; destruct (Nat.eqb (cid x) r0);
    repeat split; reflexivity.
  - exact R.
  - intros y Hy. destruct (Nat.eqb (cid y) c); [exact (Hk y Hy)|exact (G y Hy)].
  - intros r y Hr Hy _ Nr Ey. destruct (Nat.eqb_spec (cid y) c) as [E|_]; [|now split].
    (* y = c would make r the root of c, which came out dirty *)
    apply Nat.eqb_neq in Nr. destruct Nr. unfold r0. rewrite <- E, (root_of_in w y U Hy). now destruct Ey.
Qed.

Lemma register_ok w c p pp q : Inv w ->
  root_of w c = c -> root_of w p <> c -> find_comp w p = Some pp ->
  let r1 := root_of w p in
  Inv (on r1 (fun y => set_dirty (set_queue y (queue y ++ q)) true)
        (on c (fun y => set_queue y [])
           (map (fun y => if Nat.eqb (rootf y) c then set_rootf y r1 else y) w))).
Proof.
  intros I Hc Hp Fp r1. pose proof I as (U & R & G & _). change (r1 <> c) in Hp. unfold on. rewrite !map_map.
  apply (Inv_tree_step _ reg (fun y => if Nat.eqb (rootf y) c then r1 else rootf y)
           (fun y => Nat.eqb (cid y) r1) w I); cbv beta.
  - intros y. destruct (Nat.eqb (rootf y) c); cbn [cid set_rootf]; destruct (Nat.eqb (cid y) c);
    cbn [cid set_rootf set_queue]; destruct (Nat.eqb (cid y) r1); repeat split; reflexivity.
  - (* the members of c's tree get the root of p; a root other than c stays a root *)
    destruct (find_comp_some _ _ _ Fp) as [Hpp _].
    assert (Hr1 : r1 = rootf pp). { unfold r1, root_of. now rewrite Fp. }
    intros y Hy. destruct (R (if Nat.eqb (rootf y) c then pp else y)) as (z & Hz & E1 & E2);
      [now destruct (Nat.eqb (rootf y) c)|].
    exists z. split; [exact Hz|]. rewrite E2.
    destruct (Nat.eqb_spec (rootf y) c), (Nat.eqb_spec (cid z) c); split; congruence.
  - exact G.
  - intros r y Hr Hy Rr Nr Ey. apply Nat.eqb_neq in Nr.
    destruct (Nat.eqb_spec (rootf y) c) as [E|_]; [|now split].
    (* y in c's tree: r is not the new root, so it is c, which is no root any more *)
    destruct Ey as [Ey|Ey]; [|congruence].
    rewrite <- (root_of_in w r U Hr), <- Ey, E, Hc, Nat.eqb_refl in Rr. congruence.
Qed.

Lemma detach_ok w1 c r0 sub : Inv w1 ->
  root_of w1 c = r0 -> mem c sub = true -> mem r0 sub = false ->
  (forall x, In x sub -> root_of w1 x = r0) ->
  Inv (on c (fun y => set_dirty y true) (on r0 (fun y => set_dirty y true)
        (map (fun y => if mem (cid y) sub then set_rootf y c else y) w1))).
Proof.
  intros I Hc Hcs Hr0 Hsub. pose proof I as (U & R & G & _). unfold on. rewrite !map_map.
  assert (Msub : forall y, In y w1 -> mem (cid y) sub = true -> rootf y = r0).
  { intros y Hy M. apply existsb_eqb_In in M. rewrite <- (root_of_in w1 y U Hy). now apply Hsub. }
  apply (Inv_tree_step _ reg (fun y => if mem (cid y) sub then c else rootf y)
           (fun y => Nat.eqb (cid y) c || Nat.eqb (cid y) r0) w1 I); cbv beta.
  - intros y. destruct (mem (cid y) sub); cbn [cid set_rootf]; destruct (Nat.eqb (cid y) r0);
    cbn [cid set_rootf set_dirty]; destruct (Nat.eqb (cid y) c); repeat split; reflexivity.
  - intros y Hy. destruct (mem (cid y) sub) eqn:M.
    + (* c exists, and is now its own root *)
      unfold root_of in Hc. destruct (find_comp w1 c) as [cc|] eqn:Fc; [|congruence].
      destruct (find_comp_some _ _ _ Fc) as [Hcc Ecc]. exists cc. now rewrite Ecc, Hcs.
    + (* the root of a component outside sub is outside sub: the only root inside would be r0 *)
      destruct (R y Hy) as (z & Hz & E1 & E2). exists z. split; [exact Hz|].
      destruct (mem (cid z) sub) eqn:Mz; [|split; congruence].
      rewrite <- (Msub z Hz Mz), E2, Mz in Hr0. discriminate.
  - exact G.
  - intros r y Hr Hy _ Dr Ey. apply orb_false_iff in Dr as [N1 N0]. apply Nat.eqb_neq in N0, N1.
    destruct (mem (cid y) sub) eqn:M; [|now split].
    (* y moves from r0's tree to c's, and both roots came out dirty *)
    rewrite (Msub y Hy M) in Ey. destruct Ey; congruence.
Qed.

Lemma add1_in k h r e : In e (add1 k h r) -> e = (k, h) \/ In e r.
Proof. unfold add1. destruct (has r k (hid h)); cbn; intuition. Qed.

Lemma global_ok_add c h : global_ok c -> global_ok (set_reg c (add_handler_reg h (reg c))).
Proof.
  unfold global_ok. cbn [reg set_reg]. intros G e He K. unfold add_handler_reg in He.
  destruct (hnames h) as [|n ns] eqn:N.
  - destruct (is_star (hchan h)) eqn:S.
    + apply add1_in in He as [->|He]; [|now apply G]. cbn.
      unfold is_star in S. destruct (hchan h) as [[| |]|]; try discriminate; reflexivity.
    + apply add1_in in He as [->|He]; [discriminate K|now apply G].
  - revert He. generalize (n :: ns). intros l. induction l as [|m l IH]; cbn [fold_right]; intros He.
    + now apply G.
    + apply add1_in in He as [->|He]; [discriminate K|now apply IH].
Qed.

Lemma remove_in ks h r r' e : remove_handler_reg ks h r = Some r' -> In e r' -> In e r.
Proof.
  revert r. induction ks as [|k ks IH]; intros r H He; cbn in H.
  - now injection H as <-.
  - destruct (has r k h || key_eqb k KGlobal); [|discriminate].
    apply (IH _ H) in He. unfold del1 in He. now apply filter_In in He as [He _].
Qed.

Lemma step_ok w o ds w' : Inv w -> step w o = Ok ds w' -> Forall good ds /\ Inv w'.
Proof.
  intros I H. destruct o as [c h|c h ev|c p|c sub|x e n ch|r]; cbn [step] in H.
  - injection H as <- <-. split; [constructor|].
    apply (reg_change_ok w c (fun x => add_handler_reg h (reg x)) I).
    intros x Hx. apply global_ok_add, I, Hx.
  - destruct (find_comp w c) as [x|] eqn:F; [|discriminate].
    destruct (remove_handler_reg (remove_keys h ev) (hid h) (reg x)) as [r'|] eqn:Rm; [|discriminate].
    injection H as <- <-. split; [constructor|].
    destruct (find_comp_some _ _ _ F) as [Hx _].
    apply (reg_change_ok w c (fun _ => r') I). intros y _ e He.
    apply (remove_in _ _ _ _ e Rm) in He. destruct I as (_ & _ & G & _). exact (G x Hx e He).
  - destruct (negb (Nat.eqb (root_of w c) c) || Nat.eqb (root_of w p) c) eqn:B; [discriminate|].
    apply orb_false_iff in B as [B1 B2]. apply negb_false_iff, Nat.eqb_eq in B1. apply Nat.eqb_neq in B2.
    destruct (find_comp w c) as [x|] eqn:Fx; [|discriminate].
    destruct (find_comp w p) as [pp|] eqn:Fp; [|discriminate].
    injection H as <- <-. split; [constructor|]. now apply (register_ok w c p pp).
  - set (r0 := root_of w c) in *.
    destruct (Nat.eqb r0 c || negb (mem c sub) || mem r0 sub ||
              negb (forallb (fun x => Nat.eqb (root_of w x) r0) sub)) eqn:B; [discriminate|].
    apply orb_false_iff in B as [B B4]. apply orb_false_iff in B as [B B3]. apply orb_false_iff in B as [_ B2].
    apply negb_false_iff in B2, B4. rewrite forallb_forall in B4.
    destruct (flush w r0) as [ds1 w1] eqn:Fl. injection H as <- <-.
    destruct (flush_ok w r0 ds1 w1 I (root_of_idem w c (proj1 I) (proj1 (proj2 I))) Fl) as (Gd & I1 & S).
    split; [exact Gd|]. apply (detach_ok w1 c r0 sub I1); auto.
    + apply S.
    + intros x Hx. rewrite S. apply Nat.eqb_eq. now apply B4.
  - injection H as <- <-. split; [constructor|]. apply set_queue_ok, I.
  - destruct (Nat.eqb_spec (root_of w r) r) as [E|]; [|discriminate].
    destruct (flush w r) as [ds1 w1] eqn:Fl. injection H as <- <-.
    destruct (flush_ok w r ds1 w1 I E Fl) as (Gd & I1 & _). auto.
Qed.

Theorem run_good ops : forall w, Inv w -> Forall good (fst (fst (run w ops))).
Proof.
  induction ops as [|o ops IH]; intros w I; cbn [run]; [constructor|].
  destruct (step w o) as [ds w1|w1|] eqn:S; [|constructor|constructor].
  destruct (step_ok w o ds w1 I S) as (Gd & I1). specialize (IH w1 I1).
  destruct (run w1 ops) as [[ds' w2] st]. cbn [fst] in *. apply Forall_app. auto.
Qed.

Lemma fresh_Inv cs : NoDup (map fst cs) -> Inv (fresh_world cs).
Proof.
  intros N. unfold fresh_world. split; [|split; [|split]].
  - unfold uniq. rewrite map_map. cbn. exact N.
  - intros c Hc. exists c. split; [exact Hc|]. apply in_map_iff in Hc as (x & <- & _). auto.
  - intros c Hc e He. apply in_map_iff in Hc as (x & <- & _). contradiction.
  - intros c Hc _ _ n ch l Hl. apply in_map_iff in Hc as (x & <- & _). discriminate.
Qed.
