(* Proofs for the HTTP framing model (C13).
   The split law (feed_split): while the message is incomplete, feeding a and then b is feeding a ++ b; it is
   proved phase by phase (first line, header section, identity body, chunk loop) and gives run_segmentation
   for reads.  The chunk loop never runs out of the fuel it is given and obeys its defining equation (chunks_eq).
   Well-formed messages (wf_head, wf_body, the grammar of chunk streams) are sequences of self-delimiting elements
   ([delimits]: first line, header section, chunk, last chunk with trailers, sized body): no proper prefix of one
   completes it and the whole of it does, so every segmentation ends in the same state (message_segmentation), and
   the components around the parser fire one event per message (keepalive_segmentation).  header_block_wf: header
   lines joined by CRLF, folded ones included, make a block that meets the framing conditions of wf_hsec. *)
From Coq Require Import List NArith ZArith Bool Lia ZifyBool.
From Circ Require Import Lib.ListFacts Lib.ByteStr Model.HttpFraming.
Import ListNotations.
Open Scope N_scope.

Lemma length_pos {A} (w : list A) : w <> [] -> (0 < length w)%nat.
Proof. destruct w; [contradiction|cbn; lia]. Qed.

Lemma prefix_shorter {A} (t p w : list A) : t = p ++ w -> w <> [] -> (length p < length t)%nat.
Proof. intros -> Hw. apply length_pos in Hw. rewrite app_length. lia. Qed.

Lemma list_eqb_eq a : forall b, list_eqb a b = true <-> a = b.
Proof. exact (str_eqb_eq a). Qed.

Definition nonempty (c : list N) : Prop := c <> [].

Lemma concat_nonempty (q : list (list N)) : Forall nonempty q -> q <> [] -> concat q <> [].
Proof.
  intros [|q0 q' H0 _] Hne; [contradiction|]. cbn [concat]. destruct q0; [contradiction|discriminate].
Qed.

Lemma is_prefix_spec d x : is_prefix d x = true -> x = d ++ skipn (length d) x.
Proof. intros H. apply prefixb_iff in H as [r ->]. now rewrite skipn_app, skipn_all, Nat.sub_diag. Qed.

Lemma is_prefix_refl d r : is_prefix d (d ++ r) = true.
Proof. exact (prefixb_app d r). Qed.

Lemma is_prefix_app d : forall x b, (length d <= length x)%nat -> is_prefix d (x ++ b) = is_prefix d x.
Proof.
  induction d as [|a d IH]; intros x b L; [reflexivity|].
  destruct x as [|c x]; cbn in L; [lia|]. cbn. rewrite IH by lia. reflexivity.
Qed.

Lemma split_on_spec d : forall x l r, split_on d x = Some (l, r) -> x = l ++ d ++ r.
Proof.
  induction x as [|a t IH]; intros l r H.
  - cbn in H. destruct d; [|discriminate]. now injection H as <- <-.
  - cbn [split_on] in H. destruct (is_prefix d (a :: t)) eqn:P.
    + injection H as <- <-. now apply is_prefix_spec.
    + destruct (split_on d t) as [[l' r']|]; [|discriminate]. injection H as <- <-.
      cbn [app]. f_equal. now apply IH.
Qed.

Lemma split_on_length d x l r : split_on d x = Some (l, r) -> (length d <= length x)%nat.
Proof. intros H. rewrite (split_on_spec d x l r H), !app_length. lia. Qed.

Lemma split_on_app d : forall x l r b, split_on d x = Some (l, r) -> split_on d (x ++ b) = Some (l, r ++ b).
Proof.
  induction x as [|a t IH]; intros l r b H.
  - cbn in H. destruct d; [|discriminate]. injection H as <- <-. now destruct b.
  - pose proof (split_on_length d _ l r H) as Len. cbn [split_on app] in H |- *.
    change (a :: t ++ b) with ((a :: t) ++ b). rewrite (is_prefix_app d _ b Len). destruct (is_prefix d (a :: t)).
    + injection H as <- <-. now rewrite (skipn_app_le _ b _ Len).
    + destruct (split_on d t) as [[l' r']|]; [|discriminate]. injection H as <- <-.
      now rewrite (IH l' r' b eq_refl).
Qed.

(* [split_on d (l ++ d) = Some (l, [])] says that the first [d] in [l ++ d] is the final one: [l] is a line
   (d = CRLF) or a block of lines (d = CRLF2) as the parser sees it *)
Lemma delim_not_before d l p w : split_on d (l ++ d) = Some (l, []) -> l ++ d = p ++ w -> w <> [] ->
  split_on d p = None.
Proof.
  intros H E Hw. destruct (split_on d p) as [[l' r']|] eqn:S; [|reflexivity]. exfalso.
  (* a delimiter found in p is found at the same place in p ++ w = l ++ d: p would hold all of l ++ d *)
  rewrite E, (split_on_app d p l' r' w S) in H. injection H as -> _.
  apply split_on_spec in S. pose proof (prefix_shorter _ p w E Hw) as Len. subst p. rewrite !app_length in Len. lia.
Qed.

Section Delim.
Context {S : Type} (P : S -> Prop).

(* [k] and [k'] are functions of the joined buffer (chunk1, the chunk loop, feed).  The bytes e are a
   self-delimiting element for k: no proper prefix of e takes k out of P, and once e is there k' goes on with
   what follows.  A message is a sequence of such elements (delimits_app). *)
Definition delimits (k : list N -> S) (e : list N) (k' : list N -> S) : Prop :=
  (forall p w, e = p ++ w -> w <> [] -> P (k p)) /\ forall r, k (e ++ r) = k' r.

Lemma delimits_app k e k' e' k'' : delimits k e k' -> delimits k' e' k'' -> delimits k (e ++ e') k''.
Proof.
  intros [A1 A2] [B1 B2]. split.
  - (* a proper prefix of e ++ e' ends inside e, or is e and a proper prefix of e' *)
    intros p w E Hw. symmetry in E. apply app_cut in E as [(w' & Hw' & E & _)|(x & -> & E)].
    + exact (A1 p w' E Hw').
    + rewrite A2. exact (B1 x w E Hw).
  - intros r. now rewrite <- app_assoc, A2, B2.
Qed.

Lemma delimits_nil k : delimits k [] k.
Proof. split; [intros p w E Hw; now destruct p, w|reflexivity]. Qed.

(* an element that nothing ends: only its prefixes matter *)
Lemma delimits_open k e : (forall p w, e = p ++ w -> w <> [] -> P (k p)) -> delimits k e (fun r => k (e ++ r)).
Proof. now split. Qed.

(* a line l and its delimiter d, for a function that looks for the first d *)
Lemma delimits_line d (W : list N -> S) (F : list N -> list N -> S) l : (forall p, P (W p)) ->
  split_on d (l ++ d) = Some (l, []) ->
  delimits (fun x => match split_on d x with None => W x | Some (a, r) => F a r end) (l ++ d) (F l).
Proof.
  intros PW H. split.
  - intros p w E Hw. now rewrite (delim_not_before d l p w H E Hw).
  - intros r. now rewrite (split_on_app d _ l [] r H).
Qed.
End Delim.

Lemma chunk1_take_app x d r b : chunk1 x = CTake d r -> chunk1 (x ++ b) = CTake d (r ++ b).
Proof.
  unfold chunk1. destruct (split_on CRLF x) as [[line rest]|] eqn:S; [|discriminate].
  rewrite (split_on_app CRLF x line rest b S).
  destruct (chunk_size line) as [n|]; [|discriminate].
  destruct (n =? 0); [destruct (_ || _); discriminate|].
  destruct (N.of_nat (length rest) <? n + 2) eqn:Lt; [discriminate|].
  intros [= <- <-]. rewrite app_length.
  replace (N.of_nat (length rest + length b) <? n + 2) with false by lia.
  now rewrite firstn_app_le, skipn_app_le by lia.
Qed.

Lemma chunk1_take_shrinks x d r : chunk1 x = CTake d r -> (length r < length x)%nat.
Proof.
  unfold chunk1. destruct (split_on CRLF x) as [[line rest]|] eqn:S; [|discriminate].
  apply split_on_spec in S. subst x.
  destruct (chunk_size line) as [n|]; [|discriminate].
  destruct (n =? 0); [destruct (_ || _); discriminate|].
  destruct (_ <? _); [discriminate|]. intros [= _ <-].
  rewrite !app_length, skipn_length. cbn. lia.
Qed.

Lemma chunk_adv_fuel fl blk : forall f1 f2 body x, (length x < f1)%nat -> (length x < f2)%nat ->
  chunk_adv f1 fl blk body x = chunk_adv f2 fl blk body x.
Proof.
  induction f1 as [|f1 IH]; intros f2 body x L1 L2; [lia|].
  destruct f2 as [|f2]; [lia|]. cbn [chunk_adv].
  destruct (chunk1 x) as [| |d r] eqn:C; try reflexivity.
  apply chunk1_take_shrinks in C. apply IH; lia.
Qed.

Lemma chunk_adv_never_out fl blk : forall f body x, (length x < f)%nat -> chunk_adv f fl blk body x <> POutOfFuel.
Proof.
  induction f as [|f IH]; intros body x L; [lia|]. cbn [chunk_adv].
  destruct (chunk1 x) as [| |d r] eqn:C; try discriminate.
  apply chunk1_take_shrinks in C. apply IH. lia.
Qed.

(* the chunk loop as the parser runs it, with the fuel it is given: [feed (PChunk fl blk body buf) data] is
   [chunks fl blk body (buf ++ data)].  The fuel never runs out, so the loop obeys its defining equation. *)
Definition chunks (fl blk body x : list N) : pstate := chunk_adv (S (length x)) fl blk body x.

Lemma chunks_eq fl blk body x :
  chunks fl blk body x = match chunk1 x with
                         | CWait => PChunk fl blk body x
                         | CDone => PDone fl blk body
                         | CTake d r => chunks fl blk (body ++ d) r
                         end.
Proof.
  unfold chunks at 1. cbn [chunk_adv]. destruct (chunk1 x) as [| |d r] eqn:C; try reflexivity.
  apply chunk1_take_shrinks in C. apply chunk_adv_fuel; lia.
Qed.

(* states in which the parser is still waiting for bytes of the current message and will not raise *)
Definition splittable (s : pstate) : Prop :=
  match s with
  | PFirst _ | PHead _ _ _ | PChunk _ _ _ _ => True
  | PBody _ _ _ (Some _) _ => True
  | _ => False
  end.

(* _parse_body on r, identity coding, once it is past the "no data and no Content-Length" test *)
Definition body_take (fl blk : list N) (clen : option Z) (z : Z) (body r : list N) : pstate :=
  if (z - Z.of_nat (length r) <=? 0)%Z then PDone fl blk (body ++ r)
  else PBody fl blk clen (Some (z - Z.of_nat (length r))%Z) (body ++ r).

Section Laws.
Variable kind_resp : bool.
Variable parse_fl : list N -> option bool.
Variable parse_hd : list N -> option (option Z * bool).

Notation feed := (feed kind_resp parse_fl parse_hd).
Notation heads := (heads kind_resp parse_hd).
Notation body_step := (body_step kind_resp).
Notation run := (run kind_resp parse_fl parse_hd).

(* The split law, phase by phase: each phase is a function k of the joined buffer with
   feed (k x) b = k (x ++ b) as long as k x still waits. *)

Lemma chunks_law fl blk b : forall x body, splittable (chunks fl blk body x) ->
  feed (chunks fl blk body x) b = chunks fl blk body (x ++ b).
Proof.
  induction x as [x IH] using (induction_ltof1 _ (@length N)). intros body.
  rewrite (chunks_eq fl blk body x). destruct (chunk1 x) as [| |d r] eqn:C.
  - reflexivity.
  - contradiction.
  - rewrite (chunks_eq fl blk body (x ++ b)), (chunk1_take_app x d r b C).
    apply IH. exact (chunk1_take_shrinks x d r C).
Qed.

Lemma body_step_data fl blk clen z body r : r <> [] \/ clen <> None ->
  body_step fl blk clen (Some z) body r = body_take fl blk clen z body r.
Proof. destruct r, clen; intros [H|H]; try reflexivity; contradiction. Qed.

Lemma body_take_law fl blk clen z body a b : b <> [] -> splittable (body_take fl blk clen z body a) ->
  feed (body_take fl blk clen z body a) b = body_take fl blk clen z body (a ++ b).
Proof.
  intros Hb. unfold body_take at 1 2. destruct (_ <=? 0)%Z; [contradiction|]. intros _.
  cbn [HttpFraming.feed]. rewrite body_step_data by now left. unfold body_take.
  now rewrite app_length, Nat2Z.inj_add, Z.sub_add_distr, app_assoc.
Qed.

Lemma body_step_law fl blk clen rest body a b : b <> [] ->
  splittable (body_step fl blk clen rest body a) ->
  feed (body_step fl blk clen rest body a) b = body_step fl blk clen rest body (a ++ b).
Proof.
  intros Hb. destruct rest as [z|]; [|destruct a, clen, kind_resp; contradiction].
  destruct a as [|x a]; [destruct clen as [n|]|].
  - rewrite !body_step_data by (right; discriminate). now apply body_take_law.
  - (* no data, no Content-Length: the state is unchanged (response) or complete (request) *)
    cbn. destruct kind_resp; [reflexivity|contradiction].
  - rewrite !body_step_data by (left; discriminate). now apply body_take_law.
Qed.

(* state right after the header section, r = the bytes that followed it in the same buffer; hl = the section was
   the empty one (just CRLF, no header field): only then does the parser look at the 204 flag *)
Definition enter (L blk : list N) (i204 hl : bool) (clen : option Z) (chunked : bool) (r : list N) : pstate :=
  if hl && (kind_resp && i204) && (match r with [] => true | _ => false end) then PDone L [] []
  else match clen with
       | Some n => body_step L blk (Some n) (Some n) [] r
       | None => if chunked then chunk_adv (S (length r)) L blk [] r
                 else body_step L blk None (Some maxsize) [] r
       end.

Lemma enter_law L blk i hl clen ch r b : b <> [] -> splittable (enter L blk i hl clen ch r) ->
  feed (enter L blk i hl clen ch r) b = enter L blk i hl clen ch (r ++ b).
Proof.
  intros Hb. unfold enter.
  replace (match r ++ b with [] => true | _ => false end) with false by (destruct r, b; easy).
  rewrite andb_false_r. destruct (_ && _ && _); [contradiction|].
  destruct clen as [n|]; [|destruct ch]; auto using body_step_law. apply chunks_law.
Qed.

Lemma heads_enter fl i x : heads fl i x =
  if is_prefix CRLF x then enter fl [] i true None false (skipn 2 x)
  else match split_on CRLF2 x with
       | None => PHead fl i x
       | Some (blk, r) => match parse_hd blk with
                          | None => PErr 1
                          | Some (clen, ch) => enter fl blk i false clen ch r
                          end
       end.
Proof.
  unfold HttpFraming.heads, enter. destruct (is_prefix CRLF x); [reflexivity|].
  destruct (split_on CRLF2 x) as [[blk r]|]; [|reflexivity].
  now destruct (parse_hd blk) as [[[n|] [|]]|].
Qed.

Lemma heads_law fl i x b : b <> [] -> splittable (heads fl i x) ->
  feed (heads fl i x) b = heads fl i (x ++ b).
Proof.
  intros Hb. rewrite (heads_enter fl i x). destruct (is_prefix CRLF x) eqn:E.
  - pose proof (prefixb_length CRLF x E) as Len.
    rewrite heads_enter, (is_prefix_app CRLF x b Len), E, (skipn_app_le x b 2 Len). now apply enter_law.
  - destruct (split_on CRLF2 x) as [[blk r]|] eqn:Sx; [|reflexivity].
    (* x holds a CRLF CRLF, so its first two bytes are there: more bytes cannot make it start with CRLF *)
    rewrite heads_enter, (split_on_app CRLF2 x blk r b Sx), is_prefix_app, E
      by (apply split_on_length in Sx; cbn in *; lia).
    destruct (parse_hd blk) as [[clen ch]|]; [now apply enter_law|contradiction].
Qed.

Theorem feed_split s a b : b <> [] -> splittable (feed s a) -> feed (feed s a) b = feed s (a ++ b).
Proof.
  intros Hb. destruct s as [buf|fl i buf|fl blk clen rest body|fl blk body buf|fl blk body|e| |];
    cbn [HttpFraming.feed]; try contradiction; rewrite ?app_assoc.
  - destruct (split_on CRLF (buf ++ a)) as [[l r]|] eqn:Sx; [|reflexivity].
    rewrite (split_on_app CRLF _ l r b Sx). destruct (parse_fl l); [now apply heads_law|contradiction].
  - now apply heads_law.
  - now apply body_step_law.
  - apply chunks_law.
Qed.

Theorem run_segmentation : forall cs s, cs <> [] -> Forall nonempty cs ->
  (forall p q, cs = p ++ q -> p <> [] -> q <> [] -> splittable (feed s (concat p))) ->
  run s cs = feed s (concat cs).
Proof.
  (* by the last read c: the reads before it are a proper prefix, after which the parser still waits *)
  induction cs as [|c cs IH] using rev_ind; intros s Hne Hall Hpre; [contradiction|].
  apply Forall_app in Hall as [Hcs Hc]. apply Forall_inv in Hc.
  unfold HttpFraming.run. rewrite fold_left_app, concat_app. cbn [fold_left concat]. rewrite app_nil_r.
  destruct cs as [|c0 cs0]; [reflexivity|]. fold (run s (c0 :: cs0)).
  rewrite IH; [|discriminate|exact Hcs|].
  - apply feed_split; [exact Hc|]. apply (Hpre _ [c] eq_refl); discriminate.
  - intros p q E Hp Hq. apply (Hpre p (q ++ [c])); [now rewrite E, app_assoc|exact Hp|now destruct q].
Qed.

End Laws.

(* the parser is waiting for more bytes of the current message, and so are the components around it: unlike
   [splittable] this leaves out PBody _ _ None (Some _) _ (no Content-Length, not chunked), where srv_emit fires *)
Definition waiting (s : pstate) : Prop :=
  match s with
  | PFirst _ | PHead _ _ _ | PChunk _ _ _ _ => True
  | PBody _ _ (Some _) (Some _) _ => True
  | _ => False
  end.

Lemma waiting_splittable s : waiting s -> splittable s.
Proof. destruct s as [| | ? ? [?|] [?|] ?| | | | |]; cbn; auto. Qed.

Record chunk := { c_line : list N; c_data : list N }.

(* size line (hex size, optional extensions) without CRLF inside, announcing exactly the data that follow *)
Definition wf_chunk (c : chunk) : Prop :=
  split_on CRLF (c_line c ++ CRLF) = Some (c_line c, []) /\
  chunk_size (c_line c) = Some (N.of_nat (length (c_data c))) /\
  c_data c <> [].
Definition chunk_bytes (c : chunk) : list N := c_line c ++ CRLF ++ c_data c ++ CRLF.

(* last chunk line zl (size 0) and the trailer section T: either just CRLF, or trailer fields ended by an
   empty line (T's first CRLFCRLF is its end, and T does not start with CRLF) *)
Definition wf_last (zl T : list N) : Prop :=
  split_on CRLF (zl ++ CRLF) = Some (zl, []) /\
  chunk_size zl = Some 0 /\
  (T = CRLF \/ (is_prefix CRLF T = false /\ exists tr, T = tr ++ CRLF2 /\ split_on CRLF2 T = Some (tr, []))).

Definition chunked_bytes (cks : list chunk) (zl T : list N) : list N :=
  concat (map chunk_bytes cks) ++ zl ++ CRLF ++ T.
Definition chunked_body (cks : list chunk) : list N := concat (map c_data cks).

(* a section closed by an empty line, as the trailer section of wf_last and the header section of wf_hsec
   below are: in no proper prefix of it does the parser see its end *)
Definition section_end (T : list N) : Prop :=
  T = CRLF \/ (is_prefix CRLF T = false /\ exists tr, T = tr ++ CRLF2 /\ split_on CRLF2 T = Some (tr, [])).

Lemma section_prefix T x w : section_end T -> T = x ++ w -> w <> [] ->
  is_prefix CRLF x = false /\ split_on CRLF2 x = None.
Proof.
  intros [->|(H0 & tr & E & HS)] Ex Hw.
  - pose proof (prefix_shorter _ x w Ex Hw) as Len. cbn in Len. split.
    + destruct (is_prefix CRLF x) eqn:P; [apply prefixb_length in P; cbn in P; lia|reflexivity].
    + destruct (split_on CRLF2 x) as [[l r]|] eqn:S; [apply split_on_length in S; cbn in S; lia|reflexivity].
  - split.
    + destruct (is_prefix CRLF x) eqn:P; [|reflexivity].
      rewrite Ex, is_prefix_app, P in H0 by now apply prefixb_length. discriminate.
    + rewrite E in HS. apply (delim_not_before CRLF2 tr x w HS); [now rewrite <- E|exact Hw].
Qed.

(* a chunk, and the last chunk with its trailer section, for one attempt of the chunk loop *)
Lemma delimits_chunk1 c : wf_chunk c -> delimits (fun r => r = CWait) chunk1 (chunk_bytes c) (CTake (c_data c)).
Proof.
  intros (Hl & Hs & Hd). unfold chunk_bytes. rewrite app_assoc.
  eapply delimits_app; [exact (delimits_line _ CRLF (fun _ => CWait) _ (c_line c) (fun _ => eq_refl) Hl)|].
  (* after the size line: the data and their CRLF *)
  cbv beta. rewrite Hs. apply length_pos in Hd.
  replace (N.of_nat (length (c_data c)) =? 0) with false by lia. rewrite Nat2N.id. split.
  - intros p w E Hw. pose proof (prefix_shorter _ p w E Hw) as Len. rewrite app_length in Len. cbn in Len.
    now replace (_ <? _) with true by lia.
  - intros r. replace (_ <? _) with false by (rewrite !app_length; cbn; lia).
    rewrite <- app_assoc, firstn_app, Nat.sub_diag, firstn_all, skipn_app, skipn_all2 by lia.
    replace (length (c_data c) + 2 - length (c_data c))%nat with 2%nat by lia.
    cbn. now rewrite app_nil_r.
Qed.

Lemma delimits_last1 zl T : wf_last zl T -> delimits (fun r => r = CWait) chunk1 (zl ++ CRLF ++ T) (fun _ => CDone).
Proof.
  intros (Hl & Hs & HT). rewrite app_assoc.
  eapply delimits_app; [exact (delimits_line _ CRLF (fun _ => CWait) _ zl (fun _ => eq_refl) Hl)|].
  cbv beta. rewrite Hs. split.
  - intros x w E Hw. now destruct (section_prefix T x w HT E Hw) as [-> ->].
  - intros r. destruct HT as [->|(_ & tr & _ & S)]; [reflexivity|].
    cbn [N.eqb]. now rewrite (split_on_app CRLF2 T tr [] r S), orb_true_r.
Qed.

Lemma chunked_bytes_cons c cks zl T : chunked_bytes (c :: cks) zl T = chunk_bytes c ++ chunked_bytes cks zl T.
Proof. unfold chunked_bytes. cbn [map concat]. now rewrite <- app_assoc. Qed.

Section Chunks.
Variable P : pstate -> Prop.
Variables fl blk : list N.
Hypothesis P_chunk : forall body x, P (PChunk fl blk body x).

(* a whole chunked body for the chunk loop: the chunks one after the other, then the last chunk *)
Lemma delimits_chunked cks zl T : Forall wf_chunk cks -> wf_last zl T -> forall body,
  delimits P (chunks fl blk body) (chunked_bytes cks zl T) (fun _ => PDone fl blk (body ++ chunked_body cks)).
Proof.
  intros Hc Hl. induction Hc as [|c cks Hc _ IH]; intros body.
  - unfold chunked_body. cbn [map concat]. rewrite app_nil_r. destruct (delimits_last1 zl T Hl) as [A B]. split.
    + intros p w E Hw. rewrite chunks_eq, (A p w E Hw). apply P_chunk.
    + intros r. now rewrite chunks_eq, B.
  - rewrite chunked_bytes_cons. unfold chunked_body. cbn [map concat]. rewrite app_assoc.
    apply delimits_app with (2 := IH _). destruct (delimits_chunk1 c Hc) as [A B]. split.
    + intros p w E Hw. rewrite chunks_eq, (A p w E Hw). apply P_chunk.
    + intros r. now rewrite chunks_eq, B.
Qed.
End Chunks.

Lemma chunked_prefix fl blk cks zl T : Forall wf_chunk cks -> wf_last zl T ->
  forall f body0 p w, chunked_bytes cks zl T = p ++ w -> w <> [] -> (length p < f)%nat ->
  exists body' x', chunk_adv f fl blk body0 p = PChunk fl blk body' x'.
Proof.
  intros Hc Hl f body0 p w E Hw Lf. rewrite (chunk_adv_fuel fl blk f (S (length p))) by lia.
  destruct (delimits_chunked (fun s => exists body' x', s = PChunk fl blk body' x') fl blk)
    with (3 := Hl) (2 := Hc) (body := body0) as [D _]; eauto.
Qed.

Section WF.
Variable kind_resp : bool.
Variable parse_fl : list N -> option bool.
Variable parse_hd : list N -> option (option Z * bool).

Notation feed := (feed kind_resp parse_fl parse_hd).
Notation heads := (heads kind_resp parse_hd).
Notation body_step := (body_step kind_resp).
Notation run := (run kind_resp parse_fl parse_hd).
Notation enter := (enter kind_resp).

(* the header section HS as sent (everything between the first line's CRLF and the body), the block blk
   handed to the header parser, the framing information it yields, and hl = "no header field at all":
   - fields: HS = blk CRLF CRLF, whose only CRLFCRLF is the final one and which does not start with CRLF
     (blk may contain any line structure, in particular obs-fold continuation lines: see header_block_wf);
   - empty : HS = CRLF *)
Inductive wf_hsec (HS blk : list N) (clen : option Z) (chunked hl : bool) : Prop :=
| hs_fields : HS = blk ++ CRLF2 -> split_on CRLF2 HS = Some (blk, []) -> is_prefix CRLF HS = false ->
              parse_hd blk = Some (clen, chunked) -> hl = false -> wf_hsec HS blk clen chunked hl
| hs_empty : HS = CRLF -> blk = [] -> clen = None -> chunked = false -> hl = true ->
             wf_hsec HS blk clen chunked hl.

Record wf_head (L HS blk : list N) (i204 : bool) (clen : option Z) (chunked hl : bool) : Prop := {
  wf_L : split_on CRLF (L ++ CRLF) = Some (L, []);
  wf_fl : parse_fl L = Some i204;
  wf_HS : wf_hsec HS blk clen chunked hl }.

(* the body B as sent and the decoded body, for messages that are complete by themselves *)
Definition wf_body (i204 hl : bool) (clen : option Z) (chunked : bool) (B body : list N) : Prop :=
  match clen with
  | Some n => Z.of_nat (length B) = n /\ body = B
  | None => if chunked
            then exists cks zl T, Forall wf_chunk cks /\ wf_last zl T /\
                                  B = chunked_bytes cks zl T /\ body = chunked_body cks
            else B = [] /\ body = [] /\
                 (kind_resp = false \/ (hl = true /\ i204 = true))   (* request without body; 204 without fields *)
  end.

Definition msg_bytes (L HS B : list N) : list N := L ++ CRLF ++ HS ++ B.

Lemma segmentation_nonempty (cs : list (list N)) L HS B : concat cs = msg_bytes L HS B -> cs <> [].
Proof. intros E ->. unfold msg_bytes in E. now destruct L. Qed.

(* every segmentation of a delimited element passes through P and ends where the next phase starts:
   run_segmentation with the condition on the proper prefixes of the byte string, not of the reads *)
Lemma delimits_runs (P : pstate -> Prop) s e k' cs : (forall s', P s' -> splittable s') ->
  delimits P (feed s) e k' -> Forall nonempty cs -> cs <> [] -> concat cs = e ->
  run s cs = k' [] /\ (forall p q, cs = p ++ q -> p <> [] -> q <> [] -> P (run s p)).
Proof.
  intros PS [D1 D2] Hall Hne <-.
  assert (Runs : forall p q, cs = p ++ q -> p <> [] -> run s p = feed s (concat p)).
  { intros p q -> Hp. apply Forall_app in Hall as [Hp' Hq']. apply run_segmentation; [exact Hp|exact Hp'|].
    intros p1 p2 -> _ Hp2. apply Forall_app in Hp' as [_ H2]. apply PS.
    apply (D1 _ (concat (p2 ++ q))); [now rewrite <- app_assoc, concat_app|].
    apply concat_nonempty; [now apply Forall_app|now destruct p2]. }
  split.
  - now rewrite (Runs cs [] (eq_sym (app_nil_r cs)) Hne), <- D2, app_nil_r.
  - intros p q -> Hp Hq. rewrite (Runs p q eq_refl Hp). apply (D1 _ (concat q)); [apply concat_app|].
    apply Forall_app in Hall. now apply concat_nonempty.
Qed.

Section Head.
Variables (L HS blk : list N) (i204 : bool) (clen : option Z) (chunked hl : bool).
Hypothesis WH : wf_head L HS blk i204 clen chunked hl.

Lemma HS_section_end : section_end HS.
Proof. destruct (wf_HS _ _ _ _ _ _ _ WH) as [E S P _ _|E _ _ _ _]; [right; eauto|now left]. Qed.

(* the first line, then the header section; the body is whatever [enter] is delimited by *)
Lemma delimits_message (P : pstate -> Prop) B k' : (forall b, P (PFirst b)) -> (forall fl i b, P (PHead fl i b)) ->
  delimits P (enter L blk i204 hl clen chunked) B k' -> delimits P (feed (PFirst [])) (msg_bytes L HS B) k'.
Proof.
  intros P1 P2 D. destruct WH as [HL Hfl HHS]. unfold msg_bytes. rewrite app_assoc.
  eapply delimits_app; [exact (delimits_line P CRLF PFirst _ L P1 HL)|]. cbv beta. rewrite Hfl.
  apply delimits_app with (2 := D). split.
  - intros x w E Hw. rewrite heads_enter. destruct (section_prefix HS x w HS_section_end E Hw) as [-> ->]. apply P2.
  - intros r. rewrite heads_enter. destruct HHS as [_ S Pf Hd ->| -> -> -> -> ->]; [|reflexivity].
    rewrite is_prefix_app, Pf by (apply split_on_length in S; cbn in *; lia).
    now rewrite (split_on_app CRLF2 HS blk [] r S), Hd.
Qed.

Lemma msg_prefix_P (P : pstate -> Prop) B :
  (forall b, P (PFirst b)) -> (forall fl i b, P (PHead fl i b)) ->
  (forall b1 w, B = b1 ++ w -> w <> [] -> P (enter L blk i204 hl clen chunked b1)) ->
  forall p w, w <> [] -> msg_bytes L HS B = p ++ w -> P (feed (PFirst []) p).
Proof.
  intros P1 P2 Hpre p w Hw E. exact (proj1 (delimits_message P B _ P1 P2 (delimits_open P _ B Hpre)) p w E Hw).
Qed.

Lemma hl_cases : hl = false \/ (hl = true /\ clen = None /\ chunked = false /\ blk = []).
Proof. destruct (wf_HS _ _ _ _ _ _ _ WH) as [_ _ _ _ E|_ E1 E2 E3 E4]; auto. Qed.

(* the body of a message that is complete by itself: sized, chunked, or none *)
Lemma delimits_body B body : wf_body i204 hl clen chunked B body ->
  exists k', delimits waiting (enter L blk i204 hl clen chunked) B k' /\ k' [] = PDone L blk body.
Proof.
  unfold wf_body, HttpFramingP.enter. intros WB. pose proof hl_cases as HC.
  destruct clen as [n|]; [|destruct chunked].
  - destruct HC as [->|(_ & [=] & _)]. destruct WB as [Hn ->]. exists (fun r => PDone L blk (B ++ r)).
    split; [split|now rewrite app_nil_r].
    + intros b1 w -> Hw. rewrite app_length in Hn. apply length_pos in Hw.
      rewrite body_step_data by (right; discriminate). unfold body_take. now replace (_ <=? 0)%Z with false by lia.
    + intros r. rewrite body_step_data by (right; discriminate). unfold body_take. rewrite app_length.
      now replace (_ <=? 0)%Z with true by lia.
  - destruct HC as [->|(_ & _ & [=] & _)]. destruct WB as (cks & zl & T & Hc & Hl & -> & ->).
    exists (fun _ => PDone L blk ([] ++ chunked_body cks)). split; [|reflexivity].
    exact (delimits_chunked waiting L blk (fun _ _ => I) cks zl T Hc Hl []).
  - destruct WB as (-> & -> & W). eexists. split; [apply delimits_nil|].
    destruct W as [->|[Hh ->]].
    + (* a request: _parse_body completes it *) cbn. now destruct hl.
    + (* no fields, 204: complete as a response by the 204 test, as a request by _parse_body *)
      destruct HC as [HC|(_ & _ & _ & ->)]; [congruence|]. rewrite Hh. cbn. now destruct kind_resp.
Qed.

Theorem message_segmentation B body : wf_body i204 hl clen chunked B body ->
  forall cs, Forall nonempty cs -> concat cs = msg_bytes L HS B ->
  run (PFirst []) cs = PDone L blk body /\
  (forall p q, cs = p ++ q -> p <> [] -> q <> [] -> waiting (run (PFirst []) p)).
Proof.
  intros WB cs Hall E. destruct (delimits_body B body WB) as (k' & D & <-).
  apply (delimits_runs waiting _ (msg_bytes L HS B) k' cs waiting_splittable);
    [|exact Hall|exact (segmentation_nonempty cs L HS B E)|exact E].
  exact (delimits_message waiting B k' (fun _ => I) (fun _ _ _ => I) D).
Qed.

(* messages delimited by the end of the connection: responses without Content-Length that are not
   chunked (any status, 204/304 included; header section with fields or empty). They never complete by
   themselves: the state after the bytes received so far is the same for every segmentation *)
Definition until_close_state (B : list N) : pstate :=
  PBody L blk None (Some (maxsize - Z.of_nat (length B))%Z) B.

Lemma enter_until_close r : kind_resp = true -> clen = None -> chunked = false -> hl && i204 = false ->
  (Z.of_nat (length r) < maxsize)%Z ->
  enter L blk i204 hl clen chunked r = until_close_state r.
Proof.
  intros K -> -> Hh Lr. unfold HttpFramingP.enter, until_close_state. rewrite K, andb_true_l, Hh.
  destruct r as [|x r]; [reflexivity|].
  rewrite body_step_data by (left; discriminate). unfold body_take.
  now replace (_ <=? 0)%Z with false by lia.
Qed.

Theorem until_close_segmentation B : kind_resp = true -> clen = None -> chunked = false -> hl && i204 = false ->
  (Z.of_nat (length B) < maxsize)%Z ->
  forall cs, Forall nonempty cs -> concat cs = msg_bytes L HS B ->
  run (PFirst []) cs = until_close_state B /\
  (forall p q, cs = p ++ q -> p <> [] -> q <> [] -> splittable (run (PFirst []) p)).
Proof.
  intros K Ec Ech Hh LB cs Hall E. rewrite <- (enter_until_close B K Ec Ech Hh LB), <- (app_nil_r B) at 1.
  apply (delimits_runs splittable _ (msg_bytes L HS B) (fun r => enter L blk i204 hl clen chunked (B ++ r)) cs
           (fun s H => H)); [|exact Hall|exact (segmentation_nonempty cs L HS B E)|exact E].
  (* the body is never complete: every prefix of it leaves the parser in the until-close state *)
  apply (delimits_message splittable B _ (fun _ => I) (fun _ _ _ => I)), delimits_open.
  intros b1 w -> _. rewrite enter_until_close; [exact I|assumption..|]. rewrite app_length in LB. lia.
Qed.
End Head.
End WF.

(* header blocks made of lines: obs-fold continuation lines are just lines that start with SP / HT *)
Definition clean_line (l : list N) : Prop := l <> [] /\ Forall (fun c => c <> CR /\ c <> LF) l.
Fixpoint join_lines (ls : list (list N)) : list N :=
  match ls with
  | [] => []
  | [l] => l
  | l :: r => l ++ CRLF ++ join_lines r
  end.

Lemma split_on_cons d a t : is_prefix d (a :: t) = false ->
  split_on d (a :: t) = match split_on d t with Some (l, r) => Some (a :: l, r) | None => None end.
Proof. intros H. cbn [split_on]. now rewrite H. Qed.

Lemma not_cr_prefix c t d : c <> CR -> is_prefix (CR :: d) (c :: t) = false.
Proof. intros H. cbn [is_prefix]. apply not_eq_sym, N.eqb_neq in H. now rewrite H. Qed.

Lemma split2_clean_app l x : Forall (fun c => c <> CR /\ c <> LF) l ->
  split_on CRLF2 (l ++ x) = match split_on CRLF2 x with Some (a, r) => Some (l ++ a, r) | None => None end.
Proof.
  induction 1 as [|c l [Hc _] _ IH]; cbn [app].
  - now destruct (split_on CRLF2 x) as [[a r]|].
  - rewrite split_on_cons, IH by exact (not_cr_prefix c _ _ Hc). now destruct (split_on CRLF2 x) as [[a r]|].
Qed.

Lemma split2_crlf_line c y : c <> CR ->
  split_on CRLF2 (CRLF ++ c :: y) =
  match split_on CRLF2 (c :: y) with Some (a, r) => Some (CRLF ++ a, r) | None => None end.
Proof.
  intros H. cbn [CRLF app]. rewrite split_on_cons by exact (not_cr_prefix c y [LF] H).
  rewrite split_on_cons by reflexivity. now destruct (split_on CRLF2 (c :: y)) as [[a r]|].
Qed.

Lemma join_lines_head ls : ls <> [] -> Forall clean_line ls -> exists c t, join_lines ls = c :: t /\ c <> CR.
Proof.
  intros Hne Hall. destruct Hall as [|l r [Hl Hc] _]; [contradiction|].
  destruct Hc as [|c l' [A _] _]; [contradiction|]. destruct r; cbn [join_lines app]; eauto.
Qed.

(* the premises of hs_fields on HS = join_lines ls ++ CRLF2 *)
Theorem header_block_wf ls : ls <> [] -> Forall clean_line ls ->
  split_on CRLF2 (join_lines ls ++ CRLF2) = Some (join_lines ls, []) /\
  is_prefix CRLF (join_lines ls ++ CRLF2) = false.
Proof.
  intros Hne Hall. split.
  - induction Hall as [|l r [_ Hc] Hr IH]; [contradiction|]. destruct r as [|l2 r].
    + cbn [join_lines]. rewrite (split2_clean_app l CRLF2 Hc). cbn. now rewrite app_nil_r.
    + change (join_lines (l :: l2 :: r)) with (l ++ CRLF ++ join_lines (l2 :: r)).
      rewrite <- !app_assoc, (split2_clean_app l _ Hc).
      destruct (join_lines_head (l2 :: r)) as (c & t & E & A); [discriminate|exact Hr|].
      rewrite E in *. cbn [app] in IH |- *. rewrite (split2_crlf_line c _ A), IH by discriminate. reflexivity.
  - destruct (join_lines_head ls Hne Hall) as (c & t & -> & A). exact (not_cr_prefix c _ [LF] A).
Qed.

Record message := { m_L : list N; m_HS : list N; m_blk : list N; m_B : list N; m_body : list N }.

Section Conn.
Variable kind_resp : bool.
Variable parse_fl : list N -> option bool.
Variable parse_hd : list N -> option (option Z * bool).
Variable emit : pstate -> option (list event).

Notation feed := (feed kind_resp parse_fl parse_hd).
Notation run := (run kind_resp parse_fl parse_hd).
Notation conn_run := (conn_run kind_resp parse_fl parse_hd emit).
Notation conn_read := (conn_read kind_resp parse_fl parse_hd emit).

Lemma conn_run_app a : forall s b,
  conn_run s (a ++ b) = let '(s1, e1) := conn_run s a in let '(s2, e2) := conn_run s1 b in (s2, e1 ++ e2).
Proof.
  induction a as [|d a IH]; intros s b.
  - cbn. destruct (conn_run s b). reflexivity.
  - cbn [app HttpFraming.conn_run]. destruct (conn_read s d) as [s1 e1]. rewrite IH.
    destruct (conn_run s1 a) as [s2 e2]. destruct (conn_run s2 b) as [s3 e3]. now rewrite app_assoc.
Qed.

Lemma conn_run_quiet (Q : pstate -> Prop) : (forall s, Q s -> emit s = None /\ s <> PCrash) ->
  forall cs s, (forall p q, cs = p ++ q -> p <> [] -> Q (run s p)) -> conn_run s cs = (run s cs, []).
Proof.
  intros HQ. induction cs as [|c cs IH]; intros s Hq; [reflexivity|].
  cbn [HttpFraming.conn_run]. unfold HttpFraming.conn_read.
  destruct (HQ (feed s c)) as [E1 E2]. { apply (Hq [c] cs eq_refl). discriminate. }
  rewrite E1. rewrite (IH (feed s c)).
  - cbn. destruct (feed s c); try reflexivity. contradiction.
  - intros p q E Hp. apply (Hq (c :: p) q); [now rewrite E|discriminate].
Qed.

Hypothesis emit_wait : forall s, waiting s -> emit s = None.
Hypothesis emit_done : forall fl blk body, emit (PDone fl blk body) = Some [EMsg fl blk body].

Lemma conn_run_single cs s fl blk body : cs <> [] ->
  (forall p q, cs = p ++ q -> p <> [] -> q <> [] -> waiting (run s p)) ->
  run s cs = PDone fl blk body ->
  conn_run s cs = (PFirst [], [EMsg fl blk body]).
Proof.
  intros Hne Hw Hd. destruct (exists_last Hne) as (p & c & ->).
  rewrite conn_run_app, (conn_run_quiet waiting).
  - unfold HttpFraming.run in *. rewrite fold_left_app in Hd. cbn in Hd |- *.
    unfold HttpFraming.conn_read. now rewrite Hd, emit_done.
  - intros s' W. split; [now apply emit_wait|now intros ->].
  - intros p1 q -> Hp1. apply (Hw p1 (q ++ [c])); [apply eq_sym, app_assoc|exact Hp1|now destruct q].
Qed.

Definition wf_message (m : message) : Prop :=
  exists i hl clen ch, wf_head parse_fl parse_hd (m_L m) (m_HS m) (m_blk m) i clen ch hl /\
                       wf_body kind_resp i hl clen ch (m_B m) (m_body m).
Definition message_bytes (m : message) : list N := msg_bytes (m_L m) (m_HS m) (m_B m).
Definition message_event (m : message) : event := EMsg (m_L m) (m_blk m) (m_body m).

Theorem keepalive_segmentation : forall ms css, Forall wf_message ms ->
  Forall2 (fun m cs => Forall nonempty cs /\ concat cs = message_bytes m) ms css ->
  conn_run (PFirst []) (concat css) = (PFirst [], map message_event ms).
Proof.
  intros ms css Hwf H2. induction H2 as [|m cs ms css [Hne Hc] H2 IH]; [reflexivity|].
  destruct (Forall_inv Hwf) as (i & hl & clen & ch & WH & WB).
  destruct (message_segmentation kind_resp parse_fl parse_hd _ _ _ _ _ _ _ WH _ _ WB cs Hne Hc) as [Hd Hw].
  cbn [concat map]. rewrite conn_run_app, (conn_run_single cs _ _ _ _ (segmentation_nonempty cs _ _ _ Hc) Hw Hd).
  now rewrite (IH (Forall_inv_tail Hwf)).
Qed.
End Conn.

Lemma cli_emit_splittable s : splittable s -> cli_emit s = None /\ s <> PCrash.
Proof. now destruct s as [| | ? ? ? [?|] ?| | | | |]. Qed.
Lemma cli_emit_wait s : waiting s -> cli_emit s = None.
Proof. intros W. now apply cli_emit_splittable, waiting_splittable. Qed.
Lemma srv_emit_wait s : waiting s -> srv_emit s = None.
Proof. now destruct s as [| | ? ? [?|] [?|] ?| | | | |]. Qed.

(* example data for the non-vacuity Examples of Props/C13.v *)
Definition ex_L : list N := [80;79;83;84;32;47;32;72;84;84;80;47;49;46;49].    (* POST / HTTP/1.1 *)
Definition ex_fl (l : list N) : option bool := if list_eqb l ex_L then Some false else None.
(* "Host: x" , "X-F: a" , " b" (a continuation line), "TE: c" *)
Definition ex_lines : list (list N) := [[72;111;115;116;58;32;120]; [88;45;70;58;32;97]; [32;98]; [84;69;58;32;99]].
Definition ex_H : list N := join_lines ex_lines.
Definition ex_hd (l : list N) : option (option Z * bool) := if list_eqb l ex_H then Some (None, true) else None.
Definition ex_cks : list chunk := [ {| c_line := [51;59;120]; c_data := [97;13;10] |};    (* "3;x" "a CR LF" *)
                                    {| c_line := [48;49];     c_data := [98] |} ].          (* "01" "b" *)
Definition ex_B : list N := chunked_bytes ex_cks [48] [84;58;118;13;10;13;10].             (* "0" "T:v CRLF CRLF" *)
