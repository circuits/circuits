(* Proofs about Model/HttpResponse.v (property C15).  The independent client is run over the writer's
   output piece by piece: status line, header block (one line at a time), then the body in the framing
   that Connection, Transfer-Encoding and Content-Length announce, which is the framing the writer
   decided on; [roundtrip] puts the pieces together. *)
From Coq Require Import String List NArith Bool Lia ZifyBool.
From Circ Require Import Lib.ByteStr Model.HttpResponse.
Import ListNotations.
Open Scope N_scope.

Section Digits.
Variable b : N.
Hypothesis Hb : 2 <= b.

Definition stepd (a d : N) := a * b + d.

Lemma to_digits_S : forall f n acc,
  to_digits b (S f) n acc =
  if n / b =? 0 then (n mod b) :: acc else to_digits b f (n / b) ((n mod b) :: acc).
Proof. reflexivity. Qed.

Lemma to_digits_val : forall f n acc,
  n < 2 ^ N.of_nat f ->
  fold_left stepd (to_digits b (S f) n acc) 0 = fold_left stepd acc n.
Proof.
  induction f as [|f IH]; intros n acc Hn.
  - simpl in Hn. assert (n = 0) by lia. subst n. rewrite to_digits_S.
    rewrite N.div_0_l, N.mod_0_l by lia. reflexivity.
  - rewrite to_digits_S. destruct (n / b =? 0) eqn:E.
    + apply N.eqb_eq in E. apply N.div_small_iff in E; [|lia].
      cbn [fold_left]. unfold stepd at 2. rewrite N.mod_small by exact E. reflexivity.
    + rewrite IH.
      * cbn [fold_left]. unfold stepd at 2. f_equal.
        rewrite N.mul_comm. symmetry. apply N.div_mod. lia.
      * apply N.div_lt_upper_bound; [lia|].
        rewrite Nat2N.inj_succ, N.pow_succ_r' in Hn.
        assert (0 < 2 ^ N.of_nat f) by (apply N.neq_0_lt_0, N.pow_nonzero; lia).
        nia.
Qed.

Lemma to_digits_lt : forall f n acc,
  Forall (fun d => d < b) acc -> Forall (fun d => d < b) (to_digits b f n acc).
Proof.
  induction f as [|f IH]; intros n acc Ha; cbn [to_digits]; [exact Ha|].
  assert (Forall (fun d => d < b) (n mod b :: acc)).
  { constructor; [apply N.mod_lt; lia | exact Ha]. }
  destruct (n / b =? 0); [assumption | apply IH; assumption].
Qed.

Lemma to_digits_nonempty : forall f n acc, to_digits b (S f) n acc <> [].
Proof.
  induction f as [|f IH]; intros n acc; rewrite to_digits_S.
  - destruct (n / b =? 0); discriminate.
  - destruct (n / b =? 0); [discriminate | apply IH].
Qed.

Lemma digits_val : forall n, fold_left stepd (digits b n) 0 = n.
Proof.
  intro n. unfold digits. rewrite to_digits_val; [reflexivity|].
  rewrite N2Nat.id. apply N.size_gt.
Qed.
Lemma digits_lt : forall n, Forall (fun d => d < b) (digits b n).
Proof. intro n. apply to_digits_lt. constructor. Qed.
Lemma digits_nonempty : forall n, digits b n <> [].
Proof. intro n. apply to_digits_nonempty. Qed.

Lemma read_num_map : forall (ch : N -> N) (val : N -> option N),
  (forall d, d < b -> val (ch d) = Some d) ->
  forall ds, Forall (fun d => d < b) ds -> ds <> [] ->
  read_num b val (map ch ds) = Some (fold_left stepd ds 0).
Proof.
  intros ch val Hv ds Hds Hne. unfold read_num.
  destruct (map ch ds) eqn:E; [destruct ds; [congruence | discriminate E]|]. rewrite <- E. clear E Hne.
  generalize 0. induction Hds as [|d ds Hd _ IH]; intros a; [reflexivity|].
  cbn [map fold_left]. rewrite Hv by exact Hd. apply IH.
Qed.

Lemma read_digits : forall (ch : N -> N) (val : N -> option N),
  (forall d, d < b -> val (ch d) = Some d) ->
  forall n, read_num b val (map ch (digits b n)) = Some n.
Proof.
  intros ch val Hv n.
  rewrite (read_num_map ch val Hv) by (apply digits_lt || apply digits_nonempty).
  f_equal. apply digits_val.
Qed.
End Digits.

Lemma undec_dec : forall n, undec (dec n) = Some n.
Proof.
  intro n. apply read_digits; [lia|]. intros d Hd. unfold dval, dchar.
  destruct ((48 <=? 48 + d) && (48 + d <=? 57)) eqn:E; [f_equal; lia | lia].
Qed.

Lemma unhex_hex : forall n, unhex (hex n) = Some n.
Proof.
  intro n. apply read_digits; [lia|]. intros d Hd. unfold hval, hchar.
  destruct (d <? 10) eqn:E1.
  - destruct ((48 <=? 48 + d) && (48 + d <=? 57)) eqn:E; [f_equal; lia | lia].
  - destruct ((48 <=? 87 + d) && (87 + d <=? 57)) eqn:E; [lia|].
    destruct ((97 <=? 87 + d) && (87 + d <=? 102)) eqn:E2; [f_equal; lia | lia].
Qed.

Definition no (c : N) (l : bytes) : bool := forallb (fun x => negb (x =? c)) l.
Definition nocr := no 13.

Definition hdr_ok (h : header) : bool :=
  no 58 (fst h) && nocr (fst h) && nocr (snd h) && beq (lstrip (snd h)) (snd h).
(* headers the application must leave to the server: Connection is passed through verbatim while the
   close decision ignores it, Transfer-Encoding: chunked switches the writer to chunked regardless of
   Content-Length -- with either the application can make the message lie about itself *)
Definition is_framing (n : bytes) : bool := ci_is k_te n || ci_is k_conn n.

(* an application that sets Content-Length itself on an iterator body (generator, file) is believed by
   prepare(): the header must then be the number of bytes the iterator produces (irrelevant for HEAD) *)
Definition cl_truthful (c : cfg) : bool :=
  match app_cl c with
  | None => true
  | Some v => eff_sized c || head c ||
              match undec v with Some n => n =? total_len (eff_chunks c) | None => false end
  end.

(* what the theorems assume about one response configuration *)
Definition wf (c : cfg) : bool :=
  forallb hdr_ok (pre c) && forallb (fun h => negb (is_framing (fst h))) (pre c)
  && nocr (reason c) && (100 <=? status c) && (status c <=? 999)
  && forallb (fun v => hdr_ok (str "Set-Cookie", v)) (cookies c)
  && cl_truthful c.

(* the body can only be delimited by closing the connection *)
Definition until_close (c : cfg) : bool :=
  negb (head c) && negb (has_cl c) && negb (chunked c).

Lemma wf_parts : forall c, wf c = true ->
  forallb hdr_ok (pre c) = true /\ forallb (fun h => negb (is_framing (fst h))) (pre c) = true
  /\ nocr (reason c) = true /\ (100 <=? status c) && (status c <=? 999) = true
  /\ forallb (fun v => hdr_ok (str "Set-Cookie", v)) (cookies c) = true
  /\ cl_truthful c = true.
Proof.
  intros c H. unfold wf in H.
  repeat (apply andb_true_iff in H; destruct H as [H ?]).
  repeat split; try assumption. apply andb_true_iff; split; assumption.
Qed.

Lemma no_app : forall c a b, no c (a ++ b) = no c a && no c b.
Proof. intros. unfold no. apply forallb_app. Qed.

Lemma no_cons : forall c x l, no c (x :: l) = true -> (x =? c) = false /\ no c l = true.
Proof. intros c x l H. apply andb_true_iff in H. rewrite negb_true_iff in H. exact H. Qed.

Lemma no_In : forall c l, no c l = true -> ~ In c l.
Proof.
  intros c l H I. unfold no in H. rewrite forallb_forall in H.
  specialize (H c I). rewrite N.eqb_refl in H. discriminate H.
Qed.

Lemma hdr_ok_parts : forall h, hdr_ok h = true ->
  no 58 (fst h) = true /\ nocr (fst h) = true /\ nocr (snd h) = true /\ lstrip (snd h) = snd h.
Proof.
  intros h H. unfold hdr_ok in H.
  rewrite !andb_true_iff in H. destruct H as [[[H1 H2] H3] H4]. apply str_eqb_eq in H4. auto.
Qed.

Lemma split_crlf_app : forall l rest, nocr l = true ->
  split_crlf (l ++ crlf ++ rest) = Some (l, rest).
Proof.
  induction l as [|x l IH]; intros rest H; [reflexivity|].
  apply no_cons in H. destruct H as [Hx Hl].
  cbn [app split_crlf]. destruct (l ++ crlf ++ rest) eqn:E.
  - destruct l; discriminate.
  - rewrite Hx. cbn [andb]. rewrite <- E, IH by exact Hl. reflexivity.
Qed.

Lemma split_at_none : forall c a, no c a = true -> split_at c a = None.
Proof.
  induction a as [|x a IH]; intros H; [reflexivity|].
  apply no_cons in H. destruct H as [Hx Ha]. simpl. rewrite Hx, IH by exact Ha. reflexivity.
Qed.

Lemma strip_prefix_app : forall p l, strip_prefix p (p ++ l) = Some l.
Proof.
  induction p; intros l; simpl; [destruct l; reflexivity|]. rewrite N.eqb_refl. apply IHp.
Qed.

Lemma take_app : forall a b, take (length a) (a ++ b) = Some (a, b).
Proof. induction a; intros b; simpl; [reflexivity|]. rewrite IHa. reflexivity. Qed.

Lemma total_len_concat : forall l, total_len l = N.of_nat (length (concat l)).
Proof.
  induction l as [|a l IH]; [reflexivity|]. simpl. rewrite app_length, IH. lia.
Qed.

Lemma concat_filter_nonempty : forall l, concat (filter nonempty l) = concat l.
Proof.
  induction l as [|a l IH]; [reflexivity|]. simpl. destruct a; simpl; [assumption|]. rewrite IH. reflexivity.
Qed.

Lemma filter_nonempty_all : forall l, forallb nonempty (filter nonempty l) = true.
Proof.
  induction l as [|a l IH]; [reflexivity|]. simpl. destruct (nonempty a) eqn:E; [|assumption].
  simpl. rewrite E. assumption.
Qed.

Lemma forallb_map : forall (A B : Type) (f : B -> bool) (g : A -> B) l,
  forallb f (map g l) = forallb (fun x => f (g x)) l.
Proof. intros. induction l; simpl; [reflexivity|]. rewrite IHl. reflexivity. Qed.

Lemma forallb_app_true : forall (A : Type) (f : A -> bool) a b,
  forallb f a = true -> forallb f b = true -> forallb f (a ++ b) = true.
Proof. intros A f a b Ha Hb. rewrite forallb_app, Ha. exact Hb. Qed.

(* a sequence of n non-empty items is at least n bytes long: the parsers' fuel (one unit per item)
   is covered by the length of their input *)
Lemma fuel_enough : forall (A : Type) (f : A -> bytes) l rest,
  (forall x, f x <> []) -> (length l < S (length (concat (map f l) ++ rest)))%nat.
Proof.
  intros A f l rest Hf. rewrite app_length. induction l as [|x l IH]; [simpl; lia|].
  cbn [map concat]. rewrite app_length. specialize (Hf x). destruct (f x); [congruence|]. simpl. lia.
Qed.

Lemma map_no : forall (ch : N -> N) c ds, (forall d, ch d <> c) -> no c (map ch ds) = true.
Proof.
  intros ch c ds H. induction ds; simpl; [reflexivity|]. rewrite IHds.
  destruct (ch a =? c) eqn:E; [apply N.eqb_eq in E; destruct (H _ E)| reflexivity].
Qed.
Lemma dec_no : forall c n, c < 48 -> no c (dec n) = true.
Proof. intros c n H. unfold dec. apply map_no. intro d. unfold dchar. lia. Qed.
Lemma hex_no : forall c n, c < 48 -> no c (hex n) = true.
Proof. intros c n H. unfold hex. apply map_no. intro d. unfold hchar. destruct (d <? 10); lia. Qed.

Definition status_text (c : cfg) : bytes :=
  str "HTTP/1." ++ [if v11 c then 49 else 48] ++ [32] ++ dec (status c) ++ [32] ++ reason c.

Lemma status_line_eq : forall c, status_line c = status_text c ++ crlf.
Proof. intro c. unfold status_line, status_text. repeat rewrite <- app_assoc. reflexivity. Qed.

Lemma status_text_nocr : forall c, nocr (reason c) = true -> nocr (status_text c) = true.
Proof.
  intros c H. unfold status_text, nocr. repeat rewrite no_app.
  rewrite (dec_no 13) by lia. fold nocr. rewrite H. destruct (v11 c); reflexivity.
Qed.

Lemma parse_status_line_ok : forall c,
  (100 <=? status c) && (status c <=? 999) = true ->
  parse_status_line (status_text c) = Some (v11 c, status c, reason c).
Proof.
  intros c Hs. unfold parse_status_line, status_text.
  rewrite strip_prefix_app. cbn [app].
  assert (Hd : ((if v11 c then 49 else 48) =? 48) || ((if v11 c then 49 else 48) =? 49) = true)
    by (destruct (v11 c); reflexivity).
  rewrite Hd, N.eqb_refl. cbn [andb].
  rewrite split_at_app by (apply no_In, dec_no; lia).
  rewrite undec_dec, Hs. destruct (v11 c); reflexivity.
Qed.

Lemma hline_eq : forall h, hline h = (fst h ++ 58 :: 32 :: snd h) ++ crlf.
Proof. intro h. unfold hline. repeat rewrite <- app_assoc. reflexivity. Qed.

Lemma hline_nonempty : forall h, hline h <> [].
Proof. intro h. rewrite hline_eq. destruct (fst h); discriminate. Qed.

(* one header line: cut at CRLF, then at the first colon; the blank after it is stripped *)
Lemma parse_headers_cons : forall f h R, hdr_ok h = true ->
  parse_headers (S f) (hline h ++ R) =
  match parse_headers f R with Some (hs, r') => Some (h :: hs, r') | None => None end.
Proof.
  intros f h R Hh. destruct (hdr_ok_parts h Hh) as (Hc & Hn & Hv & Hs).
  rewrite hline_eq, <- app_assoc. cbn [parse_headers].
  rewrite split_crlf_app by (unfold nocr in *; rewrite no_app, Hn; exact Hv).
  destruct (fst h ++ 58 :: 32 :: snd h) eqn:E; [destruct (fst h); discriminate|]. rewrite <- E.
  rewrite split_at_app by exact (no_In _ _ Hc).
  change (lstrip (32 :: snd h)) with (lstrip (snd h)). rewrite Hs. destruct h; reflexivity.
Qed.

Lemma parse_headers_ok : forall hs fuel rest,
  forallb hdr_ok hs = true -> (length hs < fuel)%nat ->
  parse_headers fuel (concat (map hline hs) ++ crlf ++ rest) = Some (hs, rest).
Proof.
  induction hs as [|h hs IH]; intros fuel rest Hok Hf; (destruct fuel; [inversion Hf|]).
  - reflexivity.
  - cbn [forallb] in Hok. apply andb_true_iff in Hok. destruct Hok as [Hh Hhs].
    cbn [map concat]. rewrite <- app_assoc, parse_headers_cons by exact Hh.
    rewrite IH by (exact Hhs || (simpl in Hf; lia)). reflexivity.
Qed.

Lemma lstrip_id : forall l, no 32 l = true -> no 9 l = true -> lstrip l = l.
Proof.
  destruct l as [|x l]; intros H1 H2; [reflexivity|].
  apply no_cons in H1. apply no_cons in H2. simpl. rewrite (proj1 H1), (proj1 H2). reflexivity.
Qed.

Lemma dec_hdr_ok : forall name n, no 58 name = true -> nocr name = true -> hdr_ok (name, dec n) = true.
Proof.
  intros name n H1 H2. unfold hdr_ok. cbn [fst snd]. rewrite H1, H2.
  unfold nocr. rewrite (dec_no 13) by lia.
  rewrite lstrip_id by (apply dec_no; lia). rewrite str_eqb_refl. reflexivity.
Qed.

Lemma set_hdr_ok : forall k n hs, forallb hdr_ok hs = true -> forallb hdr_ok (set_hdr k (dec n) hs) = true.
Proof.
  intros k n hs. unfold set_hdr. induction hs as [|h hs IH]; intros H; [reflexivity|].
  cbn [forallb map] in *. apply andb_true_iff in H. destruct H as [Hh Hhs].
  rewrite IH by assumption. rewrite andb_true_r.
  destruct (ci_is k (fst h)); [|assumption].
  apply hdr_ok_parts in Hh. apply dec_hdr_ok; apply Hh.
Qed.

Lemma out_headers_ok : forall c, wf c = true -> forallb hdr_ok (out_headers c) = true.
Proof.
  intros c H. apply wf_parts in H. destruct H as (Hpre & _ & _ & _ & Hck & _).
  (* segment by segment: each goal holds one segment, not the whole block *)
  unfold out_headers. repeat apply forallb_app_true.
  - destruct (eff_sized c); [apply set_hdr_ok|]; assumption.
  - destruct (lookup k_ct (pre c)); reflexivity.
  - destruct (app_cl c); [reflexivity|]. destruct (eff_sized c); [|reflexivity].
    cbn [forallb]. rewrite dec_hdr_ok; reflexivity.
  - rewrite forallb_map. exact Hck.
  - destruct (chunked c); reflexivity.
  - destruct (v11 c), (close1 c); reflexivity.
Qed.

Definition absent (k : bytes) (hs : list header) : bool := forallb (fun h => negb (ci_is k (fst h))) hs.

Lemma lookup_app : forall k a b,
  lookup k (a ++ b) = match lookup k a with Some v => Some v | None => lookup k b end.
Proof.
  intros k a b. unfold lookup. induction a as [|h a IH]; [reflexivity|].
  cbn [app find]. destruct (ci_is k (fst h)); [reflexivity | exact IH].
Qed.

Lemma lookup_none : forall k hs, absent k hs = true -> lookup k hs = None.
Proof.
  intros k hs H. unfold lookup, absent in *. induction hs as [|h hs IH]; [reflexivity|].
  cbn [forallb] in H. apply andb_true_iff in H. destruct H as [H1 H2].
  apply negb_true_iff in H1. cbn [find]. rewrite H1. apply IH. assumption.
Qed.

Lemma lookup_skip : forall k a b, absent k a = true -> lookup k (a ++ b) = lookup k b.
Proof. intros k a b H. rewrite lookup_app, lookup_none by exact H. reflexivity. Qed.

(* any number of leading segments, as variables: a header block [s1 ++ ... ++ sn ++ l] is the fold *)
Lemma lookup_skips : forall k segs l, Forall (fun s => absent k s = true) segs ->
  lookup k (fold_right (@app header) l segs) = lookup k l.
Proof.
  intros k segs l H. induction H as [|s segs Hs _ IH]; [reflexivity|].
  cbn [fold_right]. rewrite lookup_skip by exact Hs. exact IH.
Qed.

Lemma absent_set_hdr : forall k k' v hs, absent k (set_hdr k' v hs) = absent k hs.
Proof.
  intros. unfold absent, set_hdr. induction hs as [|h hs IH]; [reflexivity|].
  cbn [map forallb]. rewrite IH. destruct (ci_is k' (fst h)); reflexivity.
Qed.

Lemma lookup_set_hdr : forall k v hs,
  lookup k (set_hdr k v hs) = match lookup k hs with Some _ => Some v | None => None end.
Proof.
  intros. unfold lookup, set_hdr. induction hs as [|h hs IH]; [reflexivity|].
  cbn [map find]. destruct (ci_is k (fst h)) eqn:E; cbn [fst]; rewrite E; [reflexivity | exact IH].
Qed.

Lemma absent_named : forall k n vs, ci_is k n = false -> absent k (map (fun v => (n, v)) vs) = true.
Proof.
  intros k n vs H. unfold absent. rewrite forallb_map. cbn [fst]. rewrite H.
  induction vs; simpl; auto.
Qed.

Lemma pre_no_framing : forall c, wf c = true -> absent k_te (pre c) = true /\ absent k_conn (pre c) = true.
Proof.
  intros c H. apply wf_parts in H. destruct H as (_ & H & _). unfold absent.
  induction (pre c) as [|h l IH]; [split; reflexivity|].
  cbn [forallb] in *. apply andb_true_iff in H. destruct H as [Hh Hl]. destruct (IH Hl) as [-> ->].
  unfold is_framing in Hh. rewrite negb_orb in Hh. apply andb_true_iff in Hh. destruct Hh as [-> ->].
  split; reflexivity.
Qed.

(* a name that the application did not use and that is none of Content-Type, Content-Length, Set-Cookie
   is looked up in the two framing headers at the end of the block *)
Lemma lookup_out_framing : forall k c, absent k (pre c) = true ->
  ci_is k (str "Content-Type") = false -> ci_is k (str "Content-Length") = false ->
  ci_is k (str "Set-Cookie") = false ->
  lookup k (out_headers c) =
  lookup k ((if chunked c then [(str "Transfer-Encoding", str "chunked")] else [])
            ++ (if v11 c
                then (if close1 c then [(str "Connection", str "close")] else [])
                else (if close1 c then [] else [(str "Connection", str "Keep-Alive")]))).
Proof.
  intros k c Hpre Hct Hcl Hck. apply (lookup_skips k [_; _; _; _]). repeat constructor.
  - destruct (eff_sized c); [rewrite absent_set_hdr|]; exact Hpre.
  - destruct (lookup k_ct (pre c)); [reflexivity | exact (absent_named k _ [_] Hct)].
  - destruct (app_cl c), (eff_sized c); try reflexivity; exact (absent_named k _ [_] Hcl).
  - apply absent_named, Hck.
Qed.

Lemma lookup_te_out : forall c, wf c = true ->
  lookup k_te (out_headers c) = if chunked c then Some (str "chunked") else None.
Proof.
  intros c H. rewrite lookup_out_framing by (apply (pre_no_framing c H) || reflexivity).
  destruct (chunked c); [reflexivity|]. destruct (v11 c), (close1 c); reflexivity.
Qed.

Lemma lookup_conn_out : forall c, wf c = true ->
  lookup k_conn (out_headers c) =
  if v11 c then (if close1 c then Some (str "close") else None)
  else (if close1 c then None else Some (str "Keep-Alive")).
Proof.
  intros c H. rewrite lookup_out_framing by (apply (pre_no_framing c H) || reflexivity).
  rewrite lookup_skip by (destruct (chunked c); reflexivity).
  destruct (v11 c), (close1 c); reflexivity.
Qed.

Lemma lookup_cl_out : forall c, lookup k_cl (out_headers c) = cl_hdr c.
Proof.
  intros c. unfold out_headers, cl_hdr, app_cl. rewrite lookup_app.
  destruct (eff_sized c).
  - rewrite lookup_set_hdr. destruct (lookup k_cl (pre c)); [reflexivity|].
    rewrite lookup_skip by (destruct (lookup k_ct (pre c)); reflexivity). reflexivity.
  - destruct (lookup k_cl (pre c)); [reflexivity|].
    rewrite lookup_skip by (destruct (lookup k_ct (pre c)); reflexivity). cbn [app].
    rewrite lookup_skip by (apply absent_named; reflexivity).
    destruct (chunked c), (v11 c), (close1 c); reflexivity.
Qed.

(* the client's reading of the Connection header is the server's close decision *)
Lemma conn_close_out : forall c, wf c = true ->
  (if v11 c then val_is (str "close") (lookup k_conn (out_headers c))
   else negb (val_is (str "keep-alive") (lookup k_conn (out_headers c)))) = close1 c.
Proof. intros c H. rewrite lookup_conn_out by exact H. destruct (v11 c), (close1 c); reflexivity. Qed.

Lemma te_chunked_out : forall c, wf c = true ->
  val_is (str "chunked") (lookup k_te (out_headers c)) = chunked c.
Proof. intros c H. rewrite lookup_te_out by exact H. destruct (chunked c); reflexivity. Qed.

Lemma frame_nonempty : forall d, frame d <> [].
Proof.
  intro d. unfold frame, hex.
  destruct (digits 16 (N.of_nat (length d))) eqn:E; [|discriminate]. destruct (digits_nonempty _ _ E).
Qed.

Lemma parse_chunks_cons : forall f d R, nonempty d = true ->
  parse_chunks (S f) (frame d ++ R) =
  match parse_chunks f R with Some (b, r) => Some (d ++ b, r) | None => None end.
Proof.
  intros f d R Hd. unfold frame. repeat rewrite <- app_assoc. cbn [parse_chunks].
  rewrite split_crlf_app by (apply hex_no; lia). rewrite unhex_hex.
  destruct (N.of_nat (length d)) as [|p] eqn:En; [destruct d; [discriminate Hd | discriminate En]|].
  rewrite <- En, Nat2N.id, take_app, strip_prefix_app. reflexivity.
Qed.

Lemma parse_chunks_ok : forall L fuel rest,
  forallb nonempty L = true -> (length L < fuel)%nat ->
  parse_chunks fuel (concat (map frame L) ++ term ++ rest) = Some (concat L, rest).
Proof.
  induction L as [|d L IH]; intros fuel rest Hne Hf; (destruct fuel; [inversion Hf|]).
  - reflexivity.
  - cbn [forallb] in Hne. apply andb_true_iff in Hne. destruct Hne as [Hd HL].
    cbn [map concat]. rewrite <- app_assoc, parse_chunks_cons by exact Hd.
    rewrite IH by (exact HL || (simpl in Hf; lia)). reflexivity.
Qed.

(* the bytes of one response: header block, then the body in the framing that was decided *)
Definition body_pieces (c : cfg) : list bytes :=
  if streamed c then eff_chunks c else [concat (eff_chunks c)].
Definition body_wire (c : cfg) : bytes :=
  if head c then []
  else if chunked c then concat (map frame (filter nonempty (body_pieces c))) ++ term
  else concat (eff_chunks c).

Lemma concat_body_pieces : forall c, concat (body_pieces c) = concat (eff_chunks c).
Proof. intro c. unfold body_pieces. destruct (streamed c); [reflexivity | apply app_nil_r]. Qed.

Lemma wire_eq : forall c, wire c = head_bytes c ++ body_wire c.
Proof.
  intros c. unfold wire, respond, body_wire, body_pieces.
  destruct (head c); [reflexivity|]. destruct (streamed c).
  - destruct (chunked c); cbn [app concat].
    + rewrite concat_app. cbn [concat]. rewrite app_nil_r. reflexivity.
    + rewrite app_nil_r, map_id, concat_filter_nonempty. reflexivity.
  - destruct (chunked c); destruct (concat (eff_chunks c)) eqn:Eb; cbn [nonempty app concat filter map];
      repeat rewrite app_nil_r; reflexivity.
Qed.

Lemma closed_close1 : forall c, closed c = close1 c.
Proof. intro c. unfold closed, respond. destruct (head c), (streamed c); reflexivity. Qed.

Definition nobody_client (s : N) : bool := ((100 <=? s) && (s <? 200)) || (s =? 204) || (s =? 304).

Lemma nobody_client_status : forall s, nobody_client s = true -> nobody_status s = true.
Proof. intros s. unfold nobody_client, nobody_status. lia. Qed.

Lemma until_close_closes : forall c, until_close c = true -> close1 c = true.
Proof.
  intros c. unfold until_close, chunked, close1.
  destruct (status c =? 413); [reflexivity|]. destruct (has_cl c); [rewrite andb_false_r; discriminate|].
  destruct (head c), (v11 c); (reflexivity || discriminate).
Qed.

Lemma nobody_empty : forall c, nobody_status (status c) = true ->
  eff_chunks c = [] /\ chunked c = false.
Proof.
  intros c H. unfold chunked, has_cl, cl_hdr, eff_sized, eff_chunks. rewrite H. split; reflexivity.
Qed.

(* the close decision in closed form: 413, the client's wish, or no other way to delimit the body *)
Lemma close1_eq : forall c,
  close1 c = (status c =? 413) || close0 c || negb (has_cl c || v11 c && negb (head c)).
Proof.
  intro c. unfold close1. destruct (status c =? 413); [reflexivity|].
  destruct (has_cl c), (v11 c && negb (head c)), (close0 c); reflexivity.
Qed.

Lemma sized_has_cl : forall c, eff_sized c = true -> has_cl c = true.
Proof. intros c H. unfold has_cl, cl_hdr. rewrite H. reflexivity. Qed.

Lemma cl_len : forall c v, wf c = true -> head c = false -> cl_hdr c = Some v ->
  undec v = Some (N.of_nat (length (concat (eff_chunks c)))).
Proof.
  intros c v H Hh Hv. rewrite <- total_len_concat. unfold cl_hdr in Hv. destruct (eff_sized c) eqn:Es.
  - inversion Hv. apply undec_dec.
  - apply wf_parts in H. destruct H as (_ & _ & _ & _ & _ & H).
    unfold cl_truthful in H. rewrite Hv, Es, Hh in H. cbn [orb] in H.
    destruct (undec v) as [n|]; [|discriminate]. apply N.eqb_eq in H. congruence.
Qed.

Lemma roundtrip : forall c rest, wf c = true -> (until_close c = true -> rest = []) ->
  parse (head c) (wire c ++ rest) = Some (expected c, rest).
Proof.
  intros c rest H Hu. destruct (wf_parts c H) as (_ & _ & Hr & Hs & _).
  rewrite wire_eq, <- app_assoc. unfold parse, head_bytes.
  rewrite status_line_eq. repeat rewrite <- app_assoc.
  rewrite split_crlf_app by (apply status_text_nocr, Hr).
  rewrite parse_status_line_ok by exact Hs.
  rewrite parse_headers_ok.
  2: apply out_headers_ok, H.
  2: apply fuel_enough, hline_nonempty.
  (* the client takes the framing from the headers as the server decided it *)
  rewrite conn_close_out, te_chunked_out by exact H. rewrite lookup_cl_out.
  unfold expected, body_wire. destruct (head c) eqn:Hh; [reflexivity|]. cbn [orb].
  fold (nobody_client (status c)). destruct (nobody_client (status c)) eqn:En.
  - apply nobody_client_status in En. destruct (nobody_empty c En) as (Hch & Hck).
    rewrite Hck, Hch. reflexivity.
  - destruct (chunked c) eqn:Ech.
    + rewrite <- app_assoc, parse_chunks_ok.
      * rewrite concat_filter_nonempty, concat_body_pieces. reflexivity.
      * apply filter_nonempty_all.
      * apply fuel_enough, frame_nonempty.
    + destruct (cl_hdr c) as [v|] eqn:Ecl.
      * rewrite (cl_len c v H Hh Ecl), Nat2N.id, take_app. reflexivity.
      * assert (Huc : until_close c = true) by (unfold until_close, has_cl; rewrite Hh, Ecl, Ech; reflexivity).
        rewrite (Hu Huc), app_nil_r, (until_close_closes c Huc). reflexivity.
Qed.

(* requests on one connection: every response but the last leaves the connection open *)
Fixpoint conn_ok (cs : list cfg) : bool :=
  match cs with
  | [] => true
  | c :: r => wf c && match r with [] => true | _ => negb (closed c) && conn_ok r end
  end.

Lemma keepalive_sequence : forall cs, conn_ok cs = true ->
  parse_many (map head cs) (concat (map wire cs)) = Some (map expected cs).
Proof.
  induction cs as [|c r IH]; intros H; [reflexivity|].
  cbn [conn_ok] in H. apply andb_true_iff in H. destruct H as [Hwf Hr].
  cbn [map concat parse_many].
  destruct r as [|c' r'].
  - cbn [map concat]. rewrite roundtrip by (assumption || reflexivity). reflexivity.
  - apply andb_true_iff in Hr. destruct Hr as [Hopen Hr]. apply negb_true_iff in Hopen.
    rewrite roundtrip; [| assumption |].
    + rewrite IH by assumption. reflexivity.
    + intro Hu. apply until_close_closes in Hu. rewrite closed_close1 in Hopen. congruence.
Qed.

Lemma file_gen_app : forall a b, forallb nonempty a = true -> file_gen (a ++ b) = a ++ file_gen b.
Proof.
  induction a as [|r t IH]; intros b H; [reflexivity|].
  cbn [forallb] in H. apply andb_true_iff in H. destruct H as [Hr Ht].
  cbn [app file_gen]. rewrite Hr, IH by assumption. reflexivity.
Qed.

Lemma file_gen_nonempty : forall reads, forallb nonempty (file_gen reads) = true.
Proof.
  induction reads as [|r t IH]; [reflexivity|]. cbn [file_gen].
  destruct (nonempty r) eqn:E; [|reflexivity]. cbn [forallb]. rewrite E. exact IH.
Qed.

Lemma file_gen_src_reads : forall fuel n caps data, (0 < n)%nat -> (length data < fuel)%nat ->
  concat (file_gen (src_reads fuel n caps data)) = data.
Proof.
  induction fuel as [|f IH]; intros n caps data Hn Hf; [inversion Hf|].
  cbn [src_reads]. destruct data as [|x d]; [reflexivity|].
  set (cap := match caps with c :: _ => if Nat.eqb c 0 then n else Nat.min c n | [] => n end).
  assert (Hcap : (0 < cap)%nat).
  { unfold cap. destruct caps as [|c ?]; [assumption|]. destruct (Nat.eqb c 0) eqn:E; [assumption|].
    apply PeanoNat.Nat.eqb_neq in E. lia. }
  destruct cap as [|k] eqn:Ek; [lia|].
  cbn [firstn skipn file_gen nonempty concat].
  rewrite IH.
  - rewrite <- app_comm_cons. rewrite firstn_skipn. reflexivity.
  - assumption.
  - simpl in Hf. pose proof (skipn_length k d). lia.
Qed.

