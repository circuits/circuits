(* Proofs about Model/HttpRobust.v (property C14).  Everything is quantified over all oracle
   answers ([answers] records), all connection states and all histories.

   One read is _on_read followed by the cascade of self-fired events.  [read_ok] says once what _on_read
   can return and in which connection state; [settle] is the cascade in closed form.  The theorems about
   [read_conn] are read off the two. *)
From Coq Require Import List ZArith Bool Lia ZifyBool.
From Circ Require Import Lib.FunUpd Model.HttpRobust.
Import ListNotations.
Open Scope N_scope.

Definition effs_of (r : conn * list eff * list tag) : list eff := snd (fst r).
Definition conn_of (r : conn * list eff * list tag) : conn := fst (fst r).
Definition hres_of (r : conn * hres * list tag) : hres := snd (fst r).
Definition hconn_of (r : conn * hres * list tag) : conn := fst (fst r).

Definition okver (v : version) : Prop := v = (1, 0) \/ v = (1, 1).

Lemma resp_version_ok v : okver (resp_version v).
Proof.
  destruct v as [ma mi]. unfold resp_version, okver.
  destruct (ma =? 1); cbn; [|now right].
  destruct (1 <? mi) eqn:E; [now right|].
  assert (H : mi = 0 \/ mi = 1) by lia. destruct H as [-> | ->]; auto.
Qed.

(* the guarded release never raises KeyError *)
Definition fin (c : conn) : conn := match cli c with Some _ => set_cli c None | None => c end.

Lemma finish_total c : finish c = Some (fin c).
Proof. unfold finish, del_cli, fin. destruct (cli c); reflexivity. Qed.

Lemma fin_cli c : cli (fin c) = None.
Proof. unfold fin. destruct (cli c) eqn:E; [reflexivity|exact E]. Qed.

Lemma fin_empty : fin empty_conn = empty_conn.
Proof. reflexivity. Qed.

Lemma fin_unbuffered c : buf c = false -> fin c = empty_conn.
Proof. destruct c as [b [r|]]; cbn; intros ->; reflexivity. Qed.

(* between events: request/response state exists only next to parser state, and only for a
   request whose major version was accepted *)
Definition inv (c : conn) : Prop :=
  forall ri, cli c = Some ri -> buf c = true /\ fst (rver ri) = 1.

Lemma inv_no_cli c : cli c = None -> inv c.
Proof. intros E ri H. congruence. Qed.

(* a request event is dispatched only for a message that passed every test of _on_read *)
Definition accepted (c : conn) (a : answers) (ri : reqinfo) : Prop :=
  exists f n, a_exec a = Ret f /\ hc f = true
    /\ (cli c = Some ri \/ (cli c = None /\ a_req a = Ret ri /\ fst (rver ri) = 1))
    /\ a_clen a = Ret n /\ (0 <= n)%Z
    /\ ((n <> 0%Z \/ te_chunked ri = true) -> mc f = true)
    /\ (is10 (rver ri) = true \/ has_host ri = true) /\ host_ctl ri = false
    /\ a_path a = Ret PCanon.

(* what _on_read can return *)
Inductive hres_ok : hres -> Prop :=
| ok_raise : hres_ok HRaise
| ok_wait : hres_ok (HRet [])
| ok_close : hres_ok (HRet [IClose])
| ok_error code v hd : In code [301; 400; 505] -> hres_ok (HRet [IHttpError code (resp_version v) hd])
| ok_request ri : hres_ok (HRet [IRequest ri]).

(* ... and in which state [c1] it leaves a connection that it found, parser state in place, as [c0]:
   whatever does not end in a release keeps the invariant, a request leaves no parser state behind *)
Inductive read_ok (c0 : conn) (a : answers) (c1 : conn) : hres -> Prop :=
| ro_raise : (inv c0 -> inv c1) -> read_ok c0 a c1 HRaise
| ro_wait : (inv c0 -> inv c1) -> read_ok c0 a c1 (HRet [])
| ro_close : cli c1 = None -> read_ok c0 a c1 (HRet [IClose])
| ro_error code v hd : In code [301; 400; 505] ->
    read_ok c0 a c1 (HRet [IHttpError code (resp_version v) hd])
| ro_request ri : accepted c0 a ri -> buf c1 = false -> read_ok c0 a c1 (HRet [IRequest ri]).

Lemma read_ok_hres c0 a c1 h : read_ok c0 a c1 h -> hres_ok h.
Proof. destruct 1; constructor; assumption. Qed.

Lemma reject_ok c0 a c code v hd tags : buf c = true -> In code [301; 400; 505] ->
  read_ok c0 a (hconn_of (reject c code v hd tags)) (hres_of (reject c code v hd tags)).
Proof. intros B I. unfold reject, del_buf. rewrite B. now constructor. Qed.

(* [c] is [c0] or [c0] with the request just built *)
Lemma body_gate_ok c0 c a f ri tags :
  buf c = true -> (inv c0 -> inv c) -> a_exec a = Ret f -> hc f = true ->
  cli c0 = Some ri \/ (cli c0 = None /\ a_req a = Ret ri /\ fst (rver ri) = 1) ->
  read_ok c0 a (hconn_of (body_gate c a f ri tags)) (hres_of (body_gate c a f ri tags)).
Proof.
  intros B Hi X Hh Hc. unfold body_gate.
  destruct (a_clen a) as [|n] eqn:Cl; [now constructor|].
  destruct ((negb (n =? 0)%Z || te_chunked ri) && negb (mc f)) eqn:G; [now constructor|].
  destruct (n <? 0)%Z eqn:Neg; [apply reject_ok; cbn; auto|].
  destruct (negb (is10 (rver ri)) && negb (has_host ri)) eqn:Hho; [apply reject_ok; cbn; auto|].
  destruct (host_ctl ri) eqn:Hct; [apply reject_ok; cbn; auto|].
  destruct (a_path a) as [|[|]] eqn:P; [now constructor| |constructor; cbn; auto].
  unfold del_buf. rewrite B. apply ro_request; [|reflexivity].
  apply Z.ltb_ge in Neg. exists f, n. repeat split; auto.
  - intros Hb. destruct (mc f); [reflexivity|]. rewrite andb_true_r in G.
    apply orb_false_iff in G as [G1 G2]. apply negb_false_iff, Z.eqb_eq in G1. destruct Hb; congruence.
  - destruct (is10 (rver ri)); [now left|]. destruct (has_host ri); [now right | discriminate Hho].
Qed.

Lemma after_exec_ok c a tags : buf c = true ->
  read_ok c a (hconn_of (after_exec c a tags)) (hres_of (after_exec c a tags)).
Proof.
  intros B. unfold after_exec.
  destruct (a_exec a) as [|f] eqn:X; [now constructor|].
  destruct (hc f) eqn:Hh; cbn [negb].
  2:{ destruct (perrno f) as [e|]; [|now constructor].
      destruct (a_errreq a) as [|[v hd]]; [now constructor | apply reject_ok; cbn; auto]. }
  unfold headers_done. destruct (cli c) as [r0|] eqn:C; [apply body_gate_ok; auto|].
  destruct (a_req a) as [|r1] eqn:Rq; [now constructor|].
  destruct (fst (rver r1) =? 1) eqn:Mj; cbn [negb]; [|constructor; cbn; auto].
  apply N.eqb_eq in Mj. apply body_gate_ok; auto.
  intros _ ri H. injection H as <-. auto.
Qed.

(* the connection as _on_read sees it once the parser state is in place *)
Definition opened (c : conn) : conn := if buf c then c else set_buf c true.

Lemma opened_buf c : buf (opened c) = true.
Proof. unfold opened. destruct (buf c) eqn:B; [exact B | reflexivity]. Qed.

Lemma inv_opened c : inv c -> inv (opened c).
Proof.
  intros Hi. unfold opened. destruct (buf c) eqn:B; [exact Hi|].
  intros ri H. destruct (Hi ri H) as [F _]. congruence.
Qed.

Lemma on_read_ok secure c a :
  read_ok (opened c) a (hconn_of (on_read secure c a)) (hres_of (on_read secure c a)).
Proof.
  unfold on_read, opened. destruct (buf c) eqn:B; [now apply after_exec_ok|].
  destruct (a_ssl a) as [|b]; [now constructor|].
  destruct (b && negb secure); [now constructor | now apply after_exec_ok].
Qed.

(* unless the first bytes look like a TLS hello (or that test raises), _on_read goes on to the parser *)
Lemma on_read_opened secure c a : buf c = true \/ a_ssl a = Ret false ->
  exists tags, on_read secure c a = after_exec (opened c) a tags.
Proof.
  intros Hs. unfold on_read, opened. destruct (buf c); [now exists []|].
  destruct Hs as [Hs|Hs]; [discriminate|]. rewrite Hs. now exists [TSsl].
Qed.

Definition app_answer (a : answers) (ri : reqinfo) : N * bool :=
  match a_app a with
  | Ret (st, viaerr) => (st, viaerr || negb (keepalive ri))
  | Raise => (500, true)
  end.

Definition settle (c : conn) (a : answers) (h : hres) : conn * list eff :=
  match h with
  | HRaise => match a_excreq a with
              | Raise => (c, [])
              | Ret _ => (fin c, [EReject 500; EWrite 500 (1, 1) true false; EClose])
              end
  | HRet [IClose] => (c, [EClose])
  | HRet [IHttpError code v hd] => (fin c, [EReject code; EWrite code v true hd; EClose])
  | HRet [IRequest ri] =>
      let '(st, cl) := app_answer a ri in
      (fin c, EDispatch :: EWrite st (resp_version (rver ri)) cl (is_head ri) :: (if cl then [EClose] else []))
  | _ => (c, [])
  end.

(* Every handler fires at most one event, so the cascade is a chain: exception -> httperror -> response -> close,
   request -> response -> close.  Only its last link, _on_response, has a case analysis: it is evaluated once,
   for any fuel; the links before it are stepped by the defining equation of [drain].  (Evaluating a whole
   cascade at once carries both branches of _on_response through every step and is slow to check.) *)
Lemma drain_response k c a st v cl hd : drain (S (S k)) [IResponse st v cl hd] c a
  = Some (fin c, EWrite st v cl hd :: (if cl then [EClose] else []), []).
Proof. cbn [drain handle]. rewrite finish_total. destruct hd, cl, k; reflexivity. Qed.

Lemma drain_one k e c a : drain (S k) [e] c a =
  let '(c', effs, new, tg) := handle c a e in
  match drain k new c' a with None => None | Some (c'', effs', tg') => Some (c'', effs ++ effs', tg ++ tg') end.
Proof. reflexivity. Qed.

Lemma cascade_settle c a h : hres_ok h -> fst (cascade c a h) = settle c a h.
Proof.
  intros H. unfold cascade, settle, FUEL. destruct H as [| | |code v hd _|ri].
  - rewrite drain_one. cbn [handle]. destruct (a_excreq a); [reflexivity|].
    rewrite drain_one. cbn [handle]. rewrite drain_response. reflexivity.
  - reflexivity.
  - reflexivity.
  - rewrite drain_one. cbn [handle]. rewrite drain_response. reflexivity.
  - rewrite drain_one. unfold app_answer. cbn [handle].
    destruct (a_app a) as [|[st viaerr]]; rewrite drain_response; reflexivity.
Qed.

Lemma read_conn_cascade secure c a :
  fst (read_conn secure c a)
  = fst (cascade (hconn_of (on_read secure c a)) a (hres_of (on_read secure c a))).
Proof.
  unfold read_conn, cascade. destruct (on_read secure c a) as [[c1 h] tags]. cbn [hconn_of hres_of fst snd].
  destruct h as [q| |]; [destruct (drain FUEL q c1 a) as [[[c2 e] tg]|] |
                         destruct (drain FUEL [IExc SRead] c1 a) as [[[c2 e] tg]|] |]; reflexivity.
Qed.

Lemma read_conn_settle secure c a :
  fst (read_conn secure c a) = settle (hconn_of (on_read secure c a)) a (hres_of (on_read secure c a)).
Proof.
  rewrite read_conn_cascade. eapply cascade_settle, read_ok_hres, on_read_ok.
Qed.

Inductive shape : list eff -> Prop :=
| sh_wait : shape []
| sh_close : shape [EClose]
| sh_reject code v hd : In code [301; 400; 500; 505] -> okver v ->
    shape [EReject code; EWrite code v true hd; EClose]
| sh_request st v cl hd : okver v ->
    shape (EDispatch :: EWrite st v cl hd :: (if cl then [EClose] else [])).

Lemma settle_shape c a h : hres_ok h -> shape (snd (settle c a h)).
Proof.
  intros H. destruct H as [| | |code v hd Hk|ri]; cbn.
  - destruct (a_excreq a); cbn; constructor; cbn; auto. now right.
  - constructor.
  - constructor.
  - apply sh_reject; [cbn in *; intuition | apply resp_version_ok].
  - destruct (app_answer a ri). apply sh_request, resp_version_ok.
Qed.

Lemma settle_conn c a h : hres_ok h -> fst (settle c a h) = c \/ fst (settle c a h) = fin c.
Proof.
  intros H. destruct H; cbn; auto.
  - destruct (a_excreq a); auto.
  - destruct (app_answer a ri). auto.
Qed.

Theorem read_shape secure c a : shape (effs_of (read_conn secure c a)).
Proof.
  unfold effs_of. rewrite read_conn_settle. eapply settle_shape, read_ok_hres, on_read_ok.
Qed.

Definition is_write (e : eff) : bool := match e with EWrite _ _ _ _ => true | _ => false end.
Definition n_writes (l : list eff) : nat := length (filter is_write l).

(* refutes membership in a list that is given by its elements *)
Ltac inl H := cbn in H; repeat (destruct H as [H|H]; [try discriminate H|]); try (now destruct H).

Lemma shape_never_crash l : shape l -> ~ In ECrash l /\ ~ In EOutOfFuel l.
Proof.
  intros S. destruct S as [| |k v hd Hk Hv|st v cl hd Hv]; try destruct cl; split; intros F; inl F.
Qed.

Lemma shape_one l : shape l -> (n_writes l <= 1)%nat.
Proof. intros S. destruct S as [| |k v hd Hk Hv|st v cl hd Hv]; try destruct cl; cbn; auto. Qed.

Lemma shape_reject l code : shape l -> In (EReject code) l ->
  ~ In EDispatch l /\ In code [301; 400; 500; 505]
  /\ exists v hd, okver v /\ l = [EReject code; EWrite code v true hd; EClose].
Proof.
  intros S I. destruct S as [| |k v hd Hk Hv|st v cl hd Hv]; try destruct cl; inl I.
  injection I as ->. split; [intros F; inl F|]. split; [exact Hk|]. exists v, hd. auto.
Qed.

Lemma shape_close l st v hd : shape l -> In (EWrite st v true hd) l ->
  exists pre, l = pre ++ [EWrite st v true hd; EClose].
Proof.
  intros S I. destruct S as [| |k v' hd' Hk Hv|st' v' cl hd' Hv]; try destruct cl; inl I.
  - injection I as -> -> ->. now exists [EReject st].
  - injection I as -> -> ->. now exists [EDispatch].
Qed.

Lemma shape_version l st v cl hd : shape l -> In (EWrite st v cl hd) l -> okver v.
Proof.
  intros S I. destruct S as [| |k v' hd' Hk Hv|st' v' cl' hd' Hv]; try destruct cl'; inl I;
    injection I as _ <- _ _; exact Hv.
Qed.

Lemma shape_open l st v hd : shape l -> In (EWrite st v false hd) l -> In EDispatch l.
Proof. intros S I. destruct S as [| |k v' hd' Hk Hv|st' v' cl hd' Hv]; [inl I | inl I | inl I | now left]. Qed.

Theorem parser_error_reported secure c a f e v hd :
  buf c = true \/ a_ssl a = Ret false ->
  a_exec a = Ret f -> hc f = false -> perrno f = Some e -> a_errreq a = Ret (v, hd) ->
  effs_of (read_conn secure c a)
  = [EReject 400; EWrite 400 (resp_version (match e with BadFirstLine => (1, 1) | _ => v end)) true
                         (match e with BadFirstLine => false | _ => hd end); EClose]
  /\ conn_of (read_conn secure c a) = empty_conn.
Proof.
  intros Hs Hx Hh He Hr. unfold effs_of, conn_of. rewrite read_conn_settle.
  destruct (on_read_opened secure c a Hs) as [tags ->].
  unfold after_exec. rewrite Hx, Hh. cbn [negb]. rewrite He, Hr.
  unfold reject, del_buf. rewrite opened_buf. cbn. split; [reflexivity | now apply fin_unbuffered].
Qed.

Theorem dispatched_read secure c a : In EDispatch (effs_of (read_conn secure c a)) ->
  (exists ri, accepted (opened c) a ri) /\ conn_of (read_conn secure c a) = empty_conn.
Proof.
  unfold effs_of, conn_of. rewrite read_conn_settle.
  destruct (on_read_ok secure c a) as [Hi|Hi|Hc|code v hd Hk|ri Ha Hb]; cbn; intros F.
  - destruct (a_excreq a); inl F.
  - inl F.
  - inl F.
  - inl F.
  - destruct (app_answer a ri). split; [now exists ri | now apply fin_unbuffered].
Qed.

Theorem read_conn_inv secure c a : inv c -> inv (conn_of (read_conn secure c a)).
Proof.
  intros Hi. apply inv_opened in Hi. unfold conn_of. rewrite read_conn_settle.
  destruct (on_read_ok secure c a) as [H|H|H|code v hd H|ri H _]; cbn;
    auto using inv_no_cli, fin_cli.
  - destruct (a_excreq a); cbn; auto using inv_no_cli, fin_cli.
  - destruct (app_answer a ri). cbn. auto using inv_no_cli, fin_cli.
Qed.

(* histories: the tables are a fold in which an operation writes its own socket only *)
Definition local (f : tables -> op -> tables) : Prop :=
  forall t o, exists c, f t o = upd t (op_sock o) c.

Lemma fold_other f h : local f -> forall t s, (forall o, In o h -> op_sock o <> s) ->
  fold_left f h t s = t s.
Proof.
  intros L. induction h as [|o r IH]; intros t s H; [reflexivity|].
  cbn [fold_left]. rewrite IH by (intros o' I; apply H; now right).
  destruct (L t o) as [c ->]. apply upd_other, not_eq_sym, H. now left.
Qed.

Definition tstep (secure : bool) (t : tables) (o : op) : tables := fst (step secure t o).

Lemma tstep_eq secure t o :
  tstep secure t o = upd t (op_sock o) match o with
                                       | Read s a => conn_of (read_conn secure (t s) a)
                                       | Disc _ => empty_conn
                                       end.
Proof.
  destruct o as [s a|s]; unfold tstep, conn_of; cbn; [|reflexivity].
  destruct (read_conn secure (t s) a) as [[c e] tg]. reflexivity.
Qed.

Lemma tstep_local secure : local (tstep secure).
Proof. intros t o. eexists. apply tstep_eq. Qed.

Lemma run_tables secure h : forall t, fst (run secure t h) = fold_left (tstep secure) h t.
Proof.
  induction h as [|o r IH]; intros t; [reflexivity|].
  cbn [run fold_left]. rewrite <- IH. unfold tstep.
  destruct (step secure t o) as [t1 e]. cbn [fst]. destruct (run secure t1 r). reflexivity.
Qed.

Lemma run_app secure t h1 h2 :
  fst (run secure t (h1 ++ h2)) = fst (run secure (fst (run secure t h1)) h2).
Proof. rewrite !run_tables. apply fold_left_app. Qed.

Theorem isolation secure h t s :
  (forall o, In o h -> op_sock o <> s) -> fst (run secure t h) s = t s.
Proof. rewrite run_tables. apply fold_other, tstep_local. Qed.

Theorem released secure h s t :
  fst (run secure t (h ++ [Disc s])) s = empty_conn.
Proof. rewrite run_app. apply upd_same. Qed.

Lemma inv_empty : inv empty_conn.
Proof. now apply inv_no_cli. Qed.

Theorem run_inv secure h t : (forall s, inv (t s)) -> forall s, inv (fst (run secure t h) s).
Proof.
  rewrite run_tables. revert t. induction h as [|o r IH]; intros t Ht; [exact Ht|].
  cbn [fold_left]. apply IH. intros x. rewrite tstep_eq. unfold upd. destruct (Nat.eqb x (op_sock o)); [|apply Ht].
  destruct o as [s a|s]; [apply read_conn_inv, Ht | apply inv_empty].
Qed.

Definition dirty (c : N) : bool := (c =? 92) || (128 <=? c) || (c =? 91) || (c =? 93).
Definition clean (bs : list N) : Prop := forall c, In c bs -> dirty c = false.

Lemma incl_cons_cons (a : N) x l : incl x l -> incl (a :: x) (a :: l).
Proof. intros H. apply incl_cons; [now left | now apply incl_tl]. Qed.

Lemma cut_crlf_in l : forall x y, cut_crlf l = Some (x, y) -> incl x l /\ incl y l.
Proof.
  induction l as [|a t IH]; intros x y H; [discriminate|].
  cbn [cut_crlf] in H. destruct t as [|b t']; [discriminate|].
  destruct ((a =? 13) && (b =? 10)).
  - injection H as <- <-. split; [apply incl_nil_l | do 2 apply incl_tl; apply incl_refl].
  - destruct (cut_crlf (b :: t')) as [[x' y']|] eqn:E; [|discriminate]. injection H as <- <-.
    destruct (IH x' y' eq_refl) as [H1 H2]. split; [now apply incl_cons_cons | now apply incl_tl].
Qed.

Lemma cut_crlf2_in l : forall x, cut_crlf2 l = Some x -> incl x l.
Proof.
  induction l as [|a t IH]; intros x H; [discriminate|].
  cbn [cut_crlf2] in H. destruct (starts_with [13; 10; 13; 10] (a :: t)).
  - injection H as <-. apply incl_nil_l.
  - destruct (cut_crlf2 t) as [x'|]; [|discriminate]. injection H as <-.
    now apply incl_cons_cons, IH.
Qed.

Lemma drop_sp_in l : incl (drop_sp l) l.
Proof.
  induction l as [|a t IH]; [apply incl_refl|]. cbn. destruct (is_sp a); [now apply incl_tl | apply incl_refl].
Qed.

Lemma take_tok_in l : forall x y, take_tok l = (x, y) -> incl x l /\ incl y l.
Proof.
  induction l as [|a t IH]; intros x y H; cbn in H.
  - injection H as <- <-. split; apply incl_refl.
  - destruct (is_sp a).
    + injection H as <- <-. split; [apply incl_nil_l | apply incl_refl].
    + destruct (take_tok t) as [x' y'] eqn:E. injection H as <- <-. destruct (IH x' y' eq_refl) as [H1 H2].
      split; [now apply incl_cons_cons | now apply incl_tl].
Qed.

Lemma split3_in line m t v : split3 line = Some (m, t, v) -> incl t line.
Proof.
  unfold split3. destruct (take_tok (drop_sp line)) as [t1 r1] eqn:E1.
  destruct (take_tok (drop_sp r1)) as [t2 r2] eqn:E2.
  destruct t1, t2, (drop_sp r2); try discriminate. intros [= _ <- _].
  eapply incl_tran; [apply (take_tok_in _ _ _ E2)|]. eapply incl_tran; [apply drop_sp_in|].
  eapply incl_tran; [apply (take_tok_in _ _ _ E1) | apply drop_sp_in].
Qed.

Lemma clean_existsb l (f : N -> bool) :
  clean l -> (forall c, dirty c = false -> f c = false) -> existsb f l = false.
Proof.
  intros C H. induction l as [|a t IH]; [reflexivity|]. cbn.
  rewrite (H a) by (apply C; now left). apply IH. intros c I. apply C. now right.
Qed.

Lemma first_line_cases line : clean line ->
  first_line line = HeadersOk \/ first_line line = Bad BadFirstLine.
Proof.
  intros C. unfold first_line.
  rewrite (clean_existsb line) by (exact C || (intros c D; unfold dirty in D; lia)).
  destruct (split3 line) as [[[m t] v]|] eqn:E; [|auto].
  destruct (negb (method_ok m)); [auto|].
  rewrite (clean_existsb t).
  - destruct (has_fragment t); [auto|]. destruct (version_ok v); auto.
  - intros c I. apply C, (split3_in _ _ _ _ E), I.
  - intros c D. unfold dirty in D. lia.
Qed.

Lemma header_block_cases blk : clean blk ->
  header_block blk = HeadersOk \/ header_block blk = Bad InvalidHeader.
Proof.
  intros C. unfold header_block.
  rewrite (clean_existsb blk) by (exact C || (intros c D; unfold dirty in D; lia)).
  destruct (split_crlf (length blk) blk) as [|l1 ls]; [auto|].
  destruct (header_line_ok l1 && forallb (fun l => is_cont l || header_line_ok l) ls); auto.
Qed.

(* on every byte string without backslash, bytes >= 128 and square brackets the verdict is definite *)
Theorem classify_cases bs : clean bs ->
  classify bs = NeedMore \/ classify bs = Bad BadFirstLine \/ classify bs = Bad InvalidHeader
  \/ classify bs = HeadersOk.
Proof.
  intros C. unfold classify. destruct (cut_crlf bs) as [[line rest]|] eqn:E; [|auto].
  destruct (cut_crlf_in _ _ _ E) as [H1 H2].
  destruct (first_line_cases line) as [-> | ->]; [intros c I; apply C, H1, I | | auto].
  destruct (starts_with [13; 10] rest); [auto|].
  destruct (cut_crlf2 rest) as [blk|] eqn:E2; [|auto].
  destruct (header_block_cases blk) as [-> | ->]; auto.
  intros c I. apply C, H2. eapply cut_crlf2_in; eauto.
Qed.

Definition pend_ok (p : pending) : Prop := hres_ok (snd p).

Lemma phase1_ok secure h : forall t, Forall pend_ok (snd (fst (phase1 secure t h))).
Proof.
  induction h as [|o r IH]; intros t; [constructor|]. destruct o as [s a|s]; cbn [phase1]; [|apply IH].
  pose proof (read_ok_hres _ _ _ _ (on_read_ok secure (t s) a)) as H.
  destruct (on_read secure (t s) a) as [[c hr] tags].
  specialize (IH (upd t s c)). destruct (phase1 secure (upd t s c) r) as [[t' ps] tg].
  constructor; [exact H | exact IH].
Qed.

Lemma phase2_shape ps : forall t, Forall pend_ok ps ->
  Forall (fun x => shape (snd x)) (snd (fst (phase2 t ps))).
Proof.
  induction ps as [|[[s a] hr] r IH]; intros t F; [constructor|]. inversion F as [|? ? Hp Hr]; subst.
  cbn [phase2]. pose proof (settle_shape (t s) a hr Hp) as S. rewrite <- cascade_settle in S by exact Hp.
  destruct (cascade (t s) a hr) as [[c effs] tg]. specialize (IH (upd t s c) Hr).
  destruct (phase2 (upd t s c) r) as [[t' es] tgs]. constructor; [exact S | exact IH].
Qed.

(* every read of a burst, whatever was queued around it, has one of the four outcomes *)
Theorem burst_outcome secure h : Forall (fun x => shape (snd x)) (snd (burst secure h)).
Proof.
  unfold burst. pose proof (phase1_ok secure h empty_tables) as F.
  destruct (phase1 secure empty_tables h) as [[t1 ps] tg].
  pose proof (phase2_shape ps t1 F) as S. destruct (phase2 t1 ps) as [[t2 es] tgs]. exact S.
Qed.

Lemma phase2_keeps_empty ps : forall t s, Forall pend_ok ps -> t s = empty_conn ->
  fst (fst (phase2 t ps)) s = empty_conn.
Proof.
  induction ps as [|[[s' a] hr] r IH]; intros t s F E; [exact E|]. inversion F as [|? ? Hp Hr]; subst.
  cbn [phase2]. pose proof (settle_conn (t s') a hr Hp) as C. rewrite <- cascade_settle in C by exact Hp.
  destruct (cascade (t s') a hr) as [[c effs] tg]. cbn in C.
  specialize (IH (upd t s' c) s Hr). destruct (phase2 (upd t s' c) r) as [[t' es] tgs].
  apply IH. unfold upd. destruct (Nat.eqb s s') eqn:Q; [|exact E].
  apply Nat.eqb_eq in Q. subst s'. rewrite E in C. destruct C as [-> | ->]; reflexivity.
Qed.

(* the tables after the first phase *)
Definition p1step (secure : bool) (t : tables) (o : op) : tables :=
  match o with
  | Read s a => upd t s (hconn_of (on_read secure (t s) a))
  | Disc s => upd t s empty_conn
  end.

Lemma p1step_local secure : local (p1step secure).
Proof. intros t [s a|s]; cbn; eauto. Qed.

Lemma phase1_tables secure h : forall t,
  fst (fst (phase1 secure t h)) = fold_left (p1step secure) h t.
Proof.
  induction h as [|o r IH]; intros t; [reflexivity|]. destruct o as [s a|s]; cbn [phase1 fold_left]; [|apply IH].
  rewrite <- IH. cbn [p1step]. destruct (on_read secure (t s) a) as [[c hr] tags]. cbn [hconn_of fst].
  destruct (phase1 secure (upd t s c) r) as [[t' ps] tg]. reflexivity.
Qed.
