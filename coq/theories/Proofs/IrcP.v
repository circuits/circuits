(* An accepted IRC message serialises to exactly one CRLF-terminated line, and the Line
   protocol hands a stream of such messages on as one line per message. *)
From Coq Require Import List NArith Bool.
From Circ Require Import Model.Irc Model.Line Proofs.LineP.
Import ListNotations.
Open Scope N_scope.

Definition clean (s : list N) := Forall (fun c => forbidden c = false) s.

Lemma clean_app a b : clean a -> clean b -> clean (a ++ b).
Proof. intros; apply Forall_app; split; assumption. Qed.

Lemma existsb_false_Forall {A} (f : A -> bool) l :
  existsb f l = false -> Forall (fun x => f x = false) l.
Proof.
  induction l as [|x l IH]; cbn; intros H; [constructor|].
  apply orb_false_iff in H as [H1 H2]. constructor; auto.
Qed.

Lemma clean_join sep l : clean sep -> Forall clean l -> clean (join sep l).
Proof.
  intros Hs H. induction H as [|x l Hx Hl IH]; [constructor|].
  destruct l as [|y r]; [exact Hx|].
  change (join sep (x :: y :: r)) with (x ++ sep ++ join sep (y :: r)).
  now repeat apply clean_app.
Qed.

Lemma clean_mark_last l : Forall clean l -> Forall clean (mark_last l).
Proof.
  induction 1 as [|x l Hx Hl IH]; [constructor|].
  destruct l as [|y r].
  - cbn [mark_last]. destruct (mem SP x && negb (starts_colon x)); now repeat constructor.
  - change (mark_last (x :: y :: r)) with (x :: mark_last (y :: r)). now constructor.
Qed.

(* str(message) without its CRLF *)
Definition line_body (m : msg) : list N :=
  (match prefix m with Some p => COLON :: p ++ [SP] | None => [] end)
  ++ command m ++ [SP] ++ join [SP] (mark_last (args m)).

Lemma to_str_body m b : to_str m = Some b -> check_args m = true /\ b = line_body m ++ [13; 10].
Proof.
  unfold to_str, line_body. destruct (check_args m); [|discriminate].
  intros [= <-]. now rewrite <- !app_assoc.
Qed.

(* the second and the third conjunct of _check_args *)
Lemma check_args_nosp m :
  check_args m = true -> Forall (fun s => mem SP s = false) (head_parts m).
Proof.
  unfold check_args. intros C. apply andb_prop in C as [C _]. apply andb_prop in C as [_ C].
  now apply negb_true_iff, existsb_false_Forall in C.
Qed.

Lemma check_args_clean m : check_args m = true -> Forall clean (head_parts m ++ args m).
Proof.
  unfold check_args. intros C. apply andb_prop in C as [_ C].
  apply negb_true_iff, existsb_false_Forall in C.
  eapply Forall_impl; [|exact C]. apply existsb_false_Forall.
Qed.

Theorem one_line m b : to_str m = Some b ->
  exists body, b = body ++ [13; 10] /\ clean body.
Proof.
  intros H. apply to_str_body in H as [C ->]. exists (line_body m). split; [reflexivity|].
  apply check_args_clean, Forall_app in C as [Hh Ha].
  unfold head_parts in Hh. inversion Hh as [|? ? Hc Hp]; subst.
  assert (clean [SP]) by now repeat constructor.
  apply clean_app.
  - destruct (prefix m) as [p|]; [|constructor].
    inversion Hp; subst. constructor; [reflexivity|]. now apply clean_app.
  - repeat apply clean_app; trivial. now apply clean_join, clean_mark_last.
Qed.

Lemma clean_noLF s : clean s -> noLF s.
Proof.
  apply Forall_impl. intros c H. unfold forbidden in H.
  apply orb_false_iff in H as [H _]. now apply orb_false_iff in H as [_ H].
Qed.

Lemma clean_not_ends_cr s : clean s -> ~ ends_cr s.
Proof. intros H [l' ->]. apply Forall_app in H as [_ H]. inversion H as [|? ? Hc _]; subst. discriminate Hc. Qed.

Definition crlf_lines (bodies : list (list N)) : list (list N * bool) :=
  map (fun b => (b, true)) bodies.

Lemma crlf_lines_fst bodies : map fst (crlf_lines bodies) = bodies.
Proof. unfold crlf_lines. rewrite map_map. apply map_id. Qed.

Lemma crlf_stream bs bodies :
  Forall2 (fun b body => b = body ++ [13; 10] /\ clean body) bs bodies ->
  wf_lines (crlf_lines bodies) /\ concat bs = join_lines (crlf_lines bodies) [].
Proof.
  induction 1 as [|b body bs' r [-> Hc] _ [W J]]; [now split|].
  cbn [crlf_lines map wf_lines join_lines concat]. fold (crlf_lines r). rewrite J, <- app_assoc.
  repeat split; [now apply clean_noLF|discriminate|exact W].
Qed.

Theorem message_stream (ms : list msg) (bs : list (list N)) (chunks : list (list N)) :
  Forall2 (fun m b => to_str m = Some b) ms bs ->
  concat chunks = concat bs ->
  exists bodies, run [] chunks = (bodies, []) /\
                 Forall2 (fun b body => b = body ++ [13; 10] /\ clean body) bs bodies.
Proof.
  intros H E.
  assert (exists bodies, Forall2 (fun b body => b = body ++ [13; 10] /\ clean body) bs bodies)
    as (bodies & HB).
  { clear E. induction H as [|m b ms' bs' Hm _ (r & Hr)]; [now exists []|].
    destruct (one_line m b Hm) as (body & Hb). exists (body :: r). now constructor. }
  exists bodies. split; [|exact HB]. destruct (crlf_stream bs bodies HB) as [W J].
  rewrite <- (crlf_lines_fst bodies). apply lines_exact; [exact W|constructor|now rewrite E].
Qed.
