(* Round trip  parsemsg (to_str m) = m  for canonical IRC messages: each of the three
   scanners of parsemsg is walked over the space-joined tokens that to_str emits. *)
From Coq Require Import List NArith Bool.
From Circ Require Import Model.Irc Proofs.IrcP.
Import ListNotations.
Open Scope N_scope.

Definition tok (s : list N) : Prop :=
  s <> [] /\ Forall (fun c => is_ws c = false) s /\ starts_colon s = false.
Definition last_ok (s : list N) : Prop :=
  tok s \/ (mem SP s = true /\ starts_colon s = false).
Definition canonical (m : msg) : Prop :=
  tok (command m) /\
  match rev (args m) with
  | [] => True
  | l :: front_rev => last_ok l /\ Forall tok front_rev
  end.

Definition nosp (s : list N) : Prop := Forall (fun c => (c =? SP) = false) s.

Lemma mem_nosp s : mem SP s = false <-> nosp s.
Proof.
  unfold mem, nosp. induction s as [|c s IH]; cbn [existsb]; [easy|].
  rewrite orb_false_iff, IH, N.eqb_sym. symmetry. apply Forall_cons_iff.
Qed.

Lemma tok_nosp t : tok t -> nosp t.
Proof.
  intros (_ & H & _). revert H. apply Forall_impl. intros c Hc.
  destruct (N.eqb_spec c SP) as [->|]; [discriminate Hc|reflexivity].
Qed.

Lemma rev_eq_nil {A} (l : list A) : rev l = [] -> l = [].
Proof. intros E. now rewrite <- (rev_involutive l), E. Qed.

Lemma join_cons sep x ts : ts <> [] -> join sep (x :: ts) = x ++ sep ++ join sep ts.
Proof. destruct ts; [contradiction|reflexivity]. Qed.

Lemma join_snoc sep ts x : ts <> [] -> join sep (ts ++ [x]) = join sep ts ++ sep ++ x.
Proof.
  induction ts as [|t ts IH]; [contradiction|]. intros _.
  destruct ts as [|t2 ts]; [reflexivity|].
  change ((t :: t2 :: ts) ++ [x]) with (t :: ((t2 :: ts) ++ [x])).
  rewrite !join_cons, IH by discriminate. now rewrite <- !app_assoc.
Qed.

Lemma join_head t ts : tok t ->
  exists d rest, join [SP] (t :: ts) = d :: rest /\ (d =? COLON) = false.
Proof.
  intros (Hne & _ & Hc). destruct t as [|d t]; [contradiction|].
  exists d. destruct ts as [|t2 ts]; cbn [join app]; eexists; (split; [reflexivity|exact Hc]).
Qed.

Lemma mark_last_snoc front l :
  mark_last (front ++ [l]) =
  front ++ [if mem SP l && negb (starts_colon l) then COLON :: l else l].
Proof.
  induction front as [|a f IH].
  - cbn [app mark_last]. destruct (mem SP l && negb (starts_colon l)); reflexivity.
  - change ((a :: f) ++ [l]) with (a :: (f ++ [l])).
    destruct (f ++ [l]) as [|y r] eqn:E; [destruct f; discriminate|].
    change (mark_last (a :: y :: r)) with (a :: mark_last (y :: r)).
    rewrite IH. reflexivity.
Qed.

Lemma split_sp_walk p : nosp p -> forall cur r,
  split_sp cur (p ++ SP :: r) = Some (rev cur ++ p, r).
Proof.
  induction 1 as [|c p Hc Hp IH]; intros cur r; cbn [app split_sp].
  - now rewrite N.eqb_refl, app_nil_r.
  - rewrite Hc, IH. cbn [rev]. now rewrite <- app_assoc.
Qed.

Lemma spc_step c cur t : (c =? SP) = false ->
  split_spcolon cur (c :: t) = split_spcolon (c :: cur) t.
Proof. intros H. destruct t as [|d t]; [reflexivity|]. cbn [split_spcolon]. now rewrite H. Qed.

Lemma spc_walk t : nosp t -> forall cur s,
  split_spcolon cur (t ++ s) = split_spcolon (rev t ++ cur) s.
Proof.
  induction 1 as [|c t Hc Ht IH]; intros cur s; [reflexivity|].
  cbn [app rev]. rewrite spc_step by exact Hc. rewrite IH. now rewrite <- app_assoc.
Qed.

Lemma spc_at_sp cur d r :
  split_spcolon cur (SP :: d :: r) =
  if d =? COLON then Some (rev cur, r) else split_spcolon (SP :: cur) (d :: r).
Proof. reflexivity. Qed.

(* no ' :' inside a space-joined sequence of tokens: every space in it is followed
   by the first character of a token *)
Lemma spc_toks ts : Forall tok ts -> forall cur s,
  split_spcolon cur (join [SP] ts ++ s) = split_spcolon (rev (join [SP] ts) ++ cur) s.
Proof.
  induction 1 as [|t ts Ht Hts IH]; intros cur s; [reflexivity|].
  destruct ts as [|t2 ts]; [now apply spc_walk, tok_nosp|].
  inversion Hts as [|? ? Ht2 _]; subst.
  destruct (join_head t2 ts Ht2) as (d & rest & E & Hd).
  specialize (IH (SP :: rev t ++ cur) s). rewrite join_cons by discriminate. rewrite E in *.
  rewrite <- !app_assoc. cbn [app] in *. rewrite spc_walk by now apply tok_nosp.
  rewrite spc_at_sp, Hd, IH, rev_app_distr. cbn [rev]. now rewrite <- !app_assoc.
Qed.

Lemma spc_none ts cur : Forall tok ts -> split_spcolon cur (join [SP] ts) = None.
Proof. intros H. rewrite <- (app_nil_r (join _ _)), spc_toks by exact H. reflexivity. Qed.

(* the first ' :' after a space-joined sequence of tokens is the one that follows it *)
Lemma spc_found ts l cur : Forall tok ts ->
  split_spcolon cur (join [SP] ts ++ SP :: COLON :: l) = Some (rev cur ++ join [SP] ts, l).
Proof.
  intros H. rewrite spc_toks by exact H. rewrite spc_at_sp, N.eqb_refl.
  now rewrite rev_app_distr, rev_involutive.
Qed.

Lemma ws_walk t : Forall (fun c => is_ws c = false) t -> forall cur s,
  ws_split_aux cur (t ++ s) = ws_split_aux (rev t ++ cur) s.
Proof.
  induction 1 as [|c t Hc Ht IH]; intros cur s; [reflexivity|].
  cbn [app rev ws_split_aux]. rewrite Hc, IH. now rewrite <- app_assoc.
Qed.

Lemma ws_tok_sp t s : tok t -> ws_split_aux [] (t ++ SP :: s) = t :: ws_split_aux [] s.
Proof.
  intros (Hne & Hws & _). rewrite (ws_walk t Hws), app_nil_r. rewrite <- (rev_involutive t) at 2.
  destruct (rev t) eqn:E; [now apply rev_eq_nil in E|reflexivity].
Qed.

Lemma ws_tok_end t : tok t -> ws_split_aux [] t = [t].
Proof.
  intros (Hne & Hws & _). rewrite <- (app_nil_r t) at 1.
  rewrite (ws_walk t Hws), app_nil_r. rewrite <- (rev_involutive t) at 2.
  destruct (rev t) eqn:E; [now apply rev_eq_nil in E|reflexivity].
Qed.

Lemma ws_join ts : Forall tok ts -> ws_split (join [SP] ts) = ts.
Proof.
  unfold ws_split. induction 1 as [|t ts Ht Hts IH]; [reflexivity|].
  destruct ts as [|t2 ts]; [now apply ws_tok_end|].
  rewrite join_cons by discriminate. cbn [app]. now rewrite ws_tok_sp, IH.
Qed.

Definition parse_args (r : list N) : list (list N) :=
  match split_spcolon [] r with
  | Some (front, trailing) => ws_split front ++ [trailing]
  | None => ws_split r
  end.

Definition finish (p : list N) (a : list (list N)) : parsed :=
  match a with [] => POk p None [] | c :: rest => POk p (Some c) rest end.

Lemma parsemsg_noprefix s : starts_colon s = false ->
  parsemsg s = finish [] (parse_args s).
Proof.
  intros H. destruct s as [|c s]; [reflexivity|].
  change (starts_colon (c :: s)) with (c =? COLON) in H.
  unfold parsemsg. rewrite H. reflexivity.
Qed.

Lemma parsemsg_prefix p r : nosp p ->
  parsemsg (COLON :: p ++ SP :: r) = finish p (parse_args r).
Proof.
  intros H. unfold parsemsg. rewrite N.eqb_refl.
  rewrite (split_sp_walk p H). reflexivity.
Qed.

Lemma parse_args_ok cmd al : tok cmd ->
  match rev al with
  | [] => True
  | l :: front_rev => last_ok l /\ Forall tok front_rev
  end ->
  parse_args (cmd ++ [SP] ++ join [SP] (mark_last al)) = cmd :: al.
Proof.
  intros Hcmd Hal. unfold parse_args. destruct al as [|l front _] using rev_ind.
  - (* no arguments:  "CMD " *)
    cbn [mark_last join app]. rewrite (spc_toks [cmd]) by now constructor.
    cbn [split_spcolon]. now rewrite ws_tok_sp.
  - rewrite rev_unit in Hal. destruct Hal as (Hl & Hfr).
    apply Forall_rev in Hfr. rewrite rev_involutive in Hfr.
    assert (Hall : Forall tok (cmd :: front)) by now constructor.
    rewrite mark_last_snoc, <- join_cons by now destruct front.
    change (cmd :: front ++ ?x) with ((cmd :: front) ++ x).
    destruct Hl as [Hl | (Hsp & Hcol)].
    + (* last argument is a token: no ' :' anywhere *)
      rewrite (proj2 (mem_nosp l)) by now apply tok_nosp.
      assert (Hall' : Forall tok ((cmd :: front) ++ [l])).
      { apply Forall_app. now split; [|constructor]. }
      cbn [andb]. rewrite spc_none by exact Hall'. now apply ws_join.
    + (* last argument with spaces: emitted as " :" ++ l *)
      rewrite Hsp, Hcol, join_snoc by discriminate.
      cbn [andb negb app]. rewrite spc_found by exact Hall. cbn [rev app]. now rewrite ws_join.
Qed.

Theorem roundtrip m b : to_str m = Some b -> canonical m ->
  exists body, b = body ++ [13; 10] /\
    parsemsg body = POk (match prefix m with Some p => p | None => [] end)
                        (Some (command m)) (args m).
Proof.
  intros H (Hcmd & Hargs). apply to_str_body in H as [C ->].
  exists (line_body m). split; [reflexivity|].
  pose proof (parse_args_ok _ _ Hcmd Hargs) as HR.
  unfold line_body. set (R := command m ++ _) in *.
  apply check_args_nosp in C. unfold head_parts in C. destruct (prefix m) as [p|].
  - assert (Hp : nosp p).
    { apply mem_nosp. rewrite Forall_forall in C. apply C. cbn. auto. }
    cbn [app]. rewrite <- app_assoc. change ([SP] ++ R) with (SP :: R).
    now rewrite (parsemsg_prefix p R Hp), HR.
  - cbn [app]. rewrite parsemsg_noprefix, HR; [reflexivity|].
    destruct Hcmd as (Hne & _ & Hc). subst R. now destruct (command m).
Qed.
