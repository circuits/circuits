(* C08 -- proofs about Model/KLoop.v: one inductive invariant of the loop state relative to the trace produced
   since run() was entered.  Every layer (acts, handlers, dispatcher, flush, tasks, tick at every nesting depth)
   is shown to move the state forward in the preorder [fwd]; [run_spec] then reads everything the property says
   about one run() off the invariant at the end. *)
From Coq Require Import List ZArith Bool Lia.
From Circ Require Import Model.KLoop.
Import ListNotations.

Definition firedK (d : list tr) : list evk :=
  flat_map (fun x => match x with TFire k => [k] | _ => [] end) d.
Definition dispK (d : list tr) : list evk :=
  flat_map (fun x => match x with TDisp k => [k] | _ => [] end) d.
Definition reqs (d : list tr) : list (option Z) :=
  flat_map (fun x => match x with TReq c => [c] | _ => [] end) d.
Definition cnt (k : evk) (l : list evk) : nat := length (filter (evk_eqb k) l).

Lemma firedK_app a b : firedK (a ++ b) = firedK a ++ firedK b.
Proof. apply flat_map_app. Qed.
Lemma dispK_app a b : dispK (a ++ b) = dispK a ++ dispK b.
Proof. apply flat_map_app. Qed.
Lemma reqs_app a b : reqs (a ++ b) = reqs a ++ reqs b.
Proof. apply flat_map_app. Qed.
Lemma cnt_app k a b : cnt k (a ++ b) = cnt k a + cnt k b.
Proof. unfold cnt. rewrite filter_app, app_length. reflexivity. Qed.

Definition at_rest (s : st) : Prop :=
  running s = false /\ executing s = false /\ fifo s = [] /\ heap s = [] /\ batch s = 0 /\ bad s = false.
(* [pend]: a pre-empted stopping thread left over from an earlier run *)
Definition idle (s : st) : Prop := at_rest s /\ pend s = None.

Definition is_early (p : option (bool * option Z)) : bool :=
  match p with Some (true, _) => true | _ => false end.

(* t0 is the trace when run() was entered *)
Definition Inv (t0 : list tr) (s : st) : Prop :=
  exists d, trace s = t0 ++ d /\
    batch s = length (heap s) /\
    firedK d = dispK d ++ heap s ++ fifo s /\
    cnt KStarted (firedK d) = 1 /\
    (if running s
     then cnt KStopped (firedK d) = 0 /\ reqs d = [] /\ pend s = None
     else cnt KStopped (firedK d) = (if is_early (pend s) then 0 else 1) /\
          exists c r, reqs d = c :: r /\ xcode s = c).

Definition mono (s s' : st) : Prop := running s = false -> running s' = false.
Definition good (f : st -> st) : Prop := forall t0 s, Inv t0 s -> Inv t0 (f s) /\ mono s (f s).

Lemma mono_trans a b c : mono a b -> mono b c -> mono a c. Proof. unfold mono; auto. Qed.

(* s' is a state the loop may move on to from s: the invariant carries over (whatever the trace at entry was)
   and a stopped manager stays stopped.  A preorder; every layer of the loop is shown to move forward.
   Setting a field the invariant does not read (tasks, nextg, sched, ext, mid, bad, executing) gives a state whose
   invariant is convertible with the old one (the [inv_set_*] below are the identity), so everything below applies
   through such setters as it stands. *)
Definition fwd (s s' : st) : Prop := forall t0, Inv t0 s -> Inv t0 s' /\ mono s s'.

Lemma fwd_refl s : fwd s s.
Proof. intros t0 H. split; [exact H | exact (fun R => R)]. Qed.
Lemma fwd_trans a b c : fwd a b -> fwd b c -> fwd a c.
Proof.
  intros F G t0 H. destruct (F t0 H) as (H1 & M1). destruct (G t0 H1) as (H2 & M2).
  split; [exact H2 | exact (mono_trans a b c M1 M2)].
Qed.
Lemma good_fwd f : good f -> forall s, fwd s (f s).
Proof. intros G s t0. apply G. Qed.
Lemma fwd_from t0 s s1 s' : Inv t0 s1 -> mono s s1 -> fwd s1 s' -> Inv t0 s' /\ mono s s'.
Proof. intros H1 M1 F. destruct (F t0 H1) as (H2 & M2). split; [exact H2 | exact (mono_trans s s1 s' M1 M2)]. Qed.

(* a stretch x of trace during which nobody starts or stops the manager *)
Lemma fwd_append x s s' :
  trace s' = trace s ++ x -> running s' = running s -> pend s' = pend s -> xcode s' = xcode s ->
  (batch s = length (heap s) -> batch s' = length (heap s')) ->
  heap s ++ fifo s ++ firedK x = dispK x ++ heap s' ++ fifo s' ->
  cnt KStarted (firedK x) = 0 -> cnt KStopped (firedK x) = 0 -> (running s = true -> reqs x = []) ->
  fwd s s'.
Proof.
  intros Et Er Ep Ex Eb Eq N1 N2 Nr t0 (d & Ht & Hb & Hf & Hs & Hr). split; [|intros R; now rewrite Er].
  exists (d ++ x). rewrite Et, Ht, <- app_assoc. split; [reflexivity|]. split; [exact (Eb Hb)|].
  rewrite firedK_app, dispK_app, reqs_app, !cnt_app, N1, N2, !Nat.add_0_r, Er, Ep, Ex.
  split; [now rewrite Hf, <- !app_assoc, Eq|]. split; [exact Hs|].
  destruct (running s).
  - now rewrite (Nr eq_refl), app_nil_r.
  - destruct Hr as (H1 & c & r & Hq & Hx). split; [exact H1|]. exists c, (r ++ reqs x). now rewrite Hq.
Qed.

Definition quiet (x : tr) : Prop :=
  match x with TFire _ | TDisp _ | TReq _ => False | _ => True end.

Lemma fwd_logt x s : quiet x -> fwd s (logt x s).
Proof.
  intros Q. assert (firedK [x] = [] /\ dispK [x] = [] /\ reqs [x] = []) as (E1 & E2 & E3)
    by (destruct x; try destruct Q; auto).
  apply (fwd_append [x]); rewrite ?E1, ?E2, ?E3; auto. now rewrite app_nil_r.
Qed.

Definition ordinary (k : evk) : Prop :=
  match k with KStarted | KStopped => False | _ => True end.

Lemma fwd_fire k s : ordinary k -> fwd s (fire k s).
Proof. intros N. apply (fwd_append [TFire k]); auto; now destruct k. Qed.

(* the pop of dispatchEvents followed by the dispatcher's entry *)
Lemma fwd_pop s k h b : batch s = S b -> heap s = k :: h -> fwd s (logt (TDisp k) (set_heap h (set_batch b s))).
Proof.
  intros Eb Eh. apply (fwd_append [TDisp k]); auto; cbn; rewrite Eh; cbn; [lia|now rewrite app_nil_r].
Qed.

Lemma fwd_req_idle c s : running s = false -> fwd s (logt (TReq c) s).
Proof. intros R. apply (fwd_append [TReq c]); auto; [now rewrite app_nil_r|congruence]. Qed.

(* dispatchEvents takes the fifo as its next batch *)
Lemma fwd_load s : batch s = 0 -> fwd s (set_batch (length (fifo s)) (set_heap (heap s ++ fifo s) (set_fifo [] s))).
Proof.
  intros E0 t0 (d & Ht & Hb & Hf & Hs & Hr). split; [|exact (fun R => R)]. exists d. simpl.
  assert (heap s = []) as Eh by (destruct (heap s); [reflexivity | simpl in Hb; lia]).
  rewrite Eh in *. simpl in *. rewrite app_nil_r. auto.
Qed.

(* the first stop request on a running manager, followed by a stretch x of trace in which `stopped` is fired
   once, or not at all if the stopping thread ends up parked before its fire *)
Lemma fwd_stopping c x s s' : running s = true ->
  trace s' = trace s ++ TReq c :: x -> dispK x = [] -> reqs x = [] ->
  (pend s = None -> firedK x = (if is_early (pend s') then [] else [KStopped])) ->
  running s' = false -> xcode s' = c -> batch s' = batch s -> heap s' = heap s -> fifo s' = fifo s ++ firedK x ->
  fwd s s'.
Proof.
  intros R Et Ed Eq Ef R' Ex Eb Eh Eo t0 (d & Ht & Hb & Hf & Hs & Hr). split; [|intros _; exact R'].
  rewrite R in Hr. destruct Hr as (H0 & Hq & Hp). exists (d ++ TReq c :: x).
  rewrite Et, Ht, <- app_assoc. split; [reflexivity|].
  rewrite firedK_app, dispK_app, reqs_app.
  change (firedK (TReq c :: x)) with (firedK x). change (dispK (TReq c :: x)) with (dispK x).
  change (reqs (TReq c :: x)) with (c :: reqs x).
  rewrite R', Ex, Eb, Eh, Eo, Ed, Eq, Hq, app_nil_r, !cnt_app, Hs, H0, Hf, <- !app_assoc.
  split; [exact Hb|]. split; [reflexivity|]. rewrite (Ef Hp).
  destruct (is_early (pend s')); (split; [reflexivity|split; [reflexivity|exists c, []; auto]]).
Qed.

(* stop(c) up to its fire(stopped) ... *)
Lemma fwd_req_running c s : running s = true ->
  fwd s (fire KStopped (set_xcode c (set_running false (logt (TReq c) s)))).
Proof. intros R. apply (fwd_stopping c [TFire KStopped]); auto; cbn; [now rewrite <- app_assoc|now intros ->]. Qed.

(* ... the second thread's, pre-empted before that fire (early) or right after it (late) *)
Lemma fwd_stop_early c s : running s = true ->
  fwd s (set_pend (Some (true, c)) (logt TEarly (set_xcode c (set_running false (logt (TReq c) s))))).
Proof. intros R. apply (fwd_stopping c [TEarly]); auto; cbn; [now rewrite <- app_assoc|now rewrite app_nil_r]. Qed.

Lemma fwd_stop_late c s : running s = true ->
  fwd s (set_pend (Some (false, c)) (logt TLate (fire KStopped (set_xcode c (set_running false (logt (TReq c) s)))))).
Proof. intros R. apply (fwd_stopping c [TFire KStopped; TLate]); auto; cbn; now rewrite <- !app_assoc. Qed.

Lemma stop_idle tk c s : running s = false -> stop tk c s = (s, false).
Proof. intros R. unfold stop. rewrite R. reflexivity. Qed.

Lemma inv_set_tasks t0 v s : Inv t0 s -> Inv t0 (set_tasks v s). Proof. exact (fun H => H). Qed.
Lemma inv_set_nextg t0 v s : Inv t0 s -> Inv t0 (set_nextg v s). Proof. exact (fun H => H). Qed.
Lemma inv_set_sched t0 v s : Inv t0 s -> Inv t0 (set_sched v s). Proof. exact (fun H => H). Qed.
Lemma inv_set_ext t0 v s : Inv t0 s -> Inv t0 (set_ext v s). Proof. exact (fun H => H). Qed.
Lemma inv_set_mid t0 v s : Inv t0 s -> Inv t0 (set_mid v s). Proof. exact (fun H => H). Qed.
Lemma inv_set_bad t0 s : Inv t0 s -> Inv t0 (set_bad s). Proof. exact (fun H => H). Qed.
Lemma inv_set_executing t0 v s : Inv t0 s -> Inv t0 (set_executing v s). Proof. exact (fun H => H). Qed.

Section Layers.
Variable P : prog.
Variable ticker : st -> st.
Hypothesis Htk : good ticker.

Lemma fwd_ticker3 s : fwd s (ticker (ticker (ticker s))).
Proof. pose proof (good_fwd ticker Htk) as T. exact (fwd_trans _ _ _ (fwd_trans _ _ _ (T s) (T _)) (T _)). Qed.

Lemma req_stop_good t0 c s : Inv t0 s ->
  Inv t0 (fst (req_stop ticker c s)) /\ mono s (fst (req_stop ticker c s)) /\
  (snd (req_stop ticker c s) = true -> running (fst (req_stop ticker c s)) = false).
Proof.
  intros H. unfold req_stop, stop. change (running (logt (TReq c) s)) with (running s).
  destruct (running s) eqn:R; simpl negb; cbv iota.
  - destruct (fwd_req_running c s R t0 H) as (H1 & _).
    set (s1 := fire KStopped (set_xcode c (set_running false (logt (TReq c) s)))) in *.
    assert (F : fwd s1 (if executing s1 then s1 else ticker (ticker (ticker s1))))
      by (destruct (executing s1); [apply fwd_refl | apply fwd_ticker3]).
    destruct (F t0 H1) as (H2 & M2).
    split; [exact H2|]. split; [intros R'; congruence | intros _; exact (M2 eq_refl)].
  - destruct (fwd_req_idle c s R t0 H) as (H1 & M1). split; [exact H1|]. split; [exact M1 | discriminate].
Qed.

Lemma req_stop_fwd c s : fwd s (fst (req_stop ticker c s)).
Proof. intros t0 H. destruct (req_stop_good t0 c s H) as (A & B & _). auto. Qed.

(* a second thread's complete stop(c): SystemExit is raised in that thread *)
Lemma t2_stop_fwd c s s' raised : req_stop ticker c s = (s', raised) -> fwd s (t2_raise c raised s').
Proof.
  intros E. pose proof (req_stop_fwd c s) as F. rewrite E in F. apply (fwd_trans _ _ _ F).
  unfold t2_raise. destruct raised, c; apply fwd_refl || (apply fwd_logt; exact I).
Qed.

(* an abort by XStopped means the manager is not running any more; bodies abort in no other way *)
Definition stopped_abort (e : option exn) (s : st) : Prop :=
  match e with None => True | Some (XStopped _) => running s = false | Some _ => False end.

Lemma no_abort t0 s s' : fwd s s' -> Inv t0 s -> Inv t0 s' /\ mono s s' /\ stopped_abort None s'.
Proof. intros F H. destruct (F t0 H) as (A & B). exact (conj A (conj B I)). Qed.

Lemma exec_act_good t0 a s : Inv t0 s ->
  Inv t0 (fst (exec_act ticker a s)) /\ mono s (fst (exec_act ticker a s)) /\
  stopped_abort (snd (exec_act ticker a s)) (fst (exec_act ticker a s)).
Proof.
  intros H. destruct a as [thr n | [|] c | thr c]; cbn [exec_act].
  - exact (no_abort t0 s _ (fwd_fire (KUser n) s I) H).
  - destruct (req_stop ticker c s) as (s', raised) eqn:E. exact (no_abort t0 s _ (t2_stop_fwd c s s' raised E) H).
  - destruct (req_stop_good t0 c s H) as (A & B & S).
    destruct (req_stop ticker c s) as (s', raised). cbn [fst snd] in *.
    split; [exact A|]. split; [exact B|]. destruct raised, c; cbn; auto.
  - rewrite (stop_idle ticker c never_run eq_refl). exact (no_abort t0 s _ (fwd_logt (TChildStop c) s I) H).
Qed.

Lemma exec_acts_good t0 l : forall s, Inv t0 s ->
  Inv t0 (fst (exec_acts ticker l s)) /\ mono s (fst (exec_acts ticker l s)) /\
  stopped_abort (snd (exec_acts ticker l s)) (fst (exec_acts ticker l s)).
Proof.
  induction l as [|a r IH]; intros s H; cbn [exec_acts].
  - exact (no_abort t0 s s (fwd_refl s) H).
  - destruct (exec_act_good t0 a s H) as (H1 & M1 & S1).
    destruct (exec_act ticker a s) as (s1, [x|]); cbn [fst snd] in *; [auto|].
    destruct (IH s1 H1) as (H2 & M2 & S2). split; [exact H2|]. split; [exact (mono_trans _ _ _ M1 M2) | exact S2].
Qed.

(* the except clauses: an XStopped reaches them only from a manager that has stopped *)
Lemma on_stop_exn_fwd x s : (forall z, x = XStopped z -> running s = false) -> fwd s (on_stop_exn ticker x s).
Proof.
  intros Hx. destruct x; cbn [on_stop_exn]; try apply req_stop_fwd; [|apply fwd_refl].
  rewrite (stop_idle ticker (Some c) s (Hx c eq_refl)). apply fwd_refl.
Qed.

Lemma on_exn_fwd x s : (forall z, x = XStopped z -> running s = false) -> fwd s (on_exn ticker x s).
Proof.
  intros Hx. destruct x; try (apply on_stop_exn_fwd; exact Hx). exact (fwd_fire KExc s I).
Qed.

Lemma on_exn_task_fwd g j x s : (forall z, x = XStopped z -> running s = false) -> fwd s (on_exn_task ticker g j x s).
Proof.
  intros Hx. destruct x; try exact (on_stop_exn_fwd _ (update_task g j [] s) Hx).
  exact (fwd_fire KExc (remove_task g s) I).
Qed.

Lemma end_of_not_stopped r x z : end_of r = Some x -> x <> XStopped z.
Proof. destruct r; simpl; intros [= <-]; discriminate. Qed.

Lemma run_handler_fwd k i b s : fwd s (run_handler ticker k i b s).
Proof.
  destruct b as [acts r | segs]; cbn [run_handler]; [|exact (fwd_logt (TC k i (nextg s)) _ I)].
  intros t0 H. destruct (fwd_logt (TH k i) s I t0 H) as (H0 & _).
  destruct (exec_acts_good t0 acts _ H0) as (H1 & M1 & S1).
  destruct (exec_acts ticker acts (logt (TH k i) s)) as (s1, e). cbn [fst snd] in *.
  apply (fwd_from t0 s s1 _ H1 M1). destruct e as [x|]; [apply on_exn_fwd; intros z ->; exact S1|].
  destruct (end_of r) as [x|] eqn:Er; [|apply fwd_refl].
  apply on_exn_fwd. intros z E. destruct (end_of_not_stopped r x z Er E).
Qed.

Lemma run_handlers_fwd k bs : forall i s, fwd s (run_handlers ticker k i bs s).
Proof.
  induction bs as [|b r IH]; intros i s; cbn [run_handlers]; [apply fwd_refl|].
  exact (fwd_trans _ _ _ (run_handler_fwd k i b s) (IH (S i) _)).
Qed.

Lemma do_xact_good t0 tm x s : Inv t0 s ->
  Inv t0 (fst (do_xact false ticker tm x s)) /\ mono s (fst (do_xact false ticker tm x s)).
Proof.
  intros H. destruct x as [| n | m c | c]; cbn [do_xact].
  - exact (fwd_refl s t0 H).
  - exact (fwd_fire (KUser n) s I t0 H).
  - assert (J : fwd s (fst (let '(s', raised) := req_stop ticker c s in (t2_raise c raised s', running s)))).
    { destruct (req_stop ticker c s) as (s', raised) eqn:E. exact (t2_stop_fwd c s s' raised E). }
    destruct (running s && executing s) eqn:L; [|exact (J t0 H)]. apply andb_true_iff in L as (R & _).
    destruct m; [exact (J t0 H) | destruct tm; [|exact (J t0 H)] |].
    + exact (fwd_stop_early c s R t0 H).
    + exact (fwd_stop_late c s R t0 H).
  - rewrite (stop_idle ticker c never_run eq_refl). exact (fwd_logt (TChildStop c) s I t0 H).
Qed.

Lemma do_xact_fwd tm x s : fwd s (fst (do_xact false ticker tm x s)).
Proof. intros t0. apply do_xact_good. Qed.

Lemma idle_wait_fwd xs : forall s, fwd s (idle_wait false ticker xs s).
Proof.
  induction xs as [|x r IH]; intros s; cbn [idle_wait].
  - apply (fwd_trans _ _ _ (fwd_logt (TWait true) (set_ext [] s) I)).
    destruct (running _); [apply req_stop_fwd | exact (fwd_refl _)].
  - apply (fwd_trans _ _ _ (fwd_logt (TWait true) (set_ext r s) I)).
    pose proof (do_xact_fwd false x (logt (TWait true) (set_ext r s))) as F.
    destruct (do_xact false ticker false x _) as (s', woke). apply (fwd_trans _ _ _ F).
    destruct woke; [apply fwd_refl | apply IH].
Qed.

Lemma timed_wait_fwd s : fwd s (timed_wait false ticker s).
Proof.
  unfold timed_wait. apply (fwd_trans _ _ _ (fwd_logt (TWait false) s I)).
  destruct (ext _) as [|x r]; [apply fwd_refl | exact (do_xact_fwd true x (set_ext r _))].
Qed.

Lemma dispatch_fwd s k h b : batch s = S b -> heap s = k :: h ->
  fwd s (dispatch false false P ticker k (set_heap h (set_batch b s))).
Proof.
  intros Eb Eh. apply (fwd_trans _ _ _ (fwd_pop s k h b Eb Eh)). unfold dispatch.
  set (s0 := logt (TDisp k) (set_heap h (set_batch b s))).
  destruct k; try apply run_handlers_fwd.
  destruct (_ || _ || _); [apply fwd_refl|]. destruct (tasks s0); [apply idle_wait_fwd | apply timed_wait_fwd].
Qed.

Lemma floop_fwd n : forall s, fwd s (floop false false P ticker n s).
Proof.
  induction n as [|n IH]; intros s; cbn [floop].
  - destruct (batch s =? 0); exact (fwd_refl s).
  - destruct (batch s) as [|b] eqn:Eb; [apply fwd_refl|].
    destruct (heap s) as [|k h] eqn:Eh; [exact (fwd_refl s)|].
    exact (fwd_trans _ _ _ (dispatch_fwd s k h b Eb Eh) (IH _)).
Qed.

Lemma flush_fwd s : fwd s (flush false false P ticker s).
Proof.
  unfold flush. destruct (batch s =? 0) eqn:E; [|apply floop_fwd].
  apply Nat.eqb_eq in E. exact (fwd_trans _ _ _ (fwd_load s E) (floop_fwd _ _)).
Qed.

Lemma proc_task_fwd t s : fwd s (proc_task ticker t s).
Proof.
  destruct t as ((g, j), [|(acts, r) rest]); cbn [proc_task]; [exact (fwd_refl s)|].
  intros t0 H. destruct (fwd_logt (TG g j) s I t0 H) as (H0 & _).
  destruct (exec_acts_good t0 acts _ H0) as (H1 & M1 & S1).
  destruct (exec_acts ticker acts (logt (TG g j) s)) as (s1, e). cbn [fst snd] in *.
  apply (fwd_from t0 s s1 _ H1 M1). destruct e as [x|]; [apply on_exn_task_fwd; intros z ->; exact S1|].
  destruct r; try exact (fwd_refl s1); apply on_exn_task_fwd; discriminate.
Qed.

Lemma proc_gids_fwd l : forall s, fwd s (proc_gids ticker l s).
Proof.
  induction l as [|g r IH]; intros s; cbn [proc_gids]; [apply fwd_refl|].
  refine (fwd_trans _ _ _ _ (IH _)). unfold proc_gid.
  destruct (find_task g (tasks s)); [apply proc_task_fwd | apply fwd_refl].
Qed.

Lemma tick_good : good (tick false false P ticker).
Proof.
  intros t0 s. revert t0. change (fwd s (tick false false P ticker s)). unfold tick.
  pose proof (fwd_logt TTick s I) as F0. set (s0 := logt TTick s) in *.
  (* this tick's schedule entry, then the tasks *)
  destruct (match sched s0 with [] => _ | _ => _ end) as (e, s0') eqn:Es.
  assert (F0' : fwd s s0') by (destruct (sched s0); injection Es as <- <-; exact F0).
  pose proof (fwd_trans _ _ _ F0' (proc_gids_fwd (order e (map gid_of (tasks s0'))) s0')) as F1.
  set (s1 := proc_gids _ _ _) in *.
  assert (Fl : forall s2, fwd s s2 -> fwd s (if 0 <? qlen s2 then flush false false P ticker s2 else s2)).
  { intros s2 F. destruct (0 <? qlen s2); [exact (fwd_trans _ _ _ F (flush_fwd s2)) | exact F]. }
  apply Fl. destruct (running s1); [|exact F1]. apply (fwd_trans _ _ _ F1).
  (* generate_events, after a second thread's whole stop if the script puts one here *)
  destruct (mid s1) as [|[c|] m]; [exact (fwd_fire KGE s1 I) | | exact (fwd_fire KGE (set_mid m s1) I)].
  destruct (req_stop ticker c (set_mid m s1)) as (s', raised) eqn:E.
  exact (fwd_trans _ _ _ (t2_stop_fwd c (set_mid m s1) s' raised E) (fwd_fire KGE _ I)).
Qed.

End Layers.

Lemma tickd_good P d : good (tickd false false P d).
Proof. induction d; cbn [tickd]; [exact (fun t0 s => fwd_refl s t0) | apply tick_good; assumption]. Qed.

Lemma flush_good P d : good (flush false false P (tickd false false P d)).
Proof. intros t0 s. apply flush_fwd, tickd_good. Qed.

(* the loops of run(): [main_loop] and [drain] iterate a body while a guard holds *)
Lemma guarded_loop (loop : nat -> st -> option st) guard body :
  (forall s, loop 0 s = None) ->
  (forall f s, loop (S f) s = if guard s : bool then loop f (body s) else Some s) ->
  good body -> forall fuel s s', loop fuel s = Some s' -> fwd s s' /\ guard s' = false.
Proof.
  intros L0 LS G. induction fuel as [|f IH]; intros s s' E; [now rewrite L0 in E|].
  rewrite LS in E. destruct (guard s) eqn:C.
  - destruct (IH _ _ E) as (F & C'). split; [|exact C']. exact (fwd_trans _ _ _ (good_fwd body G s) F).
  - injection E as <-. split; [apply fwd_refl | exact C].
Qed.

Lemma inv_start t0 s : idle s -> trace s = t0 ->
  Inv t0 (fire KStarted (set_executing true (set_xcode None (set_running true s)))).
Proof.
  intros ((R & X & F & Hh & B & _) & Pn) Ht. exists [TFire KStarted].
  unfold fire, logt; simpl. rewrite Ht, F, Hh, B, Pn. simpl. repeat split; reflexivity.
Qed.

(* everything the property says about one run(), from one use of the invariant.  The count of `stopped` is
   exact: 1, except when a second thread's stop was pre-empted before its fire(stopped) and is still parked when
   run() returns (pend s1 = Some (true, _)) -- then `stopped` has not even been queued: 0 *)
Theorem run_spec : forall P d fuel s0 s1 out, idle s0 -> run false false P d fuel s0 = Some (s1, out) ->
  exists delta, trace s1 = trace s0 ++ delta /\
    firedK delta = dispK delta /\
    cnt KStarted (firedK delta) = 1 /\
    cnt KStopped (firedK delta) = (if is_early (pend s1) then 0 else 1) /\
    (exists r, reqs delta = out :: r) /\
    at_rest s1.
Proof.
  intros P d fuel s0 s1 out Hi E. unfold run in E.
  pose proof (inv_start (trace s0) s0 Hi eq_refl) as H1.
  set (sa := fire KStarted (set_executing true (set_xcode None (set_running true s0)))) in *.
  pose proof (tickd_good P d) as G. set (t := tickd false false P d) in *.
  pose proof (good_fwd t G) as T.
  destruct (main_loop false false P d fuel sa) as [s2|] eqn:E2; [|discriminate].
  destruct (guarded_loop _ _ t (fun _ => eq_refl) (fun _ _ => eq_refl) G _ _ _ E2) as (F2 & C2).
  apply orb_false_iff in C2 as (R2 & _). destruct (F2 _ H1) as (H2 & _).
  (* the four ticks after the loop, then the final drain: the manager stays stopped *)
  pose proof (fwd_trans _ _ _ (fwd_trans _ _ _ (fwd_trans _ _ _ (T s2) (T _)) (T _)) (T _)) as F3.
  destruct (drain false false P d fuel (t (t (t (t s2))))) as [s4|] eqn:E4; [|discriminate].
  destruct (guarded_loop _ _ _ (fun _ => eq_refl) (fun _ _ => eq_refl) (flush_good P d) _ _ _ E4) as (F4 & Q4).
  destruct (fwd_trans _ _ _ F3 F4 _ H2) as (H4 & M4). assert (R4 := M4 R2).
  destruct (bad s4) eqn:B4; [discriminate|]. injection E as <- <-.
  destruct H4 as (dl & Ht & Hb & Hf & Hs & Hr). rewrite R4 in Hr. destruct Hr as (Hst & c & r & Hq & Hx).
  apply Nat.ltb_ge in Q4. unfold qlen in Q4.
  assert (fifo s4 = [] /\ heap s4 = []) as (F4' & Hp4).
  { destruct (fifo s4); destruct (heap s4); simpl in Q4; try lia; auto. }
  rewrite F4', Hp4 in *. simpl in Hb. rewrite !app_nil_r in Hf.
  exists dl. simpl. split; [exact Ht|]. split; [exact Hf|]. split; [exact Hs|]. split; [exact Hst|].
  split; [exists r; rewrite Hq, Hx; reflexivity|].
  unfold at_rest; simpl. repeat split; assumption || reflexivity.
Qed.

Lemma drained : forall P d fuel s0 s1 out, idle s0 -> run false false P d fuel s0 = Some (s1, out) ->
  fifo s1 = [] /\ heap s1 = [] /\ batch s1 = 0 /\
  exists delta, trace s1 = trace s0 ++ delta /\ dispK delta = firedK delta.
Proof.
  intros P d fuel s0 s1 out Hi E. destruct (run_spec P d fuel s0 s1 out Hi E) as (dl & Ht & Hf & Hs & Hst & Hq & Hid).
  destruct Hid as (_ & _ & F & Hh & B & _). repeat split; auto. exists dl. auto.
Qed.
