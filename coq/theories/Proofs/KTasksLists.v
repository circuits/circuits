(* List facts used by Proofs/KTasksP.v: the model's [upd_nth] and nth_error, removal of an element by a boolean
   equality, and the number of elements that satisfy a predicate under these changes. *)
From Coq Require Import List Bool Arith Lia.
From Circ Require Import Model.KTasks.
Import ListNotations.

Lemma nth_error_upd_nth : forall {A} (f : A -> A) l i j,
  nth_error (upd_nth i f l) j = if Nat.eqb i j then option_map f (nth_error l j) else nth_error l j.
Proof.
  intros A f l. induction l as [|x r IH]; intros [|i] [|j]; simpl; try reflexivity.
  - destruct (Nat.eqb i j); reflexivity.
  - apply IH.
Qed.

Lemma length_upd_nth : forall {A} (f : A -> A) l i, length (upd_nth i f l) = length l.
Proof. intros A f l. induction l; intros [|i]; simpl; auto. Qed.

Lemma upd_nth_id : forall {A} (l : list A) i, upd_nth i (fun x => x) l = l.
Proof. intros A l. induction l as [|x r IH]; intros [|i]; simpl; try reflexivity. rewrite IH. reflexivity. Qed.

Lemma upd_nth_comp : forall {A} (f g : A -> A) l i, upd_nth i f (upd_nth i g l) = upd_nth i (fun x => f (g x)) l.
Proof. intros A f g l. induction l as [|x r IH]; intros [|i]; simpl; try reflexivity. rewrite IH. reflexivity. Qed.

Lemma nth_error_upd_same : forall {A} (f : A -> A) l i x, nth_error l i = Some x -> nth_error (upd_nth i f l) i = Some (f x).
Proof. intros. rewrite nth_error_upd_nth, Nat.eqb_refl, H. reflexivity. Qed.

Lemma nth_error_upd_other : forall {A} (f : A -> A) l i j, i <> j -> nth_error (upd_nth i f l) j = nth_error l j.
Proof. intros. rewrite nth_error_upd_nth. apply Nat.eqb_neq in H. rewrite H. reflexivity. Qed.

Lemma nth_error_upd_inv : forall {A} (f : A -> A) l i j y, nth_error (upd_nth i f l) j = Some y ->
  (i = j /\ exists x, nth_error l j = Some x /\ y = f x) \/ (i <> j /\ nth_error l j = Some y).
Proof.
  intros A f l i j y H. rewrite nth_error_upd_nth in H. destruct (Nat.eqb_spec i j) as [E|E]; [left|right]; split; auto.
  destruct (nth_error l j); inversion H. eauto.
Qed.

Lemma nth_error_upd_cases : forall {A} (f : A -> A) l i x j y, nth_error l i = Some x -> nth_error (upd_nth i f l) j = Some y ->
  (j = i /\ y = f x) \/ (j <> i /\ nth_error l j = Some y).
Proof.
  intros A f l i x j y Hi H. apply nth_error_upd_inv in H. destruct H as [[<- [x' [A' ->]]]|[E A']]; [|auto].
  rewrite Hi in A'. inversion A'. auto.
Qed.

Lemma nth_error_lt : forall {A} (l : list A) i x, nth_error l i = Some x -> (i < length l)%nat.
Proof. intros. apply nth_error_Some. congruence. Qed.

Lemma nth_error_snoc : forall {A} (l : list A) x i y,
  nth_error (l ++ [x]) i = Some y ->
  (nth_error l i = Some y /\ (i < length l)%nat) \/ (i = length l /\ y = x).
Proof.
  intros A l x i y H. destruct (Nat.lt_ge_cases i (length l)) as [Hl|Hl].
  - left. rewrite nth_error_app1 in H by assumption. auto.
  - right. rewrite nth_error_app2 in H by assumption.
    destruct (i - length l)%nat as [|[|n]] eqn:E; inversion H. split; [lia|reflexivity].
Qed.

Definition b2n (b : bool) : nat := if b then 1%nat else 0%nat.

Lemma filter_len_snoc : forall {A} (P : A -> bool) l x,
  length (filter P (l ++ [x])) = (length (filter P l) + b2n (P x))%nat.
Proof. intros. rewrite filter_app, app_length. simpl. destruct (P x); reflexivity. Qed.

Lemma filter_len_upd : forall {A} (P : A -> bool) (f : A -> A) l i x, nth_error l i = Some x ->
  (length (filter P (upd_nth i f l)) + b2n (P x) = length (filter P l) + b2n (P (f x)))%nat.
Proof.
  intros A P f l. induction l as [|y r IH]; intros [|i] x H; simpl in *; try discriminate.
  - inversion H; subst. destruct (P x), (P (f x)); simpl; lia.
  - specialize (IH i x H). destruct (P y); simpl; lia.
Qed.

Lemma filter_len_witness : forall {A} (P : A -> bool) l, (0 < length (filter P l))%nat -> exists x, In x l /\ P x = true.
Proof.
  intros A P l H. destruct (filter P l) as [|x r] eqn:E; [simpl in H; lia|]. exists x. apply filter_In. rewrite E. left. reflexivity.
Qed.

Section Eqb.
Context {A : Type} (eqb : A -> A -> bool) (eqb_eq : forall a b, eqb a b = true <-> a = b).

Lemma existsb_eqb : forall a l, existsb (eqb a) l = true <-> In a l.
Proof.
  intros a l. rewrite existsb_exists. split.
  - intros [x [Hx He]]. apply eqb_eq in He. subst. assumption.
  - intro H. exists a. split; [assumption|apply eqb_eq; reflexivity].
Qed.

Lemma In_remove : forall a x l, In x (filter (fun u => negb (eqb a u)) l) <-> In x l /\ x <> a.
Proof.
  intros a x l. rewrite filter_In, negb_true_iff, <- not_true_iff_false, eqb_eq. intuition congruence.
Qed.
Lemma remove_absent : forall a l, ~ In a l -> filter (fun u => negb (eqb a u)) l = l.
Proof.
  intros a l. induction l as [|z r IH]; intro H; simpl; [reflexivity|].
  destruct (eqb a z) eqn:E; [apply eqb_eq in E; subst; exfalso; apply H; left; reflexivity|].
  simpl. rewrite IH; [reflexivity|]. intro. apply H. right. assumption.
Qed.

Lemma filter_len_remove : forall (P : A -> bool) l t, NoDup l -> In t l ->
  (length (filter P (filter (fun u => negb (eqb t u)) l)) + b2n (P t) = length (filter P l))%nat.
Proof.
  intros P l t ND. induction ND as [|y r Hn ND IH]; intro Hin; [destruct Hin|]. simpl.
  destruct (eqb t y) eqn:E; simpl.
  - apply eqb_eq in E. subst y. rewrite (remove_absent t r Hn). destruct (P t); simpl; lia.
  - destruct Hin as [Hin|Hin]; [subst; apply not_true_iff_false in E; exfalso; apply E, eqb_eq; reflexivity|].
    specialize (IH Hin). destruct (P y); simpl; lia.
Qed.
End Eqb.
