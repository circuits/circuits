(* Proofs about Model/KTasks.v (C06).  One invariant [Full] of every run of the model (all programs, schedules, root
   fires, tick counts), preserved by every transition; it has three parts:

   [IC]  ties the table of temporary handlers and the task set to the phase of every wait state:
     - which of <name>, <name>_done, generate_events handlers of a wait are installed is a function of its phase ([wants]);
     - accounting: (#times the waiting handler was resumed) + (1 if the wait is still live) +
       (1 if its TimeoutError is pending as a task) = 1, always;
     - a timeout fires exactly after tmo0+1 generate_events dispatches seen by the wait.
   [EX]  ranges of the indexes in generator tasks and queue, who holds a handler generator ([Own]), what waitingHandlers
     counts ([F_cnt]), and [Gate]: the gate (an event that has passed it has been dispatched and holds no count, and a
     result logged at a resumption is still the event's value, [F_res]; that the gate is passed from e_gate = 0 only
     and the event not written afterwards is what the steps are asked for - event_done_full, Gate_evt - and is no
     conjunct: [Full] does not bound e_gate), uniqueness of queued <name>_done, and the shape of the log.  With IC it
     makes [bad] unreachable (first component of run_full); resumptions deliver the callee's final value
     (EX_resume_value) after the callee's last handler step (EX_resume_after_finish).
   [EL]  what is pending where: a flagged wait has its task, an armed wait on an object has that event queued, a
     wait that has seen its event e either finds e still holding counts or has e_done queued; waits are younger
     than the waits of the events they wait for.  Also: the event a wait has recorded exists, bears the
     wait's name and has alert_done set ([L_m]); the object a wait was given exists and bears its name ([L_m2]); the event
     whose handler waits has been dispatched ([L_z]); a wait in phase Seen has recorded its event ([L_se]).
     Consequence: quiet_all_resumed.

   processTask takes a handler generator out of its task or its wait before it resumes it and puts it back afterwards;
   in between the event's count exceeds what its handlers account for.  [Slack tev d] is the invariant with d such
   counts of event tev in hand ([Full]: none), and each stage of processTask is a step from one Slack to the next
   (Slack_unreg_gen / Slack_consume, Slack_resumed, Slack_evt, Slack_reg_gen / Slack_install / Slack_done).

   Where to start from: run_full and its projections run_IC, run_EX (IC_sid: the record [sid_ok] of one wait of a world
   in IC), then the consequences IC_residue, IC_all_dead, IC_at_most_once, IC_timeout_not_early, IC_countdown,
   IC_wait_task, EX_resume_value, EX_resume_after_finish, quiet_all_resumed.  Each operation of the model is first
   brought to a normal form, a sequence of updates of the tables (install_eq, event_done_eq, on_event_eq, on_done_eq,
   on_tick_eq; gen_resume_spec: a resumption is mod_gen f . grow nms ls . mark b), and then has a lemma *_full (install
   and the resumption, as stages of processTask: Slack_install, Slack_resumed). *)
From Coq Require Import List ZArith Bool Lia.
From Coq Require FinFun.
From Circ Require Import Lib.ListFacts Model.KTasks Proofs.KTasksLists.
Import ListNotations.
Open Scope Z_scope.

Lemma th_eqb_eq : forall a b, th_eqb a b = true <-> a = b.
Proof.
  intros [x|x|x] [y|y|y]; simpl; rewrite ?Nat.eqb_eq; split; intro H; try discriminate; congruence.
Qed.

Lemma tref_eqb_eq : forall a b, tref_eqb a b = true <-> a = b.
Proof.
  intros [x|x|x] [y|y|y]; simpl; rewrite ?Nat.eqb_eq; split; intro H; try discriminate; congruence.
Qed.

Lemma onat_eqb_eq : forall a b, onat_eqb a b = true <-> a = b.
Proof.
  intros [x|] [y|]; simpl; rewrite ?Nat.eqb_eq; split; intro H; try discriminate; congruence.
Qed.

Lemma task_eqb_eq : forall a b, task_eqb a b = true <-> a = b.
Proof.
  intros [e1 r1 p1] [e2 r2 p2]. unfold task_eqb. simpl.
  rewrite !andb_true_iff, Nat.eqb_eq, tref_eqb_eq, onat_eqb_eq. split; [intros [[-> ->] ->]|intro H; inversion H]; auto.
Qed.

Definition existsb_task := existsb_eqb task_eqb task_eqb_eq.
Definition In_unreg := In_remove task_eqb task_eqb_eq.
Definition filter_len_unreg := filter_len_remove task_eqb task_eqb_eq.
Definition In_del := In_remove th_eqb th_eqb_eq.

Lemma has_th_In : forall h w, has_th h w = true <-> In h (ths w).
Proof. intros. apply (existsb_eqb th_eqb th_eqb_eq). Qed.

Definition triple (w : world) := (ths w, wsts w, tasks w).

Definition quiet (f : world -> world) : Prop :=
  forall w, triple (f w) = triple w /\ (bad w = true -> bad (f w) = true).

Lemma event_done_quiet : forall tok err, quiet (event_done tok err).
Proof.
  intros tok err w. unfold event_done.
  destruct (nth_error (evs w) tok) as [e|]; [|split; auto].
  destruct (e_waiting e =? 0), (e_alert e), (err || e_errors e); split; auto.
Qed.

Definition grow (nms : list nat) (ls : list lent) (w : world) : world :=
  {| evs := evs w ++ map new_evt nms; gens := gens w; wsts := wsts w; ths := ths w; tasks := tasks w;
     queue := queue w ++ map QUser (seq (length (evs w)) (length nms)); wlog := ls ++ wlog w; bad := bad w |}.

Lemma grow_nil : forall w, grow [] [] w = w.
Proof. intros []. unfold grow. simpl. rewrite !app_nil_r. reflexivity. Qed.

Lemma grow_grow : forall n1 l1 n2 l2 w, grow n2 l2 (grow n1 l1 w) = grow (n1 ++ n2) (l2 ++ l1) w.
Proof.
  intros. unfold grow. simpl. rewrite !app_length, !map_length, seq_app, !map_app, <- !app_assoc. reflexivity.
Qed.

Lemma grow_log : forall x w, add_log x w = grow [] [x] w.
Proof. intros x []. unfold grow, add_log. simpl. rewrite !app_nil_r. reflexivity. Qed.

Lemma grow_fire : forall nm b h w, fst (fire_user nm b h w) = grow [nm] [LFire (length (evs w)) nm b h] w.
Proof. reflexivity. Qed.

Definition htok (x : lent) : option nat :=
  match x with
  | LPlain t _ | LStep t _ _ | LRes t _ _ _ _ _ | LTmo t _ _ | LTmoUncaught t _ _ | LEnd t _ => Some t
  | _ => None
  end.

Definition entry_of (tok : nat) (x : lent) : Prop :=
  match x with
  | LRes _ _ _ _ _ _ => False
  | _ => match htok x with Some t => t = tok | None => True end
  end.

Lemma run_steps_spec : forall sts tok hi k w w' r k' rest,
  run_steps tok hi k sts w = (w', r, k', rest) ->
  exists nms ls, w' = grow nms ls w /\ Forall (entry_of tok) ls /\
    (forall nm obj tmo cv t, r = GWait nm obj tmo cv -> obj = Some t \/ cv = Some t ->
       In (QUser t) (queue w') /\ nth_error (evs w') t = Some (new_evt nm)) /\
    (rest = None -> is_wait r = false).
Proof.
  assert (Fresh : forall nm ls w, In (QUser (length (evs w))) (queue (grow [nm] ls w)) /\
                                  nth_error (evs (grow [nm] ls w)) (length (evs w)) = Some (new_evt nm)).
  { intros. simpl. rewrite in_app_iff, nth_error_app2, Nat.sub_diag by lia. simpl. auto. }
  induction sts as [|s sts IH]; intros tok hi k w w' r k' rest H; simpl in H.
  { injection H as <- <- <- <-. exists [], [LEnd tok hi].
    split; [apply grow_log|]. split; [repeat constructor|]. split; [discriminate|reflexivity]. }
  destruct s as [v|nm tmo|nm|nm tmo [|]| |nm]; simpl in H.
  7:{ destruct (IH _ _ _ _ _ _ _ _ H) as [nms [ls [-> [L P]]]].
      exists ([nm] ++ nms), (ls ++ [LFire (length (evs w)) nm tok 0; LStep tok hi k]). rewrite <- grow_grow.
      split; [reflexivity|]. split; [|exact P]. apply Forall_app. split; [exact L|repeat constructor]. }
  (* every other kind of step logs LStep, fires at most one event and stops: what is fired and logged, by kind *)
  all: injection H as <- <- <- <-;
    [> exists [], [LStep tok hi k]
     | exists [nm], [LFire (length (evs w)) nm tok 1; LStep tok hi k]
     | exists [nm], [LFire (length (evs w)) nm tok 2; LStep tok hi k]
     | exists [nm], [LFire (length (evs w)) nm tok 3; LStep tok hi k]
     | exists [], [LStep tok hi k] | exists [], [LStep tok hi k] ].
  all: (split; [reflexivity || apply grow_log|]; split; [repeat constructor|]; split; [|try discriminate; reflexivity]).
  all: intros nm0 obj cv0 tmo0 t E O; try discriminate E; injection E as <- <- <- <-.
  all: destruct O as [O|O]; try discriminate O; injection O as <-; apply (Fresh nm [_; _] w).
Qed.

Definition mark (b : bool) (w : world) : world := if b then set_bad w else w.

Lemma mod_gen_id : forall g w, mod_gen g (fun x => x) w = w.
Proof. intros g []. unfold mod_gen, set_gens. simpl. rewrite upd_nth_id. reflexivity. Qed.

Definition proto_ok (how : rkind) (gn : gen) : Prop :=
  g_atcall gn = match how with RNext => false | _ => true end.

Definition res_entry (how : rkind) (w : world) (gn : gen) (x : lent) : Prop :=
  exists e ev, how = RSend e /\ nth_error (evs w) e = Some ev /\
               x = LRes (g_tok gn) (g_hi gn) (g_cur gn) e (e_vals ev) (e_errors ev).

(* resuming generator gid: events fired and entries logged by the steps it runs, its own record updated;
   no crash if the protocol is kept and a sent event exists *)
Definition resumed (gid : nat) (how : rkind) (w : world) (gn : gen) (w1 : world) (r : gres) : Prop :=
  exists nms ls f b,
    w1 = mod_gen gid f (grow nms ls (mark b w)) /\
    (proto_ok how gn -> (forall e, how = RSend e -> (e < length (evs w))%nat) -> b = false) /\
    g_tok (f gn) = g_tok gn /\
    ((g_rest gn = None -> g_atcall gn = false) -> g_atcall (f gn) = is_wait r) /\
    (g_rest (f gn) = None -> is_wait r = false) /\
    Forall (fun x => entry_of (g_tok gn) x \/ res_entry how w gn x) ls /\
    (forall nm obj tmo cv t, r = GWait nm obj tmo cv -> obj = Some t \/ cv = Some t ->
       In (QUser t) (queue w1) /\ nth_error (evs w1) t = Some (new_evt nm)).

Lemma gen_resume_spec : forall gid how w w1 r gn, gen_resume gid how w = (w1, r) ->
  nth_error (gens w) gid = Some gn -> resumed gid how w gn w1 r.
Proof.
  intros gid how w w1 r gn H Hg. unfold gen_resume in H. rewrite Hg in H.
  destruct (g_rest gn) as [sts|] eqn:Rest.
  2:{ injection H as <- <-. exists [], [], (fun x => x), false. rewrite grow_nil, mod_gen_id.
      split; [reflexivity|]. split; [reflexivity|]. split; [reflexivity|].
      split; [intro A; rewrite (A Rest); destruct how; reflexivity|].
      split; [destruct how; reflexivity|]. split; [constructor|]. intros; destruct how; discriminate. }
  assert (E0 : exists b0, (proto_ok how gn -> b0 = false) /\
             match how, g_atcall gn with RNext, false | RSend _, true | RThrow, true => w | _, _ => set_bad w end = mark b0 w).
  { unfold proto_ok. destruct how, (g_atcall gn);
      ((exists false; split; reflexivity) || (exists true; split; [discriminate|reflexivity])). }
  destruct E0 as [b0 [P0 E0]]. rewrite E0 in H. clear E0.
  assert (Tail : forall wp lp b, wp = grow [] lp (mark b w) ->
            Forall (fun x => entry_of (g_tok gn) x \/ res_entry how w gn x) lp ->
            (proto_ok how gn -> (forall e, how = RSend e -> (e < length (evs w))%nat) -> b = false) ->
            (let '(w0, r, k', rest) := run_steps (g_tok gn) (g_hi gn) (g_k gn) sts wp in
             (mod_gen gid (fun _ => {| g_tok := g_tok gn; g_hi := g_hi gn; g_catch := g_catch gn; g_k := S k'; g_cur := k';
                                       g_atcall := is_wait r; g_rest := rest |}) w0, r)) = (w1, r) ->
            resumed gid how w gn w1 r).
  { intros wp lp b -> Lp Pb E. destruct (run_steps _ _ _ sts _) as [[[w2 r2] k2] rest2] eqn:Run. injection E as <- <-.
    destruct (run_steps_spec _ _ _ _ _ _ _ _ _ Run) as [nms [ls [-> [L [Wt R]]]]]. rewrite grow_grow in *.
    eexists nms, (ls ++ lp), _, b. split; [reflexivity|]. split; [exact Pb|]. split; [reflexivity|]. split; [reflexivity|].
    split; [exact R|]. split; [|exact Wt]. apply Forall_app. split; [|exact Lp]. eapply Forall_impl; [|exact L]. auto. }
  destruct how as [|e|].
  - apply (Tail _ [] b0 (eq_sym (grow_nil _))) in H; auto.
  - replace (evs (mark b0 w)) with (evs w) in H by (destruct b0; reflexivity).
    destruct (nth_error (evs w) e) as [ev|] eqn:Ee.
    + eapply (Tail _ _ b0 (grow_log _ _)) in H; auto. constructor; [right; exists e, ev; auto|constructor].
    + apply (Tail _ [] true) in H; auto; [destruct b0; symmetry; apply grow_nil|].
      intros _ Rg. apply nth_error_None in Ee. specialize (Rg e eq_refl). lia.
  - destruct (g_catch gn).
    + eapply (Tail _ _ b0 (grow_log _ _)) in H; auto. repeat constructor.
    + injection H as <- <-. exists [], [LTmoUncaught (g_tok gn) (g_hi gn) (g_cur gn)], gen_finish, b0. rewrite <- grow_log.
      split; [reflexivity|]. split; [auto|]. split; [reflexivity|]. split; [reflexivity|]. split; [reflexivity|].
      split; [repeat constructor|discriminate].
Qed.

Lemma gen_resume_quiet : forall gid how, quiet (fun w => fst (gen_resume gid how w)).
Proof.
  intros gid how w. destruct (nth_error (gens w) gid) as [gn|] eqn:Hg.
  - destruct (gen_resume gid how w) as [w1 r] eqn:GR.
    destruct (gen_resume_spec _ _ _ _ _ _ GR Hg) as [nms [ls [f [[|] [-> _]]]]]; split; auto.
  - unfold gen_resume. rewrite Hg. split; auto.
Qed.

Lemma reg_task_tasks : forall t w, NoDup (tasks w) ->
  NoDup (tasks (reg_task t w)) /\ (forall u, In u (tasks (reg_task t w)) <-> In u (tasks w) \/ u = t) /\
  forall P, (length (filter P (tasks (reg_task t w))) <= length (filter P (tasks w)) + b2n (P t))%nat /\
            (P t = false -> length (filter P (tasks (reg_task t w))) = length (filter P (tasks w))).
Proof.
  intros t w ND. unfold reg_task. destruct (existsb (task_eqb t) (tasks w)) eqn:X; simpl.
  - apply existsb_task in X. split; [assumption|]. split; [|intro P; split; [lia|reflexivity]].
    intro u. split; [auto|]. intros [U| ->]; assumption.
  - split; [apply NoDup_snoc; [assumption|]; intro Y; apply existsb_task in Y; congruence|].
    split; [intro u; rewrite in_app_iff; simpl; intuition|].
    intro P. rewrite filter_len_snoc. split; [lia|intros ->; simpl; lia].
Qed.

Lemma reg_task_new : forall t w, ~ In t (tasks w) -> reg_task t w = set_tasks w (tasks w ++ [t]).
Proof.
  intros t w H. unfold reg_task. destruct (existsb (task_eqb t) (tasks w)) eqn:E; [|reflexivity].
  apply existsb_task in E. contradiction.
Qed.

Lemma In_reg_task : forall t u w, In u (tasks w) -> In u (tasks (reg_task t w)).
Proof. intros t u w H. unfold reg_task. destruct (existsb _ _); [assumption|]. simpl. apply in_app_iff. auto. Qed.

Lemma reg_task_frame : forall t w, evs (reg_task t w) = evs w /\ gens (reg_task t w) = gens w /\ wsts (reg_task t w) = wsts w /\
  ths (reg_task t w) = ths w /\ queue (reg_task t w) = queue w /\ wlog (reg_task t w) = wlog w /\ bad (reg_task t w) = bad w.
Proof. intros. unfold reg_task. destruct (existsb _ _); auto 8. Qed.

(* waitEvent up to `yield state`: the new wait state and its temporary handlers *)
Lemma install_eq : forall nm obj tmo cv tev par w,
  install nm obj tmo cv tev par w =
  set_ths (set_wsts w (wsts w ++ [new_wst nm obj tmo cv tev par]))
          (ths w ++ THEv (length (wsts w)) :: THDone (length (wsts w)) :: if 0 <=? tmo then [THTick (length (wsts w))] else []).
Proof.
  intros. unfold install, add_th. destruct (0 <=? tmo); simpl; unfold set_ths; simpl; rewrite <- !app_assoc; reflexivity.
Qed.

Definition sid_of (h : th) : nat := match h with THEv s | THDone s | THTick s => s end.
Definition is_rt (sid : nat) (t : task) : bool := tref_eqb (t_ref t) (RTimeout sid).
Definition count_rt (sid : nat) (ts : list task) : nat := length (filter (is_rt sid) ts).
Definition alive (ph : phase) : nat := match ph with Dead => 0 | _ => 1 end.

Definition wants (h : th) (st : wst) : Prop :=
  match h with
  | THEv _ => s_ph st = Armed
  | THDone _ => s_ph st <> Dead
  | THTick _ => (s_ph st = Armed \/ s_ph st = Seen) /\ 0 <= s_timeout st
  end.

Definition wst_time_ok (st : wst) : Prop :=
  if s_timedout st then Z.of_nat (s_ticks st) = s_tmo0 st + 1
  else (s_tmo0 st < 0 -> s_timeout st = s_tmo0 st) /\
       (0 <= s_tmo0 st -> 0 <= s_timeout st /\ s_timeout st + Z.of_nat (s_ticks st) = s_tmo0 st).

Record sid_ok (hs : list th) (ts : list task) (sid : nat) (st : wst) : Prop := {
  so_th : forall h, sid_of h = sid -> (In h hs <-> wants h st);
  so_armed : s_ph st = Armed -> s_run st = false /\ s_event st = None;
  so_seen : s_ph st = Seen -> s_run st = true;
  so_tmo : s_timedout st = true -> s_ph st = Dead /\ s_timeout st = 0;
  so_time : wst_time_ok st;
  so_credit : (s_resumes st + alive (s_ph st) + count_rt sid ts = 1)%nat;
  so_rt : (0 < count_rt sid ts)%nat -> s_timedout st = true }.

Definition task_ok (ss : list wst) (t : task) : Prop :=
  match t_ref t with
  | RGen _ => t_parent t = None
  | RWait sid => exists st, nth_error ss sid = Some st /\ s_ph st = Flagged /\
                            t = mk_task (s_tevent st) (RWait sid) (Some (s_parent st))
  | RTimeout sid => exists st, nth_error ss sid = Some st /\
                               t = mk_task (s_tevent st) (RTimeout sid) (Some (s_parent st))
  end.

Definition IC3 (hs : list th) (ss : list wst) (ts : list task) : Prop :=
  NoDup hs /\ (forall h, In h hs -> (sid_of h < length ss)%nat) /\
  (forall sid st, nth_error ss sid = Some st -> sid_ok hs ts sid st) /\
  NoDup ts /\ (forall t, In t ts -> task_ok ss t).

Definition IC (w : world) : Prop := IC3 (ths w) (wsts w) (tasks w).

Lemma count_rt_pos_In : forall sid l, (0 < count_rt sid l)%nat -> exists t, In t l /\ is_rt sid t = true.
Proof.
  intros sid l. apply filter_len_witness.
Qed.

Lemma is_rt_other : forall sid sid' t, is_rt sid t = true -> sid <> sid' -> is_rt sid' t = false.
Proof.
  intros sid sid' t H Hn. unfold is_rt in *. apply tref_eqb_eq in H. rewrite H. simpl. apply Nat.eqb_neq. assumption.
Qed.

Lemma sid_ok_ext : forall hs ts hs' ts' sid st,
  sid_ok hs ts sid st ->
  (forall h, sid_of h = sid -> (In h hs' <-> In h hs)) ->
  count_rt sid ts' = count_rt sid ts ->
  sid_ok hs' ts' sid st.
Proof.
  intros hs ts hs' ts' sid st [A B C D E F G] Hh Hc. constructor; try rewrite Hc; auto.
  intros h Hs. rewrite (Hh h Hs). auto.
Qed.

Lemma task_ok_app : forall ss x t, task_ok ss t -> task_ok (ss ++ [x]) t.
Proof.
  intros ss x t H. unfold task_ok in *. destruct (t_ref t) as [g|sid|sid]; [assumption| |];
    destruct H as [st [A B]]; exists st; (split; [apply nth_error_app_l|]; assumption).
Qed.

Lemma task_ok_upd : forall ss sid f t, task_ok ss t ->
  (forall st, s_tevent (f st) = s_tevent st /\ s_parent (f st) = s_parent st) ->
  (t_ref t = RWait sid -> forall st, nth_error ss sid = Some st -> s_ph st = Flagged -> s_ph (f st) = Flagged) ->
  task_ok (upd_nth sid f ss) t.
Proof.
  intros ss sid f t H Hf Hw. unfold task_ok in *. destruct (t_ref t) as [g|s|s] eqn:R; [assumption| |].
  - destruct H as [st [A [B C]]]. destruct (Nat.eq_dec sid s) as [->|E].
    + exists (f st). destruct (Hf st) as [-> ->]. rewrite (nth_error_upd_same f _ _ _ A). auto using (Hw eq_refl st A B).
    + exists st. rewrite nth_error_upd_other by assumption. auto.
  - destruct H as [st [A C]]. destruct (Nat.eq_dec sid s) as [->|E].
    + exists (f st). destruct (Hf st) as [-> ->]. rewrite (nth_error_upd_same f _ _ _ A). auto.
    + exists st. rewrite nth_error_upd_other by assumption. auto.
Qed.

Lemma IC_reg_gen : forall w tev g, IC w -> IC (reg_task (mk_task tev (RGen g) None) w).
Proof.
  intros w tev g [A [B [C [D E]]]]. destruct (reg_task_frame (mk_task tev (RGen g) None) w) as [_ [_ [Ew [Eh _]]]].
  destruct (reg_task_tasks (mk_task tev (RGen g) None) w D) as [D' [In' Cnt]]. unfold IC. rewrite Eh, Ew.
  split; [assumption|]. split; [assumption|]. split; [|split; [assumption|]].
  - intros sid st Hs. apply (sid_ok_ext (ths w) (tasks w)); [auto|tauto|]. apply (Cnt (is_rt sid)). reflexivity.
  - intros u Hu. apply In' in Hu. destruct Hu as [Hu| ->]; [auto|reflexivity].
Qed.

Lemma IC_unreg_gen : forall w t g, IC w -> In t (tasks w) -> t_ref t = RGen g -> IC (unreg_task t w).
Proof.
  intros w t g [A [B [C [D E]]]] Hin R. split; [assumption|]. split; [assumption|]. split; [|split].
  - intros sid st Hs. apply (sid_ok_ext (ths w) (tasks w)); [auto|tauto|].
    pose proof (filter_len_unreg (is_rt sid) _ t D Hin) as F. unfold is_rt at 2 in F. rewrite R in F. simpl in F.
    unfold count_rt. simpl. lia.
  - apply NoDup_filter. assumption.
  - intros u Hu. apply In_unreg in Hu. apply E. tauto.
Qed.

Lemma IC_install : forall nm obj tmo cv tev par w, IC w -> IC (install nm obj tmo cv tev par w).
Proof.
  intros nm obj tmo cv tev par w [A [B [C [D E]]]]. rewrite install_eq. unfold IC. simpl.
  set (n := length (wsts w)). set (new := THEv n :: THDone n :: if 0 <=? tmo then [THTick n] else []).
  assert (Hnew : forall h, In h new <-> sid_of h = n /\ wants h (new_wst nm obj tmo cv tev par)).
  { intro h. unfold new. destruct (Z.leb_spec 0 tmo), h as [s|s|s]; simpl; intuition (try discriminate; try congruence; try lia). }
  assert (F : forall h, sid_of h = n -> ~ In h (ths w)) by (intros h Hs Hin; apply B in Hin; lia).
  split.
  { apply NoDup_app_intro; [assumption| |].
    - unfold new. destruct (0 <=? tmo); repeat constructor; simpl; intuition discriminate.
    - intros h Hh Hn. apply Hnew in Hn. apply (F h); tauto. }
  split.
  { intros h Hh. rewrite app_length. simpl. apply in_app_iff in Hh. destruct Hh as [Hh|Hh]; [apply B in Hh; lia|].
    apply Hnew in Hh. fold n. lia. }
  split; [|split; [assumption|intros t Ht; apply task_ok_app; auto]].
  intros sid st Hs. apply nth_error_snoc in Hs. destruct Hs as [[Hs Hl]|[-> ->]].
  - apply (sid_ok_ext (ths w) (tasks w)); [auto| |reflexivity].
    intros h Hh. rewrite in_app_iff, Hnew. fold n in Hl. intuition lia.
  - assert (Z0 : count_rt n (tasks w) = O).
    { destruct (count_rt n (tasks w)) eqn:Z; [reflexivity|]. destruct (count_rt_pos_In n (tasks w)) as [t [Ht X]]; [lia|].
      apply tref_eqb_eq in X. specialize (E t Ht). unfold task_ok in E. rewrite X in E. destruct E as [st [E1 _]].
      apply nth_error_lt in E1. fold n in E1. lia. }
    constructor; simpl; fold n; rewrite ?Z0; try discriminate; auto; try lia.
    + intros h Hh. rewrite in_app_iff, Hnew. split; [intros [H|H]; [destruct (F h Hh H)|tauto]|tauto].
    + unfold wst_time_ok. simpl. split; [auto|]. intros. lia.
Qed.

Lemma IC_local : forall hs ss ts hs' ts' sid f st,
  IC3 hs ss ts -> nth_error ss sid = Some st ->
  NoDup hs' -> (forall h, In h hs' -> In h hs) -> (forall h, sid_of h <> sid -> In h hs -> In h hs') ->
  sid_ok hs' ts' sid (f st) ->
  (forall sid', sid' <> sid -> count_rt sid' ts' = count_rt sid' ts) ->
  NoDup ts' -> (forall t, In t ts' -> task_ok (upd_nth sid f ss) t) ->
  IC3 hs' (upd_nth sid f ss) ts'.
Proof.
  intros hs ss ts hs' ts' sid f st [A [B [C [D E]]]] Hs ND Hsub Hoth Hok Hcnt NDt Htok.
  split; [assumption|]. split; [intros h Hh; rewrite length_upd_nth; auto|]. split; [|split; assumption].
  intros s2 st2 H2. apply nth_error_upd_inv in H2. destruct H2 as [[<- [x [H2 ->]]]|[X H2]].
  - rewrite Hs in H2. inversion H2. subst. assumption.
  - apply (sid_ok_ext hs ts); auto. intros h Hh. split; [auto|]. intro. apply Hoth; [congruence|assumption].
Qed.

Lemma del_sub : forall h0 h hs, In h (filter (fun u => negb (th_eqb h0 u)) hs) -> In h hs.
Proof. intros h0 h hs H. apply In_del in H. tauto. Qed.
Lemma del_other : forall h0 h hs, sid_of h <> sid_of h0 -> In h hs -> In h (filter (fun u => negb (th_eqb h0 u)) hs).
Proof. intros h0 h hs Hn H. apply In_del. split; [assumption|]. intros ->. auto. Qed.

(* [wproj]: the components of a world written with the model's update functions; [wcbn]: the fields of a wait state
   written with one of the model's wst_* updates *)
Ltac wproj := cbn [evs gens wsts ths tasks queue wlog bad del_th mod_wst mod_evt mod_gen set_ths set_wsts set_evs set_gens
                   set_tasks set_queue add_log set_bad unreg_task push grow mark].
Ltac wcbn := unfold wst_time_ok, wst_seen, wst_phase, wst_resumed, wst_tick, wst_timeout, wst_thrown;
             cbn [s_ph s_run s_event s_timeout s_timedout s_resumes s_ticks s_tmo0 s_tevent s_parent alive wants].

(* _on_event: the armed wait has seen its event *)
Lemma IC_seen : forall hs ss ts sid st tok, IC3 hs ss ts -> nth_error ss sid = Some st -> In (THEv sid) hs ->
  IC3 (filter (fun u => negb (th_eqb (THEv sid) u)) hs) (upd_nth sid (wst_seen tok) ss) ts.
Proof.
  intros hs ss ts sid st tok H Hs Hin. pose proof H as [A [B [C [D E]]]]. pose proof (C sid st Hs) as [O1 O2 O3 O4 O5 O6 O7].
  assert (Ph : s_ph st = Armed) by (apply (O1 (THEv sid) eq_refl); assumption).
  apply (IC_local hs ss ts _ _ sid (wst_seen tok) st); eauto using NoDup_filter, del_sub, del_other.
  - constructor; wcbn; try discriminate; auto.
    + intros h Hh. rewrite In_del, (O1 h Hh). destruct h as [s|s|s]; simpl in Hh; subst s; wcbn; rewrite Ph;
        intuition (try discriminate; try congruence).
    + intro X. apply O4 in X. destruct X as [X _]. congruence.
    + rewrite Ph in O6. exact O6.
  - intros t Ht. apply task_ok_upd; [auto|intro; split; reflexivity|].
    intros _ st0 Hs0 F. rewrite Hs in Hs0. inversion Hs0. subst. congruence.
Qed.

(* _on_done: the wait that has seen tok is flagged and its wait generator becomes a task *)
Lemma IC_flag : forall w sid st tok, IC w -> nth_error (wsts w) sid = Some st -> In (THDone sid) (ths w) ->
  s_event st = Some tok ->
  IC (del_th (THTick sid) (mod_wst sid (wst_phase Flagged) (reg_task (mk_task (s_tevent st) (RWait sid) (Some (s_parent st))) w))).
Proof.
  intros w sid st tok H Hs Hd Ev. pose proof H as [A [B [C [D E]]]]. pose proof (C sid st Hs) as [O1 O2 O3 O4 O5 O6 O7].
  assert (Pd : s_ph st <> Dead) by (apply (O1 (THDone sid) eq_refl); assumption).
  assert (Pa : s_ph st <> Armed) by (intro X; apply O2 in X; destruct X; congruence).
  set (t := mk_task (s_tevent st) (RWait sid) (Some (s_parent st))).
  destruct (reg_task_frame t w) as [_ [_ [Ew [Eh _]]]]. destruct (reg_task_tasks t w D) as [D' [In' Cnt]].
  assert (Cn : forall s, count_rt s (tasks (reg_task t w)) = count_rt s (tasks w)) by (intro s; apply (Cnt (is_rt s)); reflexivity).
  unfold IC. wproj. rewrite Eh, Ew.
  apply (IC_local (ths w) (wsts w) (tasks w) _ _ sid (wst_phase Flagged) st); eauto using NoDup_filter, del_sub, del_other.
  - constructor; wcbn; try discriminate; rewrite ?Cn; auto.
    + intros h Hh. rewrite In_del, (O1 h Hh). destruct h as [s|s|s]; simpl in Hh; subst s; wcbn;
        intuition (try discriminate; try congruence).
    + intro X. destruct (O4 X). contradiction.
    + destruct (s_ph st); try contradiction; exact O6.
  - intros u Hu. apply In' in Hu. destruct Hu as [Hu| ->].
    + apply task_ok_upd; [auto|intro; split; reflexivity|]. reflexivity.
    + exists (wst_phase Flagged st). rewrite (nth_error_upd_same _ _ _ _ Hs). auto.
Qed.

(* _on_tick at timeout 0: every handler of the wait is removed and the TimeoutError becomes a task *)
Lemma IC_timeout : forall w sid st, IC w -> nth_error (wsts w) sid = Some st -> In (THTick sid) (ths w) -> s_timeout st = 0 ->
  IC (mod_wst sid wst_timeout (del_th (THTick sid) (del_th (THDone sid) (del_th (THEv sid)
        (reg_task (mk_task (s_tevent st) (RTimeout sid) (Some (s_parent st))) w))))).
Proof.
  intros w sid st H Hs Ht T0. pose proof H as [A [B [C [D E]]]]. pose proof (C sid st Hs) as [O1 O2 O3 O4 O5 O6 O7].
  destruct (proj1 (O1 (THTick sid) eq_refl) Ht) as [Ph _].
  assert (Al : alive (s_ph st) = 1%nat) by (destruct Ph as [X|X]; rewrite X; reflexivity).
  set (t := mk_task (s_tevent st) (RTimeout sid) (Some (s_parent st))).
  assert (Rt : is_rt sid t = true) by (unfold is_rt; simpl; apply Nat.eqb_refl).
  destruct (reg_task_frame t w) as [_ [_ [Ew [Eh _]]]]. destruct (reg_task_tasks t w D) as [D' [In' Cnt]].
  assert (C1 : count_rt sid (tasks (reg_task t w)) = 1%nat).
  { destruct (Cnt (is_rt sid)) as [Le _]. rewrite Rt in Le. simpl in Le.
    pose proof (filter_len_pos (is_rt sid) _ t (proj2 (In' t) (or_intror eq_refl)) Rt). unfold count_rt in *. lia. }
  unfold IC. wproj. rewrite Eh, Ew.
  apply (IC_local (ths w) (wsts w) (tasks w) _ _ sid wst_timeout st); eauto 7 using NoDup_filter, del_sub, del_other.
  - constructor; wcbn; try discriminate; rewrite ?C1; auto; try lia.
    + intros h Hh. rewrite !In_del, (O1 h Hh). destruct h as [s|s|s]; simpl in Hh; subst s; wcbn;
        intuition (try discriminate; try congruence).
    + unfold wst_time_ok in O5. destruct (s_timedout st) eqn:TO.
      * destruct (O4 eq_refl) as [X _]. destruct Ph; congruence.
      * destruct O5 as [P1 P2]. destruct (Z_lt_ge_dec (s_tmo0 st) 0) as [L|L]; [specialize (P1 L)|specialize (P2 ltac:(lia))]; lia.
  - intros s' Hne. apply (Cnt (is_rt s')). apply (is_rt_other sid); [assumption|congruence].
  - intros u Hu. apply In' in Hu. destruct Hu as [Hu| ->].
    + apply task_ok_upd; [auto|intro; split; reflexivity|].
      intros _ st0 Hs0 F. rewrite Hs in Hs0. inversion Hs0. subst. destruct Ph; congruence.
    + exists (wst_timeout st). rewrite (nth_error_upd_same _ _ _ _ Hs). auto.
Qed.

Lemma IC_tick : forall w sid st, IC w -> nth_error (wsts w) sid = Some st -> 0 < s_timeout st -> IC (mod_wst sid wst_tick w).
Proof.
  intros w sid st H Hs T1. pose proof H as [A [B [C [D E]]]]. pose proof (C sid st Hs) as [O1 O2 O3 O4 O5 O6 O7].
  apply (IC_local (ths w) (wsts w) (tasks w) _ _ sid wst_tick st); auto.
  - constructor; wcbn; auto.
    + intros h Hh. rewrite (O1 h Hh). destruct h; wcbn; intuition lia.
    + intro X. apply O4 in X. lia.
    + unfold wst_time_ok in O5. destruct (s_timedout st) eqn:TO; [destruct (O4 eq_refl); lia|].
      destruct O5 as [P1 P2]. split; intro L; [specialize (P1 L)|specialize (P2 L)]; lia.
  - intros u Hu. apply task_ok_upd; [auto|intro; split; reflexivity|]. auto.
Qed.

(* processTask on the wait generator: <name>_done goes, the wait is dead, the caller is about to be resumed *)
Lemma IC_resumed : forall w t sid st, IC w -> In t (tasks w) -> nth_error (wsts w) sid = Some st -> s_ph st = Flagged ->
  t = mk_task (s_tevent st) (RWait sid) (Some (s_parent st)) ->
  IC (mod_wst sid wst_resumed (unreg_task t (del_th (THDone sid) w))).
Proof.
  intros w t sid st H Hin Hs Ph Tq. pose proof H as [A [B [C [D E]]]]. pose proof (C sid st Hs) as [O1 O2 O3 O4 O5 O6 O7].
  assert (Cn : forall s, count_rt s (filter (fun u => negb (task_eqb t u)) (tasks w)) = count_rt s (tasks w)).
  { intro s. pose proof (filter_len_unreg (is_rt s) _ t D Hin) as F.
    replace (is_rt s t) with false in F by (rewrite Tq; reflexivity). cbn [b2n] in F. unfold count_rt. lia. }
  rewrite Ph in O6. simpl in O6. unfold IC. wproj.
  apply (IC_local (ths w) (wsts w) (tasks w) _ _ sid wst_resumed st); eauto using NoDup_filter, del_sub, del_other.
  - constructor; wcbn; try discriminate; rewrite ?(Cn sid); auto; try lia.
    + intros h Hh. rewrite In_del, (O1 h Hh). destruct h as [s|s|s]; simpl in Hh; subst s; wcbn; rewrite Ph;
        intuition (try discriminate; try congruence).
    + intro X. apply O4 in X. destruct X. congruence.
  - intros u Hu. apply In_unreg in Hu. destruct Hu as [Hu Hne]. apply task_ok_upd; [auto|intro; split; reflexivity|].
    intros Ru st0 Hs0 _. exfalso. apply Hne. rewrite Hs in Hs0. inversion Hs0. subst st0.
    pose proof (E u Hu) as Uok. unfold task_ok in Uok. rewrite Ru, Hs in Uok. destruct Uok as [st' [X [_ Uq]]]. inversion X. subst st'. rewrite Tq. exact Uq.
Qed.

Lemma IC_thrown : forall w t sid st, IC w -> In t (tasks w) -> nth_error (wsts w) sid = Some st ->
  t = mk_task (s_tevent st) (RTimeout sid) (Some (s_parent st)) ->
  IC (mod_wst sid wst_thrown (unreg_task t w)) /\ s_resumes st = O /\ s_ph st = Dead.
Proof.
  intros w t sid st H Hin Hs Tq. pose proof H as [A [B [C [D E]]]]. pose proof (C sid st Hs) as [O1 O2 O3 O4 O5 O6 O7].
  assert (Rt : is_rt sid t = true) by (rewrite Tq; unfold is_rt; simpl; apply Nat.eqb_refl).
  pose proof (filter_len_pos (is_rt sid) _ t Hin Rt) as C1. fold (count_rt sid (tasks w)) in C1.
  assert (R0 : s_resumes st = O /\ alive (s_ph st) = O /\ count_rt sid (tasks w) = 1%nat) by lia. destruct R0 as [R0 [Al C2]].
  pose proof (filter_len_unreg (is_rt sid) _ t D Hin) as F. rewrite Rt in F. fold (count_rt sid (tasks w)) in F. simpl in F.
  split; [|split; [assumption|destruct (s_ph st); simpl in Al; congruence]]. unfold IC. wproj.
  apply (IC_local (ths w) (wsts w) (tasks w) _ _ sid wst_thrown st); auto.
  - constructor; wcbn; auto; unfold count_rt in *; simpl; lia.
  - intros s' Hne. pose proof (filter_len_unreg (is_rt s') _ t D Hin) as F'. rewrite (is_rt_other sid s' t Rt) in F' by congruence.
    unfold count_rt. simpl in *. lia.
  - apply NoDup_filter. assumption.
  - intros u Hu. apply In_unreg in Hu. destruct Hu as [Hu Hne]. apply task_ok_upd; [auto|intro; split; reflexivity|]. auto.
Qed.

Definition qtok_ok (n : nat) (q : qitem) : Prop :=
  match q with QGenEv => True | QUser t | QDone t | QSucc t => (t < n)%nat end.
(* [owning st]: the wait has not resumed its handler yet, so it still holds the handler's generator and two counts of the
   handler's event; [gen_for tok] / [owns tok]: the tasks / the waits that hold a handler generator of event instance tok,
   [cnt_gen] / [cnt_own] their numbers (F_cnt); [udq]: the items that are pending at most once (F_qnodup) *)
Definition owning (st : wst) : bool := Nat.eqb (s_resumes st) 0.
Definition is_gen (r : tref) : bool := match r with RGen _ => true | _ => false end.
Definition gen_for (tok : nat) (t : task) : bool := Nat.eqb (t_ev t) tok && is_gen (t_ref t).
Definition cnt_gen (tok : nat) (ts : list task) : nat := length (filter (gen_for tok) ts).
Definition owns (tok : nat) (s : wst) : bool := Nat.eqb (s_tevent s) tok && owning s.
Definition cnt_own (tok : nat) (ss : list wst) : nat := length (filter (owns tok) ss).
Definition udq (q : qitem) : bool := match q with QUser _ | QDone _ => true | _ => false end.

(* the log, newest first: once e's result has been delivered (LRes .. e ..) no handler of e logs anything *)
Fixpoint ord_ok (l : list lent) : Prop :=
  match l with
  | [] => True
  | x :: r => (forall tok hi k e vals err, In (LRes tok hi k e vals err) r -> htok x <> Some e) /\ ord_ok r
  end.

Section Fields.
Variable X : list qitem.               (* items of the batch being flushed that are still to be dispatched *)
Variable n : nat.                      (* number of event instances *)
Variables (es : list evt) (gs : list gen) (ss : list wst) (ts : list task) (q : list qitem) (lg : list lent).

Definition F_q : Prop := forall x, In x (X ++ q) -> qtok_ok n x.
(* an exhausted generator is not at a call *)
Definition F_gi : Prop := forall g gn, nth_error gs g = Some gn -> g_rest gn = None -> g_atcall gn = false.
Definition F_task : Prop := forall t g, In t ts -> t_ref t = RGen g -> (t_ev t < n)%nat /\
  exists gn, nth_error gs g = Some gn /\ g_tok gn = t_ev t /\ g_atcall gn = false.
Definition F_own : Prop := forall sid st, nth_error ss sid = Some st -> owning st = true ->
  (exists gn, nth_error gs (s_parent st) = Some gn /\ g_tok gn = s_tevent st /\ g_atcall gn = true) /\
  (forall sid' st', sid' <> sid -> nth_error ss sid' = Some st' -> owning st' = true -> s_parent st' <> s_parent st).
(* waitingHandlers of an event = its handler-generator tasks + 2 x its handlers suspended in unresumed waits,
   + d for event tev: the counts processTask has in hand between taking a handler of tev from its task or wait and
   putting it back *)
Definition F_cnt (tev : nat) (d : Z) : Prop := forall tok ev, nth_error es tok = Some ev ->
  e_waiting ev = Z.of_nat (cnt_gen tok ts) + 2 * Z.of_nat (cnt_own tok ss) + (if Nat.eqb tev tok then d else 0).
Definition gate_ok (ev : evt) : Prop :=
  (e_dispatched ev = false -> e_gate ev = O /\ e_waiting ev = 0) /\
  ((1 <= e_gate ev)%nat -> e_waiting ev = 0 /\ e_dispatched ev = true).
Definition F_gate : Prop := forall tok ev, nth_error es tok = Some ev -> gate_ok ev.
Definition F_quser : Prop := forall tok ev, In (QUser tok) (X ++ q) -> nth_error es tok = Some ev -> e_dispatched ev = false.
Definition F_qdone : Prop := forall tok ev, In (QDone tok) (X ++ q) -> nth_error es tok = Some ev -> (1 <= e_gate ev)%nat.
Definition F_qnodup : Prop := NoDup (filter udq (X ++ q)).
Definition F_flag : Prop := forall sid st, nth_error ss sid = Some st -> s_ph st = Flagged ->
  exists e ev, s_event st = Some e /\ nth_error es e = Some ev /\ (1 <= e_gate ev)%nat /\ ~ In (QDone e) (X ++ q).
Definition F_res : Prop := forall tok hi k e vals err, In (LRes tok hi k e vals err) lg ->
  exists ev, nth_error es e = Some ev /\ (1 <= e_gate ev)%nat /\ e_vals ev = vals /\ e_errors ev = err.

(* who holds a handler generator: its own task (then it is not at a call) or one wait that has not resumed it *)
Definition Own : Prop := F_gi /\ F_task /\ F_own.
Definition Gate : Prop := F_q /\ F_gate /\ F_quser /\ F_qdone /\ F_qnodup /\ F_flag /\ F_res /\ ord_ok lg.
End Fields.

Definition EXc (X : list qitem) (tev : nat) (d : Z) (es : list evt) (gs : list gen) (ss : list wst) (ts : list task)
               (q : list qitem) (lg : list lent) : Prop :=
  Own (length es) gs ss ts /\ F_cnt es ss ts tev d /\ Gate X (length es) es ss q lg.

Definition EX (X : list qitem) (tev : nat) (d : Z) (w : world) : Prop :=
  EXc X tev d (evs w) (gens w) (wsts w) (tasks w) (queue w) (wlog w).

Lemma Own_len : forall n n' gs ss ts, Own n gs ss ts -> (n <= n')%nat -> Own n' gs ss ts.
Proof.
  intros n n' gs ss ts [A [B D]] L. split; [assumption|]. split; [|assumption].
  intros t g Ht R. destruct (B t g Ht R). split; [lia|assumption].
Qed.

(* the generator of a suspended handler is no task: the task would say it is off a call, the wait says it is at one *)
Lemma Own_no_task : forall n gs ss ts sid st t, Own n gs ss ts -> nth_error ss sid = Some st -> owning st = true ->
  In t ts -> t_ref t <> RGen (s_parent st).
Proof.
  intros n gs ss ts sid st t [_ [B D]] Hs Ow Ht R. destruct (D sid st Hs Ow) as [[gn [A [_ C]]] _].
  destruct (B t _ Ht R) as [_ [gn' [A' [_ C']]]]. congruence.
Qed.

Lemma Own_gen : forall n gs ss ts g f gn, Own n gs ss ts -> nth_error gs g = Some gn ->
  g_tok (f gn) = g_tok gn -> (g_rest (f gn) = None -> g_atcall (f gn) = false) ->
  (forall t, In t ts -> t_ref t = RGen g -> g_atcall (f gn) = false) ->
  (forall sid st, nth_error ss sid = Some st -> owning st = true -> s_parent st = g -> g_atcall (f gn) = true) ->
  Own n (upd_nth g f gs) ss ts.
Proof.
  intros n gs ss ts g f gn [A [B D]] Hg F1 F2 Ft Fo.
  assert (Look : forall g0 gn0 a, nth_error gs g0 = Some gn0 -> (g0 = g -> g_atcall (f gn) = a) -> g_atcall gn0 = a ->
            exists gn1, nth_error (upd_nth g f gs) g0 = Some gn1 /\ g_tok gn1 = g_tok gn0 /\ g_atcall gn1 = a).
  { intros g0 gn0 a H0 Hf Ha. destruct (Nat.eq_dec g g0) as [<-|E].
    - rewrite Hg in H0. inversion H0. subst gn0. exists (f gn). rewrite (nth_error_upd_same f _ _ _ Hg). auto.
    - exists gn0. rewrite nth_error_upd_other by assumption. auto. }
  split; [|split].
  - intros g0 gn0 H0 R. apply nth_error_upd_inv in H0. destruct H0 as [[<- [x [H0 ->]]]|[E H0]]; [|eauto].
    rewrite Hg in H0. inversion H0. subst. auto.
  - intros t g0 Ht R. destruct (B t g0 Ht R) as [B1 [gn0 [H0 [T0 A0]]]]. split; [assumption|].
    destruct (Look g0 gn0 false H0) as [gn1 [L1 [L2 L3]]]; [intros ->; eauto|assumption|]. exists gn1. split; [assumption|]. split; congruence.
  - intros sid st Hs Ow. destruct (D sid st Hs Ow) as [[gn0 [H0 [T0 A0]]] D2]. split; [|assumption].
    destruct (Look _ gn0 true H0) as [gn1 [L1 [L2 L3]]]; [intro E; eauto|assumption|]. exists gn1. split; [assumption|]. split; congruence.
Qed.

Lemma Own_gen_snoc : forall n gs ss ts gnew, Own n gs ss ts -> (g_rest gnew = None -> g_atcall gnew = false) ->
  Own n (gs ++ [gnew]) ss ts.
Proof.
  intros n gs ss ts gnew [A [B D]] N. split; [|split].
  - intros g gn Hg. apply nth_error_snoc in Hg. destruct Hg as [[Hg _]|[_ ->]]; [eauto|assumption].
  - intros t g Ht R. destruct (B t g Ht R) as [B1 [gn [H0 P]]]. split; [assumption|].
    exists gn. split; [apply nth_error_app_l|]; assumption.
  - intros sid st Hs Ow. destruct (D sid st Hs Ow) as [[gn [H0 P]] D2]. split; [|assumption].
    exists gn. split; [apply nth_error_app_l|]; assumption.
Qed.

Lemma Own_tasks : forall n gs ss ts ts', Own n gs ss ts ->
  (forall t g, In t ts' -> t_ref t = RGen g -> In t ts \/
     (t_ev t < n)%nat /\ exists gn, nth_error gs g = Some gn /\ g_tok gn = t_ev t /\ g_atcall gn = false) ->
  Own n gs ss ts'.
Proof.
  intros n gs ss ts ts' [A [B D]] H. split; [assumption|]. split; [|assumption].
  intros t g Ht R. destruct (H t g Ht R) as [Ho|N]; [exact (B t g Ho R)|exact N].
Qed.

Lemma Own_wst : forall n gs ss ts sid R st, Own n gs ss ts -> nth_error ss sid = Some st ->
  s_tevent (R st) = s_tevent st -> s_parent (R st) = s_parent st -> (owning (R st) = true -> owning st = true) ->
  Own n gs (upd_nth sid R ss) ts.
Proof.
  intros n gs ss ts sid R st [A [B D]] Hs K1 K2 Ko.
  assert (Back : forall s1 st1, nth_error (upd_nth sid R ss) s1 = Some st1 -> exists st0, nth_error ss s1 = Some st0 /\
            s_tevent st1 = s_tevent st0 /\ s_parent st1 = s_parent st0 /\ (owning st1 = true -> owning st0 = true)).
  { intros s1 st1 H1. apply nth_error_upd_inv in H1. destruct H1 as [[<- [x [H1 ->]]]|[E H1]]; [|eauto 6].
    rewrite Hs in H1. inversion H1. subst x. eauto 6. }
  split; [assumption|]. split; [assumption|].
  intros s1 st1 H1 O1. destruct (Back s1 st1 H1) as [st0 [B0 [B1 [B2 B3]]]]. destruct (D s1 st0 B0 (B3 O1)) as [D1 D3].
  rewrite B1, B2. split; [assumption|].
  intros s2 st2 Ne H2 O2. destruct (Back s2 st2 H2) as [st3 [E0 [_ [E2 E3]]]]. rewrite E2. exact (D3 s2 st3 Ne E0 (E3 O2)).
Qed.

Lemma Own_wst_snoc : forall n gs ss ts nw, Own n gs ss ts ->
  (owning nw = true ->
     (exists gn, nth_error gs (s_parent nw) = Some gn /\ g_tok gn = s_tevent nw /\ g_atcall gn = true) /\
     (forall sid st, nth_error ss sid = Some st -> owning st = true -> s_parent st <> s_parent nw)) ->
  Own n gs (ss ++ [nw]) ts.
Proof.
  intros n gs ss ts nw [A [B D]] No. split; [assumption|]. split; [assumption|].
  intros sid st Hs Ow. apply nth_error_snoc in Hs. destruct Hs as [[Hs L]|[-> ->]].
  - destruct (D sid st Hs Ow) as [D1 D3]. split; [assumption|].
    intros s2 st2 Ne H2 O2. apply nth_error_snoc in H2. destruct H2 as [[H2 _]|[_ ->]]; [eauto|].
    destruct (No O2) as [_ N]. intro E. exact (N sid st Hs Ow (eq_sym E)).
  - destruct (No Ow) as [G N]. split; [assumption|].
    intros s2 st2 Ne H2 O2. apply nth_error_snoc in H2. destruct H2 as [[H2 _]|[E _]]; [eauto|congruence].
Qed.

Lemma cnt_gen_snoc : forall tok ts t, cnt_gen tok (ts ++ [t]) = (cnt_gen tok ts + b2n (gen_for tok t))%nat.
Proof. intros. apply filter_len_snoc. Qed.
Lemma cnt_gen_remove : forall tok ts t, NoDup ts -> In t ts ->
  (cnt_gen tok (filter (fun u => negb (task_eqb t u)) ts) + b2n (gen_for tok t) = cnt_gen tok ts)%nat.
Proof. intros. apply filter_len_unreg; assumption. Qed.
Lemma cnt_own_snoc : forall tok ss s, cnt_own tok (ss ++ [s]) = (cnt_own tok ss + b2n (owns tok s))%nat.
Proof. intros. apply filter_len_snoc. Qed.
Lemma cnt_own_upd : forall tok ss sid f st, nth_error ss sid = Some st ->
  (cnt_own tok (upd_nth sid f ss) + b2n (owns tok st) = cnt_own tok ss + b2n (owns tok (f st)))%nat.
Proof. intros. apply filter_len_upd. assumption. Qed.

Lemma gen_for_gen : forall tok tev g p, gen_for tok (mk_task tev (RGen g) p) = Nat.eqb tev tok.
Proof. intros. unfold gen_for. simpl. apply andb_true_r. Qed.
Lemma owns_new : forall tok nm obj tmo cv tev p, owns tok (new_wst nm obj tmo cv tev p) = Nat.eqb tev tok.
Proof. intros. unfold owns. simpl. apply andb_true_r. Qed.
Lemma gen_for_other : forall tok t, is_gen (t_ref t) = false -> gen_for tok t = false.
Proof. intros. unfold gen_for. rewrite H. apply andb_false_r. Qed.

Lemma F_cnt_step : forall es ss ts ss' ts' tev d d' tk F ev0, F_cnt es ss ts tev d -> nth_error es tk = Some ev0 ->
  (forall tok, Z.of_nat (cnt_gen tok ts') + 2 * Z.of_nat (cnt_own tok ss') + (if Nat.eqb tev tok then d' else 0) =
               Z.of_nat (cnt_gen tok ts) + 2 * Z.of_nat (cnt_own tok ss) + (if Nat.eqb tev tok then d else 0) +
               (if Nat.eqb tk tok then e_waiting (F ev0) - e_waiting ev0 else 0)) ->
  F_cnt (upd_nth tk F es) ss' ts' tev d'.
Proof.
  intros es ss ts ss' ts' tev d d' tk F ev0 H H0 Hd tok ev Hev. rewrite Hd.
  apply nth_error_upd_inv in Hev. destruct Hev as [[<- [x [Hx ->]]]|[E Hev]].
  - rewrite H0 in Hx. inversion Hx. subst. rewrite Nat.eqb_refl, (H _ _ H0). lia.
  - apply Nat.eqb_neq in E. rewrite E, (H _ _ Hev). lia.
Qed.

Lemma F_cnt_same : forall es ss ts ss' ts' tev d d', F_cnt es ss ts tev d ->
  (forall tok, Z.of_nat (cnt_gen tok ts') + 2 * Z.of_nat (cnt_own tok ss') + (if Nat.eqb tev tok then d' else 0) =
               Z.of_nat (cnt_gen tok ts) + 2 * Z.of_nat (cnt_own tok ss) + (if Nat.eqb tev tok then d else 0)) ->
  F_cnt es ss' ts' tev d'.
Proof. intros es ss ts ss' ts' tev d d' H Hd tok ev Hev. rewrite Hd. auto. Qed.

Lemma F_cnt_zero : forall es ss ts tev tok ev, F_cnt es ss ts tev 0 -> nth_error es tok = Some ev ->
  e_waiting ev = Z.of_nat (cnt_gen tok ts) + 2 * Z.of_nat (cnt_own tok ss).
Proof. intros es ss ts tev tok ev H Hev. rewrite (H tok ev Hev). destruct (tev =? tok)%nat; lia. Qed.

Lemma active_gate : forall X t0 es gs ss ts q lg tev ev0, EXc X t0 0 es gs ss ts q lg -> nth_error es tev = Some ev0 ->
  (0 < cnt_gen tev ts + cnt_own tev ss)%nat -> e_dispatched ev0 = true /\ e_gate ev0 = O.
Proof.
  intros X t0 es gs ss ts q lg tev ev0 [_ [Hc [_ [Hg _]]]] H0 P. pose proof (F_cnt_zero _ _ _ _ _ _ Hc H0). destruct (Hg tev ev0 H0) as [G1 G2].
  split.
  - destruct (e_dispatched ev0); [reflexivity|]. destruct (G1 eq_refl). lia.
  - destruct (e_gate ev0) eqn:E; [reflexivity|]. destruct G2; lia.
Qed.

Lemma Gate_evt : forall X es ss q lg tev F ev0, Gate X (length es) es ss q lg -> nth_error es tev = Some ev0 ->
  gate_ok (F ev0) ->
  (e_dispatched (F ev0) = true -> e_dispatched ev0 = true \/ ~ In (QUser tev) (X ++ q)) ->
  (e_gate ev0 <= e_gate (F ev0))%nat ->
  ((1 <= e_gate ev0)%nat -> e_vals (F ev0) = e_vals ev0 /\ e_errors (F ev0) = e_errors ev0) ->
  Gate X (length (upd_nth tev F es)) (upd_nth tev F es) ss q lg.
Proof.
  intros X es ss q lg tev F ev0 [Hq [Hgate [Hqu [Hqd [Hnd [Hfl [Hres Hord]]]]]]] H0 G1 G2 G3 G4. rewrite length_upd_nth.
  pose proof (fun tok ev => nth_error_upd_cases F es tev ev0 tok ev H0) as Inv.
  assert (Fwd : forall e ev, nth_error es e = Some ev -> exists ev', nth_error (upd_nth tev F es) e = Some ev' /\
            (e_gate ev <= e_gate ev')%nat /\ ((1 <= e_gate ev)%nat -> e_vals ev' = e_vals ev /\ e_errors ev' = e_errors ev)).
  { intros e ev A. destruct (Nat.eq_dec tev e) as [<-|E].
    - rewrite H0 in A. inversion A. subst ev. exists (F ev0). rewrite (nth_error_upd_same F _ _ _ H0). auto.
    - exists ev. rewrite nth_error_upd_other by assumption. auto. }
  split; [assumption|]. split; [|split; [|split; [|split; [assumption|split; [|split; [|assumption]]]]]].
  - intros tok ev Hev. apply Inv in Hev. destruct Hev as [[-> ->]|[_ A]]; [assumption|eauto].
  - intros tok ev Hin Hev. apply Inv in Hev. destruct Hev as [[-> ->]|[_ A]]; [|eauto].
    destruct (e_dispatched (F ev0)) eqn:D; [|reflexivity]. destruct (G2 eq_refl) as [G|G]; [|contradiction].
    rewrite (Hqu tev ev0 Hin H0) in G. discriminate.
  - intros tok ev Hin Hev. apply Inv in Hev. destruct Hev as [[-> ->]|[_ A]]; [|eauto]. specialize (Hqd tev ev0 Hin H0). lia.
  - intros sid st Hs Ph. destruct (Hfl sid st Hs Ph) as [e [ev [A [B [C D]]]]]. destruct (Fwd e ev B) as [ev' [B' [C' _]]].
    exists e, ev'. split; [assumption|]. split; [assumption|]. split; [lia|assumption].
  - intros tok hi k e vals err Hin. destruct (Hres _ _ _ _ _ _ Hin) as [ev [A [B [C D]]]]. destruct (Fwd e ev A) as [ev' [A' [B' C']]].
    destruct (C' B) as [V1 V2]. exists ev'. split; [assumption|]. split; [lia|]. split; congruence.
Qed.

Lemma Gate_wst : forall X n es ss q lg sid R st, Gate X n es ss q lg -> nth_error ss sid = Some st ->
  (s_ph (R st) = Flagged -> exists e ev, s_event (R st) = Some e /\ nth_error es e = Some ev /\ (1 <= e_gate ev)%nat /\
                                         ~ In (QDone e) (X ++ q)) ->
  Gate X n es (upd_nth sid R ss) q lg.
Proof.
  intros X n es ss q lg sid R st [Hq [Hgate [Hqu [Hqd [Hnd [Hfl Hrest]]]]]] Hs N.
  split; [assumption|]. split; [assumption|]. split; [assumption|]. split; [assumption|]. split; [assumption|]. split; [|assumption].
  intros s2 st2 H2 Ph. apply nth_error_upd_inv in H2. destruct H2 as [[<- [x [A ->]]]|[E A]]; [|eauto].
  rewrite Hs in A. inversion A. subst. auto.
Qed.

Lemma Gate_wst_snoc : forall X n es ss q lg nw, Gate X n es ss q lg -> s_ph nw <> Flagged -> Gate X n es (ss ++ [nw]) q lg.
Proof.
  intros X n es ss q lg nw [Hq [Hgate [Hqu [Hqd [Hnd [Hfl Hrest]]]]]] N.
  split; [assumption|]. split; [assumption|]. split; [assumption|]. split; [assumption|]. split; [assumption|]. split; [|assumption].
  intros sid st Hs Ph. apply nth_error_snoc in Hs. destruct Hs as [[Hs _]|[_ ->]]; [eauto|contradiction].
Qed.

Lemma Gate_log : forall X n es ss q lg x, Gate X n es ss q lg ->
  (forall t, htok x = Some t -> exists ev, nth_error es t = Some ev /\ e_gate ev = O) ->
  (forall t h k e v er, x = LRes t h k e v er ->
     exists ev, nth_error es e = Some ev /\ (1 <= e_gate ev)%nat /\ e_vals ev = v /\ e_errors ev = er) ->
  Gate X n es ss q (x :: lg).
Proof.
  intros X n es ss q lg x [Hq [Hgate [Hqu [Hqd [Hnd [Hfl [Hres Hord]]]]]]] Hh Hr.
  split; [assumption|]. split; [assumption|]. split; [assumption|]. split; [assumption|]. split; [assumption|]. split; [assumption|]. split.
  - intros tok hi k e vals err [Hin|Hin]; eauto.
  - split; [|assumption]. intros tok hi k e vals err Hin Hx. destruct (Hh e Hx) as [ev [A G]].
    destruct (Hres _ _ _ _ _ _ Hin) as [ev' [A' [G' _]]]. rewrite A in A'. inversion A'. subst. lia.
Qed.

Lemma Gate_logs : forall X n es ss q lg t0 ev0 ls, Gate X n es ss q lg -> nth_error es t0 = Some ev0 -> e_gate ev0 = O ->
  Forall (fun x => entry_of t0 x \/ exists hi k e ev, x = LRes t0 hi k e (e_vals ev) (e_errors ev) /\
                                         nth_error es e = Some ev /\ (1 <= e_gate ev)%nat) ls ->
  Gate X n es ss q (ls ++ lg).
Proof.
  intros X n es ss q lg t0 ev0 ls H H0 G L. induction L as [|x r Hx L IH]; simpl; [assumption|].
  apply Gate_log; [assumption| |].
  - intros t Ht. destruct Hx as [Hx|[hi [k [e [ev [-> _]]]]]]; [|inversion Ht; subst; eauto].
    destruct x; simpl in Ht, Hx; try discriminate; try contradiction; inversion Ht; subst; eauto.
  - intros t h k e v er ->. destruct Hx as [[]|[hi [k' [e' [ev [E [A B]]]]]]]. inversion E; subst. eauto.
Qed.

Lemma Gate_evs_app : forall X es ss q lg nms, Gate X (length es) es ss q lg ->
  Gate X (length (es ++ map new_evt nms)) (es ++ map new_evt nms) ss q lg.
Proof.
  intros X es ss q lg nms [Hq [Hgate [Hqu [Hqd [Hnd [Hfl [Hres Hord]]]]]]].
  assert (News : forall i ev, nth_error (es ++ map new_evt nms) i = Some ev ->
            nth_error es i = Some ev \/ ((length es <= i)%nat /\ exists nm, ev = new_evt nm)).
  { intros i ev H. destruct (Nat.lt_ge_cases i (length es)) as [L|L].
    - left. rewrite nth_error_app1 in H by assumption. assumption.
    - right. split; [assumption|]. rewrite nth_error_app2 in H by assumption.
      apply nth_error_In, in_map_iff in H. destruct H as [nm [H _]]. eauto. }
  split; [|split; [|split; [|split; [|split; [assumption|split; [|split; [|assumption]]]]]]].
  - intros x Hx. specialize (Hq x Hx). rewrite app_length. destruct x; simpl in *; lia.
  - intros tok ev Hev. apply News in Hev. destruct Hev as [Hev|[_ [nm ->]]]; [eauto|]. split; simpl; [auto|lia].
  - intros tok ev Hin Hev. apply News in Hev. destruct Hev as [Hev|[_ [nm ->]]]; [eauto|reflexivity].
  - intros tok ev Hin Hev. apply News in Hev. destruct Hev as [Hev|[L _]]; [eauto|]. specialize (Hq _ Hin). simpl in Hq. lia.
  - intros sid st Hs Ph. destruct (Hfl sid st Hs Ph) as [e [ev [A [B C]]]]. exists e, ev. auto using nth_error_app_l.
  - intros tok hi k e vals err Hin. destruct (Hres _ _ _ _ _ _ Hin) as [ev [A B]]. exists ev. auto using nth_error_app_l.
Qed.

Lemma Gate_push : forall X es ss q lg qs, Gate X (length es) es ss q lg ->
  (forall x, In x qs -> qtok_ok (length es) x) ->
  (forall tok ev, In (QUser tok) qs -> nth_error es tok = Some ev -> e_dispatched ev = false) ->
  (forall tok ev, In (QDone tok) qs -> nth_error es tok = Some ev -> (1 <= e_gate ev)%nat) ->
  NoDup (filter udq qs) -> (forall x, In x qs -> udq x = true -> ~ In x (X ++ q)) ->
  (forall tok sid st, In (QDone tok) qs -> nth_error ss sid = Some st -> s_ph st = Flagged -> s_event st <> Some tok) ->
  Gate X (length es) es ss (q ++ qs) lg.
Proof.
  intros X es ss q lg qs [Hq [Hgate [Hqu [Hqd [Hnd [Hfl Hrest]]]]]] Q1 Q2 Q3 Q4 Q5 Q6.
  assert (Pend : forall x, In x (X ++ q ++ qs) <-> In x (X ++ q) \/ In x qs) by (intro x; rewrite app_assoc; apply in_app_iff).
  split; [|split; [assumption|split; [|split; [|split; [|split; [|assumption]]]]]].
  - intros x Hx. apply Pend in Hx. destruct Hx; auto.
  - intros tok ev Hin. apply Pend in Hin. destruct Hin; eauto.
  - intros tok ev Hin. apply Pend in Hin. destruct Hin; eauto.
  - unfold F_qnodup in *. rewrite app_assoc, filter_app. apply NoDup_app_intro; [assumption|assumption|].
    intros x Hx Hx'. apply filter_In in Hx. apply filter_In in Hx'. apply (Q5 x); tauto.
  - intros sid st Hs Ph. destruct (Hfl sid st Hs Ph) as [e [ev [A [B [C D]]]]]. exists e, ev. repeat split; try assumption.
    intro Hin. apply Pend in Hin. destruct Hin as [Hin|Hin]; [contradiction|]. exact (Q6 e sid st Hin Hs Ph A).
Qed.

Lemma Gate_pop : forall x X n es ss q lg, Gate (x :: X) n es ss q lg -> Gate X n es ss q lg /\ (udq x = true -> ~ In x (X ++ q)).
Proof.
  intros x X n es ss q lg [Hq [Hgate [Hqu [Hqd [Hnd [Hfl Hrest]]]]]]. unfold F_qnodup in Hnd. simpl in Hnd. split.
  - split; [intros y Hy; apply Hq; right; assumption|]. split; [assumption|].
    split; [intros tok ev Hin; apply Hqu; right; assumption|]. split; [intros tok ev Hin; apply Hqd; right; assumption|].
    split; [destruct (udq x); [inversion Hnd|]; assumption|]. split; [|assumption].
    intros sid st Hs Ph. destruct (Hfl sid st Hs Ph) as [e [ev [A [B [C D]]]]]. exists e, ev. repeat split; try assumption.
    intro Hin. apply D. right. assumption.
  - intros U Hin. rewrite U in Hnd. inversion Hnd as [|? ? Nx _]. apply Nx. apply filter_In. auto.
Qed.

Section LFields.
Variables excp exco : option nat.     (* the event instance whose QUser / QDone item is being dispatched right now *)
Variables (X : list qitem) (es : list evt) (ss : list wst) (ts : list task) (q : list qitem).

Definition L_fl : Prop := forall sid st, nth_error ss sid = Some st -> s_ph st = Flagged ->
  In (mk_task (s_tevent st) (RWait sid) (Some (s_parent st))) ts.
Definition L_p : Prop := forall sid st e, nth_error ss sid = Some st -> s_ph st = Armed -> s_obj st = Some e ->
  Some e <> excp -> In (QUser e) (X ++ q).
Definition L_o : Prop := forall sid st e ev, nth_error ss sid = Some st -> s_ph st = Seen -> s_event st = Some e ->
  Some e <> exco -> nth_error es e = Some ev -> 0 < e_waiting ev \/ In (QDone e) (X ++ q).
Definition L_m : Prop := forall sid st e, nth_error ss sid = Some st -> s_event st = Some e ->
  exists ev, nth_error es e = Some ev /\ e_name ev = s_name st /\ e_alert ev = true.
Definition L_m2 : Prop := forall sid st e, nth_error ss sid = Some st -> s_obj st = Some e ->
  exists ev, nth_error es e = Some ev /\ e_name ev = s_name st.
Definition L_v : Prop := forall sid st e sid' st', nth_error ss sid = Some st -> s_event st = Some e ->
  nth_error ss sid' = Some st' -> s_tevent st' = e -> (sid < sid')%nat.
Definition L_z : Prop := forall sid st, nth_error ss sid = Some st ->
  exists ev, nth_error es (s_tevent st) = Some ev /\ e_dispatched ev = true.
Definition L_se : Prop := forall sid st, nth_error ss sid = Some st -> s_ph st = Seen -> s_event st <> None.
Definition ELc : Prop := L_fl /\ L_p /\ L_o /\ L_m /\ L_m2 /\ L_v /\ L_z /\ L_se.
End LFields.

Definition EL (excp exco : option nat) (X : list qitem) (w : world) : Prop :=
  ELc excp exco X (evs w) (wsts w) (tasks w) (queue w).

Ltac elsplit := unfold ELc; repeat match goal with |- _ /\ _ => split end; try assumption.

Lemma EL_ext : forall xp xo X es ss ts q news qs, ELc xp xo X es ss ts q -> ELc xp xo X (es ++ news) ss ts (q ++ qs).
Proof.
  intros xp xo X es ss ts q news qs [Hfl [Hp [Ho [Hm [Hm2 [Hv [Hz Hse]]]]]]].
  assert (Sub : forall x, In x (X ++ q) -> In x (X ++ q ++ qs)).
  { intros x Hx. rewrite app_assoc. apply in_app_iff. left. assumption. }
  elsplit.
  - intros sid st e Hs Ph Ob Ne. apply Sub. eauto.
  - intros sid st e ev Hs Ph Ev Ne Hev. destruct (Hm sid st e Hs Ev) as [ev0 [A _]].
    rewrite (nth_error_app_l es news e ev0 A) in Hev. inversion Hev. subst ev0.
    destruct (Ho sid st e ev Hs Ph Ev Ne A) as [L|L]; [left; assumption|right; apply Sub; assumption].
  - intros sid st e Hs Ev. destruct (Hm sid st e Hs Ev) as [ev [A B]]. exists ev. split; [apply nth_error_app_l; assumption|assumption].
  - intros sid st e Hs Ob. destruct (Hm2 sid st e Hs Ob) as [ev [A B]]. exists ev. split; [apply nth_error_app_l; assumption|assumption].
  - intros sid st Hs. destruct (Hz sid st Hs) as [ev [A B]]. exists ev. split; [apply nth_error_app_l; assumption|assumption].
Qed.

Lemma EL_evt : forall xp xo X es ss ts q tev F ev0, ELc xp xo X es ss ts q -> nth_error es tev = Some ev0 ->
  e_name (F ev0) = e_name ev0 -> (e_alert ev0 = true -> e_alert (F ev0) = true) ->
  (e_dispatched ev0 = true -> e_dispatched (F ev0) = true) ->
  (xo = Some tev \/ (0 < e_waiting ev0 -> 0 < e_waiting (F ev0))) ->
  ELc xp xo X (upd_nth tev F es) ss ts q.
Proof.
  intros xp xo X es ss ts q tev F ev0 [Hfl [Hp [Ho [Hm [Hm2 [Hv [Hz Hse]]]]]]] H0 Fn Fa Fd Fw.
  assert (Look : forall e ev, nth_error es e = Some ev -> exists ev', nth_error (upd_nth tev F es) e = Some ev' /\
            e_name ev' = e_name ev /\ (e_alert ev = true -> e_alert ev' = true) /\ (e_dispatched ev = true -> e_dispatched ev' = true)).
  { intros e ev He. destruct (Nat.eq_dec e tev) as [E|E].
    - subst e. rewrite H0 in He. inversion He. subst ev. exists (F ev0). split; [apply nth_error_upd_same; assumption|auto].
    - exists ev. split; [rewrite nth_error_upd_other by congruence; assumption|auto]. }
  elsplit.
  - intros sid st e ev Hs Ph Ev Ne Hev. destruct (Nat.eq_dec e tev) as [E|E].
    + subst e. rewrite (nth_error_upd_same F es tev ev0 H0) in Hev. inversion Hev. subst ev.
      destruct Fw as [Fw|Fw]; [congruence|]. destruct (Ho sid st tev ev0 Hs Ph Ev Ne H0) as [L|L]; [left; auto|right; assumption].
    + rewrite nth_error_upd_other in Hev by congruence. eauto.
  - intros sid st e Hs Ev. destruct (Hm sid st e Hs Ev) as [ev [A [B C]]]. destruct (Look e ev A) as [ev' [A' [B' [C' _]]]].
    exists ev'. split; [assumption|]. split; [congruence|auto].
  - intros sid st e Hs Ob. destruct (Hm2 sid st e Hs Ob) as [ev [A B]]. destruct (Look e ev A) as [ev' [A' [B' _]]].
    exists ev'. split; [assumption|congruence].
  - intros sid st Hs. destruct (Hz sid st Hs) as [ev [A B]]. destruct (Look _ ev A) as [ev' [A' [_ [_ D']]]]. exists ev'. auto.
Qed.

Lemma EL_tasks : forall xp xo X es ss ts ts' q, ELc xp xo X es ss ts q ->
  (forall sid st, nth_error ss sid = Some st -> s_ph st = Flagged ->
     In (mk_task (s_tevent st) (RWait sid) (Some (s_parent st))) ts -> In (mk_task (s_tevent st) (RWait sid) (Some (s_parent st))) ts') ->
  ELc xp xo X es ss ts' q.
Proof.
  intros xp xo X es ss ts ts' q [Hfl [Hp [Ho [Hm [Hm2 [Hv [Hz Hse]]]]]]] Sub. elsplit.
  intros sid st Hs Ph. apply (Sub sid st Hs Ph). apply Hfl; assumption.
Qed.

Definition keeps_all (R : wst -> wst) : Prop :=
  forall st, s_tevent (R st) = s_tevent st /\ s_parent (R st) = s_parent st /\ s_event (R st) = s_event st /\
             s_obj (R st) = s_obj st /\ s_name (R st) = s_name st.

Lemma EL_wst : forall xp xo X es ss ts q sid R st, ELc xp xo X es ss ts q -> nth_error ss sid = Some st -> keeps_all R ->
  (s_ph (R st) = Flagged -> s_ph st = Flagged \/ In (mk_task (s_tevent st) (RWait sid) (Some (s_parent st))) ts) ->
  (s_ph (R st) = Armed -> s_ph st = Armed) -> (s_ph (R st) = Seen -> s_ph st = Seen) ->
  ELc xp xo X es (upd_nth sid R ss) ts q.
Proof.
  intros xp xo X es ss ts q sid R st [Hfl [Hp [Ho [Hm [Hm2 [Hv [Hz Hse]]]]]]] Hs K P1 P2 P3.
  destruct (K st) as [K1 [K2 [K3 [K4 K5]]]].
  assert (Back : forall s1 st1, nth_error (upd_nth sid R ss) s1 = Some st1 ->
     exists st0, nth_error ss s1 = Some st0 /\ s_tevent st1 = s_tevent st0 /\ s_parent st1 = s_parent st0 /\ s_event st1 = s_event st0 /\
                 s_obj st1 = s_obj st0 /\ s_name st1 = s_name st0 /\
                 (s_ph st1 = Flagged -> s_ph st0 = Flagged \/ In (mk_task (s_tevent st0) (RWait s1) (Some (s_parent st0))) ts) /\
                 (s_ph st1 = Armed -> s_ph st0 = Armed) /\ (s_ph st1 = Seen -> s_ph st0 = Seen)).
  { intros s1 st1 H1. destruct (nth_error_upd_cases _ _ _ _ _ _ Hs H1) as [[-> ->]|[_ A]]; [exists st|exists st1]; auto 12. }
  elsplit.
  - intros s1 st1 H1 Ph. destruct (Back s1 st1 H1) as [st0 [B0 [B1 [B2 [B3 [B4 [B5 [B6 [B7 B8]]]]]]]]]. rewrite B1, B2.
    destruct (B6 Ph); auto.
  - intros s1 st1 e H1 Ph Ob Ne. destruct (Back s1 st1 H1) as [st0 [B0 [B1 [B2 [B3 [B4 [B5 [B6 [B7 B8]]]]]]]]]. apply (Hp s1 st0 e); auto. congruence.
  - intros s1 st1 e ev H1 Ph Ev Ne Hev. destruct (Back s1 st1 H1) as [st0 [B0 [B1 [B2 [B3 [B4 [B5 [B6 [B7 B8]]]]]]]]]. apply (Ho s1 st0 e ev); auto. congruence.
  - intros s1 st1 e H1 Ev. destruct (Back s1 st1 H1) as [st0 [B0 [B1 [B2 [B3 [B4 [B5 _]]]]]]]. rewrite B5. apply (Hm s1 st0 e); auto. congruence.
  - intros s1 st1 e H1 Ob. destruct (Back s1 st1 H1) as [st0 [B0 [B1 [B2 [B3 [B4 [B5 _]]]]]]]. rewrite B5. apply (Hm2 s1 st0 e); auto. congruence.
  - intros s1 st1 e s2 st2 H1 Ev H2 Te. destruct (Back s1 st1 H1) as [st0 [B0 [B1 [B2 [B3 _]]]]]. destruct (Back s2 st2 H2) as [st3 [C0 [C1 _]]].
    apply (Hv s1 st0 e s2 st3); auto; congruence.
  - intros s1 st1 H1. destruct (Back s1 st1 H1) as [st0 [B0 [B1 _]]]. rewrite B1. eauto.
  - intros s1 st1 H1 Ph. destruct (Back s1 st1 H1) as [st0 [B0 [B1 [B2 [B3 [B4 [B5 [B6 [B7 B8]]]]]]]]]. rewrite B3. eauto.
Qed.

Lemma keeps_all_resumed : keeps_all wst_resumed. Proof. intro s. repeat split. Qed.
Lemma keeps_all_thrown : keeps_all wst_thrown. Proof. intro s. repeat split. Qed.
Lemma keeps_all_timeout : keeps_all wst_timeout. Proof. intro s. repeat split. Qed.
Lemma keeps_all_tick : keeps_all wst_tick. Proof. intro s. repeat split. Qed.
Lemma keeps_all_phase : forall ph, keeps_all (wst_phase ph). Proof. intros ph s. repeat split. Qed.

(* _on_event: the wait has seen tok, no handler of which is suspended in a wait yet *)
Lemma EL_wst_seen : forall xp X es ss ts q sid st tok ev, ELc xp (Some tok) X es ss ts q -> nth_error ss sid = Some st ->
  nth_error es tok = Some ev -> e_name ev = s_name st -> e_alert ev = true ->
  (forall s' st', nth_error ss s' = Some st' -> s_tevent st' <> tok) ->
  ELc xp (Some tok) X es (upd_nth sid (wst_seen tok) ss) ts q.
Proof.
  intros xp X es ss ts q sid st tok ev [Hfl [Hp [Ho [Hm [Hm2 [Hv [Hz Hse]]]]]]] Hs He Nm Al NoT.
  assert (Back : forall s1 st1, nth_error (upd_nth sid (wst_seen tok) ss) s1 = Some st1 ->
     (s1 = sid /\ st1 = wst_seen tok st) \/ (s1 <> sid /\ nth_error ss s1 = Some st1)) by (intros; eapply nth_error_upd_cases; eauto).
  elsplit.
  - intros s1 st1 H1 Ph. destruct (Back s1 st1 H1) as [[E1 E2]|[E1 E2]]; [subst; discriminate|auto].
  - intros s1 st1 e H1 Ph Ob Ne. destruct (Back s1 st1 H1) as [[E1 E2]|[E1 E2]]; [subst; discriminate|eauto].
  - intros s1 st1 e ev' H1 Ph Ev Ne Hev. destruct (Back s1 st1 H1) as [[E1 E2]|[E1 E2]]; [subst; simpl in Ev; congruence|eauto].
  - intros s1 st1 e H1 Ev. destruct (Back s1 st1 H1) as [[E1 E2]|[E1 E2]]; [|eauto].
    subst. simpl in Ev. inversion Ev; subst. exists ev. auto.
  - intros s1 st1 e H1 Ob. destruct (Back s1 st1 H1) as [[E1 E2]|[E1 E2]]; [subst; simpl in *; eauto|eauto].
  - intros s1 st1 e s2 st2 H1 Ev H2 Te.
    assert (T2 : exists st3, nth_error ss s2 = Some st3 /\ s_tevent st3 = e).
    { destruct (Back s2 st2 H2) as [[E1 E2]|[E1 E2]]; [subst; exists st; auto|exists st2; auto]. }
    destruct T2 as [st3 [T2 T3]].
    destruct (Back s1 st1 H1) as [[E1 E2]|[E1 E2]].
    + subst s1 st1. simpl in Ev. exfalso. apply (NoT s2 st3 T2). congruence.
    + apply (Hv s1 st1 e s2 st3); auto.
  - intros s1 st1 H1. destruct (Back s1 st1 H1) as [[E1 E2]|[E1 E2]]; [subst; simpl; eauto|eauto].
  - intros s1 st1 H1 Ph. destruct (Back s1 st1 H1) as [[E1 E2]|[E1 E2]]; [subst; simpl; discriminate|eauto].
Qed.

Lemma EL_wst_new : forall xp xo X es ss ts q nw, ELc xp xo X es ss ts q ->
  s_ph nw = Armed -> s_event nw = None ->
  (forall e, s_obj nw = Some e -> In (QUser e) (X ++ q) /\ exists ev, nth_error es e = Some ev /\ e_name ev = s_name nw) ->
  (exists ev, nth_error es (s_tevent nw) = Some ev /\ e_dispatched ev = true) ->
  ELc xp xo X es (ss ++ [nw]) ts q.
Proof.
  intros xp xo X es ss ts q nw [Hfl [Hp [Ho [Hm [Hm2 [Hv [Hz Hse]]]]]]] N1 N2 N3 N4.
  elsplit.
  - intros s1 st1 H1 Ph. apply nth_error_snoc in H1. destruct H1 as [[H1 _]|[_ E]]; [auto|subst; congruence].
  - intros s1 st1 e H1 Ph Ob Ne. apply nth_error_snoc in H1. destruct H1 as [[H1 _]|[_ E]]; [eauto|]. subst. apply N3. assumption.
  - intros s1 st1 e ev H1 Ph Ev Ne Hev. apply nth_error_snoc in H1. destruct H1 as [[H1 _]|[_ E]]; [eauto|subst; congruence].
  - intros s1 st1 e H1 Ev. apply nth_error_snoc in H1. destruct H1 as [[H1 _]|[_ E]]; [eauto|subst; congruence].
  - intros s1 st1 e H1 Ob. apply nth_error_snoc in H1. destruct H1 as [[H1 _]|[_ E]]; [eauto|]. subst. apply N3. assumption.
  - intros s1 st1 e s2 st2 H1 Ev H2 Te. apply nth_error_snoc in H1. destruct H1 as [[H1 L1]|[_ E]]; [|subst; congruence].
    apply nth_error_snoc in H2. destruct H2 as [[H2 _]|[L2 _]]; [eauto|lia].
  - intros s1 st1 H1. apply nth_error_snoc in H1. destruct H1 as [[H1 _]|[_ E]]; [eauto|subst; assumption].
  - intros s1 st1 H1 Ph. apply nth_error_snoc in H1. destruct H1 as [[H1 _]|[_ E]]; [eauto|subst; congruence].
Qed.

(* the head of the pending items is taken: its event is excepted while it is dispatched *)
Definition pexc (x : qitem) : option nat := match x with QUser t => Some t | _ => None end.
Definition oexc (x : qitem) : option nat := match x with QDone t => Some t | _ => None end.

Lemma EL_pop : forall x X es ss ts q, ELc None None (x :: X) es ss ts q -> ELc (pexc x) (oexc x) X es ss ts q.
Proof.
  intros x X es ss ts q [Hfl [Hp [Ho [Hm [Hm2 [Hv [Hz Hse]]]]]]]. elsplit.
  - intros sid st e Hs Ph Ob Ne. assert (N : Some e <> None) by discriminate.
    destruct (Hp sid st e Hs Ph Ob N) as [E|E]; [|assumption]. subst x. simpl in Ne. congruence.
  - intros sid st e ev Hs Ph Ev Ne Hev. assert (N : Some e <> None) by discriminate.
    destruct (Ho sid st e ev Hs Ph Ev N Hev) as [L|[E|E]]; [left; assumption| |right; assumption]. subst x. simpl in Ne. congruence.
Qed.

Lemma EL_exc : forall xp xo xp' xo' X es ss ts q, ELc xp xo X es ss ts q ->
  (forall sid st e, xp = Some e -> xp' <> Some e -> nth_error ss sid = Some st -> s_ph st = Armed -> s_obj st = Some e ->
     In (QUser e) (X ++ q)) ->
  (forall sid st e ev, xo = Some e -> xo' <> Some e -> nth_error ss sid = Some st -> s_ph st = Seen -> s_event st = Some e ->
     nth_error es e = Some ev -> 0 < e_waiting ev \/ In (QDone e) (X ++ q)) ->
  ELc xp' xo' X es ss ts q.
Proof.
  assert (Dec : forall (x : option nat) e, x = Some e \/ Some e <> x).
  { intros [y|] e; [destruct (Nat.eq_dec y e) as [->|N]; [left; reflexivity|right; congruence]|right; discriminate]. }
  intros xp xo xp' xo' X es ss ts q [Hfl [Hp [Ho [Hm [Hm2 [Hv [Hz Hse]]]]]]] A B. elsplit.
  - intros sid st e Hs Ph Ob Ne. destruct (Dec xp e) as [E|E]; [eapply A; eauto; congruence|eauto].
  - intros sid st e ev Hs Ph Ev Ne Hev. destruct (Dec xo e) as [E|E]; [eapply B; eauto; congruence|eauto].
Qed.

Lemma EL_close : forall xp xo X es ss ts q, ELc xp xo X es ss ts q ->
  (forall sid st e, xp = Some e -> nth_error ss sid = Some st -> s_ph st = Armed -> s_obj st = Some e -> In (QUser e) (X ++ q)) ->
  (forall sid st e ev, xo = Some e -> nth_error ss sid = Some st -> s_ph st = Seen -> s_event st = Some e -> nth_error es e = Some ev ->
     0 < e_waiting ev \/ In (QDone e) (X ++ q)) ->
  ELc None None X es ss ts q.
Proof. intros xp xo X es ss ts q H A B. apply (EL_exc xp xo None None _ _ _ _ _ H); eauto. Qed.

Definition Slack (xp xo : option nat) (X : list qitem) (tev : nat) (d : Z) (w : world) : Prop :=
  bad w = false /\ IC w /\ EX X tev d w /\ EL xp xo X w.

Definition Full (xp xo : option nat) (X : list qitem) (w : world) : Prop := Slack xp xo X O 0 w.

Lemma Slack_parts : forall xp xo X tev d w, bad w = false -> IC w ->
  Own (length (evs w)) (gens w) (wsts w) (tasks w) -> F_cnt (evs w) (wsts w) (tasks w) tev d ->
  Gate X (length (evs w)) (evs w) (wsts w) (queue w) (wlog w) -> ELc xp xo X (evs w) (wsts w) (tasks w) (queue w) ->
  Slack xp xo X tev d w.
Proof. intros xp xo X tev d w B I O C G L. exact (conj B (conj I (conj (conj O (conj C G)) L))). Qed.

Lemma Slack_zero : forall xp xo X tev tev' w, Slack xp xo X tev 0 w -> Slack xp xo X tev' 0 w.
Proof.
  intros xp xo X tev tev' w [B [HI [[HO [HC HG]] HL]]]. apply Slack_parts; try assumption.
  intros tok ev Hev. rewrite (F_cnt_zero _ _ _ _ _ _ HC Hev). destruct (tev' =? tok)%nat; lia.
Qed.

Lemma Slack_widen : forall xp xo X tev d w, Slack None None X tev d w -> Slack xp xo X tev d w.
Proof.
  intros xp xo X tev d w [B [HI [HX HL]]]. refine (conj B (conj HI (conj HX _))).
  apply (EL_exc None None _ _ _ _ _ _ _ HL); discriminate.
Qed.

Lemma Slack_log : forall xp xo X tev d w x, Slack xp xo X tev d w ->
  (forall t, htok x = Some t -> exists ev, nth_error (evs w) t = Some ev /\ e_gate ev = O) ->
  (forall t h k e v er, x = LRes t h k e v er ->
     exists ev, nth_error (evs w) e = Some ev /\ (1 <= e_gate ev)%nat /\ e_vals ev = v /\ e_errors ev = er) ->
  Slack xp xo X tev d (add_log x w).
Proof.
  intros xp xo X tev d w x [B [HI [[HO [HC HG]] HL]]] Hh Hr.
  exact (conj B (conj HI (conj (conj HO (conj HC (Gate_log _ _ _ _ _ _ x HG Hh Hr))) HL))).
Qed.

Lemma waiting_nonneg : forall X tev w tok ev, EX X tev 0 w -> nth_error (evs w) tok = Some ev -> 0 <= e_waiting ev.
Proof. intros X tev w tok ev [_ [Hcnt _]] H. rewrite (F_cnt_zero _ _ _ _ _ _ Hcnt H). lia. Qed.

Lemma cnt_zero_beyond : forall es gs ss ts tok, Own (length es) gs ss ts -> L_z es ss -> (length es <= tok)%nat ->
  cnt_gen tok ts = O /\ cnt_own tok ss = O.
Proof.
  intros es gs ss ts tok [_ [Ht _]] Hz L. split.
  - destruct (cnt_gen tok ts) eqn:E; [reflexivity|]. destruct (filter_len_witness (gen_for tok) ts) as [t [Hin G]]; [unfold cnt_gen in E; lia|].
    apply andb_prop in G. destruct G as [G Ig]. apply Nat.eqb_eq in G. destruct (t_ref t) as [g| |] eqn:R; try discriminate Ig.
    destruct (Ht t g Hin R). lia.
  - destruct (cnt_own tok ss) eqn:E; [reflexivity|]. destruct (filter_len_witness (owns tok) ss) as [s [Hin G]]; [unfold cnt_own in E; lia|].
    apply andb_prop in G. destruct G as [G _]. apply Nat.eqb_eq in G. apply In_nth_error in Hin. destruct Hin as [sid Hs].
    destruct (Hz sid s Hs) as [ev [Hev _]]. apply nth_error_lt in Hev. lia.
Qed.

Lemma filter_udq_users : forall a n, filter udq (map QUser (seq a n)) = map QUser (seq a n).
Proof. intros a n. revert a. induction n; intro a; simpl; [reflexivity|]. rewrite IHn. reflexivity. Qed.

(* the third hypothesis: either a root fire (nothing logged, no count in hand) or a running handler of tev, whose entries
   may be logged because tev has not passed its gate *)
Lemma EX_grow : forall X tev d es gs ss ts q lg nms ls ev0, EXc X tev d es gs ss ts q lg -> L_z es ss ->
  ((ls = [] /\ d = 0) \/ (nth_error es tev = Some ev0 /\ e_gate ev0 = O)) ->
  Forall (fun x => entry_of tev x \/ exists hi k e ev, x = LRes tev hi k e (e_vals ev) (e_errors ev) /\
                                         nth_error es e = Some ev /\ (1 <= e_gate ev)%nat) ls ->
  EXc X tev d (es ++ map new_evt nms) gs ss ts (q ++ map QUser (seq (length es) (length nms))) (ls ++ lg).
Proof.
  intros X tev d es gs ss ts q lg nms ls ev0 [HO [HC HG]] Hz A L.
  assert (Len : (length es <= length (es ++ map new_evt nms))%nat) by (rewrite app_length; lia).
  assert (Users : forall x, In x (map QUser (seq (length es) (length nms))) -> exists t, x = QUser t /\ (length es <= t)%nat /\
            nth_error (es ++ map new_evt nms) t <> None).
  { intros x Hx. apply in_map_iff in Hx. destruct Hx as [t [<- Hx]]. apply in_seq in Hx. exists t. split; [reflexivity|]. split; [lia|].
    apply nth_error_Some. rewrite app_length, map_length. lia. }
  split; [exact (Own_len _ _ _ _ _ HO Len)|]. split.
  - intros tok ev Hev. destruct (Nat.lt_ge_cases tok (length es)) as [Lt|Ge].
    + rewrite nth_error_app1 in Hev by assumption. auto.
    + rewrite nth_error_app2 in Hev by assumption. apply nth_error_In, in_map_iff in Hev. destruct Hev as [nm [<- _]].
      destruct (cnt_zero_beyond _ _ _ _ tok HO Hz Ge) as [-> ->]. destruct A as [[_ ->]|[H0 _]]; [destruct (tev =? tok)%nat; reflexivity|].
      apply nth_error_lt in H0. replace (tev =? tok)%nat with false by (symmetry; apply Nat.eqb_neq; lia). reflexivity.
  - pose proof (Gate_evs_app X es ss q lg nms HG) as G1. pose proof HG as [Hq _].
    assert (G2 : Gate X (length (es ++ map new_evt nms)) (es ++ map new_evt nms) ss (q ++ map QUser (seq (length es) (length nms))) lg).
    { apply Gate_push; [assumption| | | | | |].
      - intros x Hx. destruct (Users x Hx) as [t [-> [_ N]]]. apply nth_error_Some in N. exact N.
      - intros tok ev Hin Hev. destruct (Users _ Hin) as [t [E [Ge _]]]. inversion E. subst t.
        rewrite nth_error_app2 in Hev by assumption. apply nth_error_In, in_map_iff in Hev. destruct Hev as [nm [<- _]]. reflexivity.
      - intros tok ev Hin. destruct (Users _ Hin) as [t [E _]]. discriminate.
      - rewrite filter_udq_users. apply FinFun.Injective_map_NoDup; [intros x y E; inversion E; reflexivity|apply seq_NoDup].
      - intros x Hx _ Hin. destruct (Users x Hx) as [t [-> [Ge _]]]. specialize (Hq _ Hin). simpl in Hq. lia.
      - intros tok sid st Hin. destruct (Users _ Hin) as [t [E _]]. discriminate. }
    destruct A as [[-> _]|[H0 G0]]; [exact G2|].
    apply (Gate_logs _ _ _ _ _ _ tev ev0); [assumption|apply nth_error_app_l; assumption|assumption|].
    eapply Forall_impl; [|exact L]. intros x [Hx|[hi [k [e [ev [E [Hev Ge]]]]]]]; [left; assumption|].
    right. exists hi, k, e, ev. auto using nth_error_app_l.
Qed.

(* the counts in hand take up the change of tev's count, which may go down only while some stay in hand (it is then
   positive) or tev is the excepted event: [L_o] *)
Lemma Slack_evt : forall xp xo X tev d d' w F ev0, Slack xp xo X tev d w -> nth_error (evs w) tev = Some ev0 ->
  e_dispatched ev0 = true -> e_gate ev0 = O -> e_dispatched (F ev0) = true -> e_gate (F ev0) = O ->
  e_name (F ev0) = e_name ev0 -> (e_alert ev0 = true -> e_alert (F ev0) = true) ->
  e_waiting (F ev0) = e_waiting ev0 + (d' - d) -> (xo = Some tev \/ 0 < d' \/ d' = d) ->
  Slack xp xo X tev d' (mod_evt tev F w).
Proof.
  intros xp xo X tev d d' w F ev0 [B [HI [[HO [HC HG]] HL]]] H0 D G D' G' Nm Al Wt Pos.
  apply Slack_parts; wproj; [exact B|exact HI| | | |].
  - rewrite length_upd_nth. exact HO.
  - apply (F_cnt_step _ _ _ _ _ tev d d' tev F ev0 HC H0). intro tok. rewrite Wt. destruct (tev =? tok)%nat; lia.
  - apply (Gate_evt _ _ _ _ _ tev F ev0 HG H0); [|auto|lia|lia]. unfold gate_ok. rewrite D', G'. split; [discriminate|lia].
  - apply (EL_evt xp xo X _ _ _ _ tev F ev0 HL H0); auto.
    destruct Pos as [P|[P|P]]; [left; exact P|right; intros _|right; rewrite Wt; lia].
    rewrite Wt, (HC tev ev0 H0), Nat.eqb_refl. lia.
Qed.

Lemma Full_evt : forall xp xo X tok w F ev0, Full xp xo X w -> nth_error (evs w) tok = Some ev0 ->
  e_dispatched ev0 = true -> e_gate ev0 = O -> e_dispatched (F ev0) = true -> e_gate (F ev0) = O ->
  e_name (F ev0) = e_name ev0 -> (e_alert ev0 = true -> e_alert (F ev0) = true) -> e_waiting (F ev0) = e_waiting ev0 ->
  Full xp xo X (mod_evt tok F w).
Proof.
  intros xp xo X tok w F ev0 HF H0 D G D' G' Nm Al Wt.
  apply (Slack_zero _ _ _ tok), (Slack_evt _ _ _ tok 0 0 _ F ev0 (Slack_zero _ _ _ O tok _ HF) H0); auto. rewrite Wt. lia.
Qed.

(* _eventDone as one update *)
Lemma event_done_eq : forall tok err w ev, nth_error (evs w) tok = Some ev ->
  event_done tok err w =
  if e_waiting ev =? 0
  then set_queue (mod_evt tok inc_gate w)
         (queue w ++ (if e_alert ev then [QDone tok] else []) ++ (if err || e_errors ev then [] else [QSucc tok]))
  else w.
Proof.
  intros tok err w ev H. unfold event_done. rewrite H. destruct (e_waiting ev =? 0); [|reflexivity].
  destruct (e_alert ev), (err || e_errors ev); unfold push, set_queue; simpl; rewrite <- ?app_assoc, ?app_nil_r; reflexivity.
Qed.

(* _eventDone for the event whose <name>_done is excepted: it passes its gate, and then queues <name>_done if a wait
   has seen it, or it still holds counts *)
Lemma event_done_full : forall xp X w tok err ev, Slack xp (Some tok) X tok 0 w -> nth_error (evs w) tok = Some ev ->
  (e_waiting ev = 0 -> e_gate ev = O /\ e_dispatched ev = true) ->
  Full xp None X (event_done tok err w).
Proof.
  intros xp X w tok err ev [B [HI [HX HL]]] H0 G. pose proof (waiting_nonneg X tok w tok ev HX H0) as NN.
  apply (Slack_zero _ _ _ tok). rewrite (event_done_eq tok err w ev H0). destruct (Z.eqb_spec (e_waiting ev) 0) as [W|W].
  - destruct (G W) as [G1 G2]. set (qs := (if e_alert ev then [QDone tok] else []) ++ (if err || e_errors ev then [] else [QSucc tok])).
    assert (Qs : forall x, In x qs -> x = QDone tok /\ e_alert ev = true \/ x = QSucc tok).
    { intros x Hx. unfold qs in Hx. apply in_app_iff in Hx. destruct (e_alert ev), (err || e_errors ev); simpl in Hx; intuition (subst; auto). }
    split; [exact B|]. split; [exact HI|]. destruct HX as [HO [HC HG]]. unfold EX, EL. wproj. split; [split; [|split]|].
    + rewrite length_upd_nth. exact HO.
    + apply (F_cnt_step _ _ _ _ _ _ _ _ tok inc_gate ev HC H0). intro t. simpl. destruct (tok =? t)%nat; lia.
    + pose proof HG as [_ [_ [_ [Hqd [_ [Hfl _]]]]]].
      apply Gate_push.
      * apply (Gate_evt _ _ _ _ _ tok inc_gate ev HG H0); simpl; auto. unfold gate_ok. simpl. rewrite G2, W. split; [discriminate|auto].
      * intros x Hx. rewrite length_upd_nth. apply nth_error_lt in H0. destruct (Qs x Hx) as [[-> _]| ->]; exact H0.
      * intros t e Hin. destruct (Qs _ Hin) as [[E _]|E]; discriminate.
      * intros t e Hin He. destruct (Qs _ Hin) as [[E _]|E]; [|discriminate]. inversion E. subst t.
        rewrite (nth_error_upd_same inc_gate _ _ _ H0) in He. inversion He. simpl. lia.
      * unfold qs. destruct (e_alert ev), (err || e_errors ev); simpl; repeat constructor; simpl; tauto.
      * intros x Hx U Hin. destruct (Qs x Hx) as [[-> _]| ->]; [specialize (Hqd tok ev Hin H0); lia|discriminate U].
      * intros t sid st Hin Hs Ph Ev. destruct (Qs _ Hin) as [[E _]|E]; [|discriminate]. inversion E. subst t.
        destruct (Hfl sid st Hs Ph) as [e [ev' [A1 [A2 [A3 _]]]]]. rewrite Ev in A1. inversion A1. subst e. rewrite H0 in A2. inversion A2. subst. lia.
    + pose proof (EL_evt xp (Some tok) X _ _ _ _ tok inc_gate ev HL H0 eq_refl (fun a => a) (fun a => a) (or_introl eq_refl)) as P1.
      pose proof (EL_ext _ _ _ _ _ _ _ [] qs P1) as P2. rewrite app_nil_r in P2.
      apply (EL_exc xp (Some tok) xp None _ _ _ _ _ P2); [congruence|].
      intros sid st e ev' E _ Hs Ph Ev Hev. inversion E. subst e.
      destruct HL as [_ [_ [_ [Hm _]]]]. destruct (Hm sid st tok Hs Ev) as [ev0 [A [_ Al]]]. rewrite H0 in A. inversion A. subst ev0.
      right. rewrite app_assoc. apply in_app_iff. right. unfold qs. rewrite Al. left. reflexivity.
  - split; [exact B|]. split; [exact HI|]. split; [exact HX|].
    apply (EL_exc xp (Some tok) xp None _ _ _ _ _ HL); [congruence|].
    intros sid st e ev' E _ Hs Ph Ev Hev. inversion E. subst e. rewrite H0 in Hev. inversion Hev. subst ev'. left. lia.
Qed.

Lemma Slack_done : forall X w tev d F ev0 err, Slack None None X tev d w -> nth_error (evs w) tev = Some ev0 ->
  e_dispatched ev0 = true -> e_gate ev0 = O -> e_dispatched (F ev0) = true -> e_gate (F ev0) = O ->
  e_name (F ev0) = e_name ev0 -> (e_alert ev0 = true -> e_alert (F ev0) = true) -> e_waiting (F ev0) = e_waiting ev0 - d ->
  Full None None X (event_done tev err (mod_evt tev F w)).
Proof.
  intros X w tev d F ev0 err S H0 D G D' G' Nm Al Wt.
  apply (event_done_full None X _ tev err (F ev0)); [|simpl; apply nth_error_upd_same; exact H0|auto].
  apply (Slack_evt None (Some tev) X tev d 0 w F ev0 (Slack_widen _ _ _ _ _ _ S) H0); auto.
Qed.

Definition unheld (p : nat) (w : world) : Prop :=
  (forall u, In u (tasks w) -> t_ref u <> RGen p) /\
  (forall s st, nth_error (wsts w) s = Some st -> owning st = true -> s_parent st <> p).

Lemma Slack_resumed : forall X tev d w p f gn ev0 nms ls how, Slack None None X tev d w ->
  nth_error (gens w) p = Some gn -> g_tok gn = tev -> nth_error (evs w) tev = Some ev0 -> e_gate ev0 = O ->
  g_tok (f gn) = g_tok gn -> (g_rest (f gn) = None -> g_atcall (f gn) = false) ->
  Forall (fun x => entry_of (g_tok gn) x \/ res_entry how w gn x) ls ->
  (forall e ev, how = RSend e -> nth_error (evs w) e = Some ev -> (1 <= e_gate ev)%nat) ->
  unheld p w \/ g_atcall (f gn) = false /\
                (forall s st, nth_error (wsts w) s = Some st -> owning st = true -> s_parent st <> p) ->
  Slack None None X tev d (mod_gen p f (grow nms ls w)).
Proof.
  intros X tev d w p f gn ev0 nms ls how [B [HI [HX HL]]] Hg Gt H0 G F1 F3 L Sent Hold.
  pose proof HL as [_ [_ [_ [_ [_ [_ [Lz _]]]]]]].
  destruct (EX_grow X tev d _ _ _ _ _ _ nms ls ev0 HX Lz (or_intror (conj H0 G))) as [OA [CA GA]].
  { eapply Forall_impl; [|exact L]. intros x [Hx|[e [ev [Hh [Hev ->]]]]]; [left; rewrite <- Gt; exact Hx|right].
    exists (g_hi gn), (g_cur gn), e, ev. rewrite Gt. exact (conj eq_refl (conj Hev (Sent e ev Hh Hev))). }
  apply Slack_parts; wproj; [exact B|exact HI| |exact CA|exact GA|apply EL_ext; exact HL].
  apply (Own_gen _ _ _ _ p f gn OA Hg F1 F3).
  - intros u Hu Ru. destruct Hold as [[NT _]|[Fa _]]; [destruct (NT u Hu Ru)|exact Fa].
  - intros s st Hs Ow E. destruct Hold as [[_ NO]|[_ NO]]; destruct (NO s st Hs Ow E).
Qed.

Lemma task_ext : forall a b : task, t_ev a = t_ev b -> t_ref a = t_ref b -> t_parent a = t_parent b -> a = b.
Proof. intros [e r p] [e2 r2 p2]. simpl. intros. subst. reflexivity. Qed.

Lemma Slack_unreg_gen : forall xp xo X w t tev g, Full xp xo X w -> In t (tasks w) -> t = mk_task tev (RGen g) None ->
  Slack xp xo X tev 1 (unreg_task t w) /\ unheld g (unreg_task t w).
Proof.
  intros xp xo X w t tev g HF Hin Teq. destruct (Slack_zero _ _ _ O tev _ HF) as [B [HI [[HO [HC HG]] HL]]].
  pose proof HO as [_ [Htask _]]. pose proof HI as [_ [_ [_ [ND Tok]]]].
  assert (R : t_ref t = RGen g) by (rewrite Teq; reflexivity).
  assert (Sub : forall u, In u (tasks (unreg_task t w)) -> In u (tasks w) /\ u <> t) by (intros u Hu; apply In_unreg in Hu; exact Hu).
  split; [apply Slack_parts; wproj; [exact B|exact (IC_unreg_gen _ t g HI Hin R)| | |exact HG|]|split].
  - apply (Own_tasks _ _ _ _ _ HO). intros u g0 Hu _. left. apply (Sub u Hu).
  - apply (F_cnt_same _ _ _ _ _ _ _ _ HC). intro tok. pose proof (cnt_gen_remove tok _ t ND Hin) as C.
    rewrite Teq, gen_for_gen, <- Teq in C. destruct (tev =? tok)%nat; simpl in C; lia.
  - apply (EL_tasks _ _ _ _ _ _ _ _ HL). intros s st Hs Ph Hi. apply In_unreg. split; [assumption|]. intros <-. discriminate R.
  - (* a task is determined by its generator *)
    intros u Hu Ru. destruct (Sub u Hu) as [Hu' Ne]. apply Ne. destruct (Htask u g Hu' Ru) as [_ [gn [Hg [Gu _]]]].
    destruct (Htask t g Hin R) as [_ [gn' [Hg' [Gt _]]]]. rewrite Hg in Hg'. inversion Hg'. subst gn'.
    pose proof (Tok u Hu') as Uok. pose proof (Tok t Hin) as Tk. unfold task_ok in Uok, Tk. rewrite Ru in Uok. rewrite R in Tk.
    apply task_ext; congruence.
  - intros s st Hs Ow E. apply (Own_no_task _ _ _ _ s st t HO Hs Ow Hin). congruence.
Qed.

Lemma Slack_reg_gen : forall xp xo X w tev p gn, Slack xp xo X tev 1 w -> unheld p w ->
  nth_error (gens w) p = Some gn -> g_tok gn = tev -> g_atcall gn = false -> (tev < length (evs w))%nat ->
  Full xp xo X (reg_task (mk_task tev (RGen p) None) w).
Proof.
  intros xp xo X w tev p gn [B [HI [[HO [HC HG]] HL]]] [NT _] Hg Gt Ga Lt. set (tn := mk_task tev (RGen p) None).
  pose proof (IC_reg_gen w tev p HI) as ICf. fold tn in ICf.
  rewrite reg_task_new in ICf |- * by (intro Hi; exact (NT tn Hi eq_refl)).
  apply (Slack_zero _ _ _ tev). apply Slack_parts; wproj; [exact B|exact ICf| | |exact HG|].
  - apply (Own_tasks _ _ _ _ _ HO). intros u g Hu Rg. apply in_app_iff in Hu. destruct Hu as [Hu|[<-|[]]]; [left; assumption|right].
    split; [exact Lt|]. inversion Rg. subst g. exists gn. auto.
  - apply (F_cnt_same _ _ _ _ _ _ _ _ HC). intro tok. unfold tn. rewrite cnt_gen_snoc, gen_for_gen.
    destruct (tev =? tok)%nat; cbn [b2n]; lia.
  - apply (EL_tasks _ _ _ _ _ _ _ _ HL). intros. apply in_app_iff. auto.
Qed.

Lemma Slack_install : forall xp xo X w tev p gn ev0 nm obj tmo cv, Slack xp xo X tev 2 w -> unheld p w ->
  nth_error (gens w) p = Some gn -> g_tok gn = tev -> g_atcall gn = true ->
  nth_error (evs w) tev = Some ev0 -> e_dispatched ev0 = true ->
  (forall t, obj = Some t \/ cv = Some t -> In (QUser t) (queue w) /\ exists ev, nth_error (evs w) t = Some ev /\ e_name ev = nm) ->
  Full xp xo X (install nm obj tmo cv tev p w).
Proof.
  intros xp xo X w tev p gn ev0 nm obj tmo cv [B [HI [[HO [HC HG]] HL]]] [_ NO] Hg Gt Ga H0 D Wt.
  pose proof (IC_install nm obj tmo cv tev p _ HI) as ICf. rewrite install_eq in ICf |- *.
  apply (Slack_zero _ _ _ tev). apply Slack_parts; wproj; [exact B|exact ICf| | | |].
  - apply Own_wst_snoc; [exact HO|]. intros _. split; [exists gn; auto|exact NO].
  - apply (F_cnt_same _ _ _ _ _ _ _ _ HC). intro tok. rewrite cnt_own_snoc, owns_new. destruct (tev =? tok)%nat; cbn [b2n]; lia.
  - apply Gate_wst_snoc; [exact HG|discriminate].
  - apply (EL_wst_new xp xo X _ _ _ _ _ HL); simpl; try reflexivity.
    + intros e Ob. destruct (Wt e (or_introl Ob)) as [Q1 Q2]. split; [apply in_app_iff; right; exact Q1|exact Q2].
    + exists ev0. auto.
Qed.

(* processTask takes the wait generator or the pending TimeoutError t of wait sid (R: the wait dies and owns no more;
   hs': the handlers left): the handler it held is in hand with both its counts *)
Lemma Slack_consume : forall X w hs' sid st R t, Full None None X w -> In t (tasks w) ->
  (t_ref t = RWait sid \/ t_ref t = RTimeout sid) -> nth_error (wsts w) sid = Some st -> owning st = true ->
  keeps_all R -> owning (R st) = false -> s_ph (R st) = Dead ->
  IC (mod_wst sid R (unreg_task t (set_ths w hs'))) ->
  Slack None None X (s_tevent st) 2 (mod_wst sid R (unreg_task t (set_ths w hs'))) /\
  unheld (s_parent st) (mod_wst sid R (unreg_task t (set_ths w hs'))).
Proof.
  intros X w hs' sid st R t HF Hin Rt Hs Ow K Of Pd IC0.
  destruct (Slack_zero _ _ _ O (s_tevent st) _ HF) as [B [HI [[HO [HC HG]] HL]]].
  pose proof HO as [_ [_ Hown]]. pose proof HI as [_ [_ [_ [ND _]]]].
  destruct (Hown sid st Hs Ow) as [_ Uq]. destruct (K st) as [K1 [K2 _]].
  assert (Ng : is_gen (t_ref t) = false) by (destruct Rt as [-> | ->]; reflexivity).
  unfold unheld. wproj. split; [apply Slack_parts; wproj; [exact B|exact IC0| | | |]|split].
  - apply (Own_tasks _ _ _ (tasks w)); [|intros u g Hu _; left; apply In_unreg in Hu; tauto].
    apply (Own_wst _ _ _ _ sid R st HO Hs K1 K2). congruence.
  - apply (F_cnt_same _ _ _ _ _ _ _ _ HC). intro tok. pose proof (cnt_gen_remove tok _ t ND Hin) as C1. rewrite (gen_for_other tok t Ng) in C1.
    pose proof (cnt_own_upd tok _ sid R st Hs) as C2. unfold owns in C2. rewrite K1, Of, Ow, andb_false_r, andb_true_r in C2.
    destruct (s_tevent st =? tok)%nat; simpl in C1, C2; lia.
  - apply (Gate_wst _ _ _ _ _ _ sid R st HG Hs). rewrite Pd. discriminate.
  - apply (EL_tasks _ _ _ _ _ (tasks w)).
    + apply (EL_wst None None X _ _ _ _ sid R st HL Hs K); rewrite Pd; discriminate.
    + intros s st' Hs' Ph Hi. apply In_unreg. split; [assumption|]. intros <-.
      destruct (nth_error_upd_cases _ _ _ _ _ _ Hs Hs') as [[-> ->]|[Ne _]]; [rewrite Pd in Ph; discriminate|].
      destruct Rt as [Rt|Rt]; simpl in Rt; congruence.
  - intros u Hu. apply In_unreg in Hu. apply (Own_no_task _ _ _ _ sid st u HO Hs Ow). tauto.
  - intros s' st' H1 O1. destruct (nth_error_upd_cases _ _ _ _ _ _ Hs H1) as [[-> ->]|[Ne H1']]; [congruence|]. exact (Uq s' st' Ne H1' O1).
Qed.

(* processTask sends the result, or throws the TimeoutError, into the handler suspended in wait sid, and deals with
   what it does next *)
Lemma cont_full : forall X w hs' sid st R t how,
  Full None None X w -> In t (tasks w) -> (t_ref t = RWait sid \/ t_ref t = RTimeout sid) ->
  nth_error (wsts w) sid = Some st -> owning st = true ->
  keeps_all R -> owning (R st) = false -> s_ph (R st) = Dead ->
  IC (mod_wst sid R (unreg_task t (set_ths w hs'))) ->
  (how = RThrow \/ exists e ev, how = RSend e /\ nth_error (evs w) e = Some ev /\ (1 <= e_gate ev)%nat) ->
  Full None None X (continue_parent (s_tevent st) (s_parent st) how (mod_wst sid R (unreg_task t (set_ths w hs')))).
Proof.
  intros X w hs' sid st R t how HF Hin Rt Hs Ow K Of Pd IC0 Hhow.
  pose proof HF as [_ [_ [HX [_ [_ [_ [_ [_ [_ [Lz _]]]]]]]]]]. pose proof HX as [[Hgi [_ Hown]] _].
  destruct (Hown sid st Hs Ow) as [[gn [A1 [A2 A3]]] _]. destruct (Lz sid st Hs) as [ev0 [H0 _]].
  destruct (active_gate _ _ _ _ _ _ _ _ (s_tevent st) ev0 HX H0) as [D G].
  { assert (Ot : owns (s_tevent st) st = true) by (unfold owns; rewrite Nat.eqb_refl, Ow; reflexivity).
    pose proof (filter_len_pos (owns (s_tevent st)) _ st (nth_error_In _ _ Hs) Ot). unfold cnt_own. lia. }
  destruct (Slack_consume X w hs' sid st R t HF Hin Rt Hs Ow K Of Pd IC0) as [S0 U0].
  remember (s_tevent st) as tev eqn:Te. remember (s_parent st) as p eqn:Tp.
  set (w0 := mod_wst sid R (unreg_task t (set_ths w hs'))) in *.
  unfold continue_parent. destruct (gen_resume p how w0) as [w1 r] eqn:GR.
  destruct (gen_resume_spec p how w0 w1 r gn GR A1) as [nms [ls [f [b [E1 [Pb [F1 [F2 [F3 [L Wt]]]]]]]]]].
  assert (b = false) as ->.
  { apply Pb.
    - unfold proto_ok. rewrite A3. destruct Hhow as [->|[e [ev [-> _]]]]; reflexivity.
    - intros e ->. destruct Hhow as [Hh|[e' [ev [Hh [Hev _]]]]]; [discriminate|]. inversion Hh. subst. exact (nth_error_lt _ _ _ Hev). }
  cbn [mark] in E1. specialize (F2 (Hgi p gn A1)). subst w1.
  assert (S1 : Slack None None X tev 2 (mod_gen p f (grow nms ls w0))).
  { apply (Slack_resumed X tev 2 w0 p f gn ev0 nms ls how S0 A1 A2 H0 G F1); [|exact L| |left; exact U0].
    - intro R0. rewrite F2. exact (F3 R0).
    - intros e ev -> Hev. destruct Hhow as [Hh|[e' [ev' [Hh [Hev' Ge]]]]]; [discriminate|]. inversion Hh. subst e'.
      change (nth_error (evs w) e = Some ev) in Hev. rewrite Hev' in Hev. inversion Hev. subst ev'. exact Ge. }
  assert (Hp : nth_error (gens (mod_gen p f (grow nms ls w0))) p = Some (f gn)) by exact (nth_error_upd_same f _ _ _ A1).
  assert (H0A : nth_error (evs (mod_gen p f (grow nms ls w0))) tev = Some ev0) by (apply nth_error_app_l; exact H0).
  (* p goes on as a task, holding one count *)
  assert (Cont : forall v, g_atcall (f gn) = false ->
            Full None None X (reg_task (mk_task tev (RGen p) None)
                                (mod_evt tev (fun e => add_oval v (add_wait (-1) e)) (mod_gen p f (grow nms ls w0))))).
  { intros v Fa. apply (Slack_reg_gen None None X _ tev p (f gn)); [|exact U0|exact Hp|congruence|exact Fa|].
    - apply (Slack_evt None None X tev 2 1 _ _ ev0 S1 H0A); destruct v; simpl; auto; lia.
    - simpl. rewrite length_upd_nth. exact (nth_error_lt _ _ _ H0A). }
  destruct r as [v|nm obj tmo cv| |].
  - exact (Cont v F2).
  - (* p suspends in another call/wait *)
    apply (Slack_install None None X _ tev p (f gn) ev0 _ _ _ _ S1 U0 Hp); [congruence|exact F2|exact H0A|exact D|].
    intros e He. destruct (Wt nm obj tmo cv e eq_refl He) as [Q1 Q2]. eauto.
  - exact (Cont None F2).
  - (* p raises while it is resumed: both of its counts are released *)
    apply (Slack_done X _ tev 2 (fun e => add_wait (-2) (add_err e)) ev0 true S1 H0A); simpl; auto.
Qed.

Lemma ptask_body_full : forall X t w, Full None None X w -> In t (tasks w) -> Full None None X (ptask_body t w).
Proof.
  intros X t w HF Hin. pose proof HF as [B [HI [HX HL]]].
  pose proof HX as [HO [HC HG]]. pose proof HO as [Hgi [Htask _]].
  pose proof HI as [I1 [I2 [I3 [I4 I5]]]]. pose proof (I5 t Hin) as Tok. unfold task_ok in Tok.
  unfold ptask_body. destruct (t_ref t) as [g|sid|sid] eqn:R.
  - (* a handler generator: it holds one count of its event and nobody else holds it *)
    destruct (Htask t g Hin R) as [Tr [gn [Hg [Gt Ga]]]]. remember (t_ev t) as tev eqn:Te.
    assert (Teq : t = mk_task tev (RGen g) None) by (apply task_ext; simpl; congruence).
    destruct (nth_error (evs w) tev) as [ev0|] eqn:H0; [|apply nth_error_None in H0; lia].
    destruct (active_gate _ _ _ _ _ _ _ _ tev ev0 HX H0) as [D G].
    { assert (Gf : gen_for tev t = true) by (rewrite Teq, gen_for_gen; apply Nat.eqb_refl).
      pose proof (filter_len_pos (gen_for tev) _ t Hin Gf). unfold cnt_gen. lia. }
    destruct (gen_resume g RNext w) as [w1 r] eqn:GR.
    destruct (gen_resume_spec g RNext w w1 r gn GR Hg) as [nms [ls [f [b [E1 [Pb [F1 [F2 [F3 [L Wt]]]]]]]]]].
    assert (b = false) as -> by (apply Pb; [exact Ga|discriminate]).
    cbn [mark] in E1. specialize (F2 (Hgi g gn Hg)). subst w1.
    assert (Fr : g_rest (f gn) = None -> g_atcall (f gn) = false) by (intro R0; rewrite F2; exact (F3 R0)).
    (* unless it yields a value its task goes: taken before it runs *)
    destruct (Slack_unreg_gen None None X w t tev g HF Hin Teq) as [S0 U0].
    assert (S1 : Slack None None X tev 1 (mod_gen g f (grow nms ls (unreg_task t w)))).
    { apply (Slack_resumed X tev 1 _ g f gn ev0 nms ls RNext S0 Hg Gt H0 G F1 Fr L); [discriminate|left; exact U0]. }
    assert (H0A : nth_error (evs w ++ map new_evt nms) tev = Some ev0) by (apply nth_error_app_l; exact H0).
    assert (Hp : nth_error (upd_nth g f (gens w)) g = Some (f gn)) by exact (nth_error_upd_same f _ _ _ Hg).
    destruct r as [v|nm obj tmo cv| |].
    + (* a value: it has run with its task in place *)
      assert (S2 : Full None None X (mod_gen g f (grow nms ls w))).
      { apply (Slack_zero _ _ _ tev), (Slack_resumed X tev 0 w g f gn ev0 nms ls RNext (Slack_zero _ _ _ O tev _ HF) Hg Gt H0 G F1 Fr L);
          [discriminate|right; split; [exact F2|]].
        intros s st Hs Ow E. apply (Own_no_task _ _ _ _ s st t HO Hs Ow Hin). congruence. }
      apply (Full_evt None None X tev _ (add_oval v) ev0 S2 H0A); destruct v; simpl; auto.
    + (* a call/wait: the wait holds the generator and a second count *)
      rewrite <- Teq.
      apply (Slack_install None None X (mod_evt tev (add_wait 1) (mod_gen g f (grow nms ls (unreg_task t w)))) tev g (f gn)
               (add_wait 1 ev0) nm obj tmo cv); [|exact U0|exact Hp|congruence|exact F2|exact (nth_error_upd_same _ _ _ _ H0A)|exact D|].
      * apply (Slack_evt None None X tev 1 2 _ _ ev0 S1 H0A); simpl; auto; lia.
      * intros e He. destruct (Wt nm obj tmo cv e eq_refl He) as [Q1 Q2]. split; [exact Q1|].
        change (nth_error (evs w ++ map new_evt nms) e = Some (new_evt nm)) in Q2. simpl. rewrite nth_error_upd_nth, Q2.
        destruct (tev =? e)%nat; simpl; eauto.
    + (* it ends or raises: its count goes, the event may pass its gate *)
      rewrite Tok. apply (Slack_done X (mod_gen g f (grow nms ls (unreg_task t w))) tev 1 (add_wait (-1)) ev0 false S1 H0A); simpl; auto.
    + rewrite Tok. apply (Slack_done X _ tev 1 (fun e => add_wait (-1) (add_err e)) ev0 true S1 H0A); simpl; auto.
  - (* the wait generator registered by _on_done: the result of the event the wait has seen is sent to the handler *)
    destruct Tok as [st [Hs [Ph Tq]]]. rewrite Hs.
    pose proof (I3 sid st Hs) as [O1 O2 O3 O4 O5 O6 O7].
    assert (Hd : In (THDone sid) (ths w)) by (apply (O1 (THDone sid) eq_refl); simpl; rewrite Ph; discriminate).
    rewrite (proj2 (has_th_In _ _) Hd).
    pose proof HG as [_ [_ [_ [_ [_ [Hfl _]]]]]]. destruct (Hfl sid st Hs Ph) as [e [ev [Ev [He [Ge _]]]]]. rewrite Ev.
    assert (Ow : owning st = true) by (unfold owning; rewrite Ph in O6; simpl in O6; apply Nat.eqb_eq; lia).
    replace (t_parent t) with (Some (s_parent st)) by (rewrite Tq; reflexivity).
    replace (t_ev t) with (s_tevent st) by (rewrite Tq; reflexivity).
    apply (cont_full X w _ sid st wst_resumed t (RSend e) HF Hin (or_introl R) Hs Ow keeps_all_resumed); [reflexivity|reflexivity| |right; exists e, ev; auto].
    exact (IC_resumed w t sid st HI Hin Hs Ph Tq).
  - (* the pending TimeoutError is thrown into the handler *)
    destruct Tok as [st [Hs Tq]]. destruct (IC_thrown w t sid st HI Hin Hs Tq) as [IC0 [R0 Pd]].
    assert (Ow : owning st = true) by (unfold owning; rewrite R0; reflexivity).
    replace (t_parent t) with (Some (s_parent st)) by (rewrite Tq; reflexivity).
    replace (t_ev t) with (s_tevent st) by (rewrite Tq; reflexivity).
    change (unreg_task t w) with (unreg_task t (set_ths w (ths w))) in *.
    apply (cont_full X w _ sid st wst_thrown t RThrow HF Hin (or_intror R) Hs Ow keeps_all_thrown); auto.
Qed.

Lemma quiet_tasks : forall f, quiet f -> forall w, tasks (f w) = tasks w.
Proof. intros f Q w. destruct (Q w) as [T _]. unfold triple in T. inversion T. reflexivity. Qed.
Lemma quiet_wsts : forall f, quiet f -> forall w, wsts (f w) = wsts w.
Proof. intros f Q w. destruct (Q w) as [T _]. unfold triple in T. inversion T. reflexivity. Qed.

Lemma continue_parent_tasks : forall tev p how w u, In u (tasks w) -> In u (tasks (continue_parent tev p how w)).
Proof.
  intros tev p how w u H. unfold continue_parent.
  pose proof (quiet_tasks _ (gen_resume_quiet p how) w) as T. cbv beta in T.
  destruct (gen_resume p how w) as [w1 r]. simpl in T. rewrite <- T in H.
  destruct r; try (apply In_reg_task; exact H); [rewrite install_eq|rewrite (quiet_tasks _ (event_done_quiet _ _))]; exact H.
Qed.

(* processing one task removes no other task from the set: tick() iterates over a copy.  The task of a generator has no
   parent task: a generator that starts to wait unregisters the task (event, generator, no parent), which has to be t *)
Lemma ptask_keeps : forall t u w, In u (tasks w) -> u <> t ->
  (forall g, t_ref t = RGen g -> t_parent t = None) -> In u (tasks (ptask t w)).
Proof.
  intros t u w H Hne Hp. unfold ptask. destruct (bad w); [assumption|]. unfold ptask_body.
  assert (U : forall w', tasks w' = tasks w -> In u (tasks (unreg_task t w'))) by (intros w' E; simpl; rewrite E; apply In_unreg; auto).
  destruct (t_ref t) as [g|sid|sid] eqn:R.
  - pose proof (quiet_tasks _ (gen_resume_quiet g RNext) w) as T. cbv beta in T.
    destruct (gen_resume g RNext w) as [w1 r]. simpl in T.
    assert (Teq : t = mk_task (t_ev t) (RGen g) None) by (apply task_ext; [reflexivity|exact R|exact (Hp g eq_refl)]). rewrite <- Teq.
    destruct r.
    + simpl. rewrite T. exact H.
    + rewrite install_eq. exact (U _ T).
    + destruct (t_parent t); [apply In_reg_task|rewrite (quiet_tasks _ (event_done_quiet _ _))]; exact (U _ T).
    + rewrite (quiet_tasks _ (event_done_quiet _ _)). exact (U _ T).
  - destruct (nth_error (wsts w) sid) as [st|]; [|exact H].
    destruct (has_th (THDone sid) w); [|exact (U _ eq_refl)].
    destruct (match s_event st with Some e => Some e | None => s_callval st end) as [e|]; [|exact H].
    destruct (t_parent t); [|exact H]. apply continue_parent_tasks. exact (U _ eq_refl).
  - destruct (t_parent t); [apply continue_parent_tasks|]; exact (U _ eq_refl).
Qed.

Lemma fold_ptask_full : forall l X w, Full None None X w -> NoDup l -> (forall u, In u l -> In u (tasks w)) ->
  Full None None X (fold_left (fun w t => ptask t w) l w).
Proof.
  induction l as [|t r IH]; intros X w HF ND Hin; simpl; [assumption|].
  inversion ND as [|? ? Hnt NDr]; subst. assert (Ht : In t (tasks w)) by (apply Hin; left; reflexivity).
  apply IH; [|assumption|].
  - unfold ptask. rewrite (proj1 HF). apply ptask_body_full; assumption.
  - intros u Hu. apply ptask_keeps; [apply Hin; right; assumption|intro; subst; contradiction|].
    intros g R. destruct HF as [_ [[_ [_ [_ [_ E]]]] _]]. specialize (E t Ht). unfold task_ok in E. rewrite R in E. exact E.
Qed.

Lemma pick_spec : forall w k l t r, pick w k l = Some (t, r) ->
  In t l /\ (forall u, In u r -> In u l) /\ (NoDup l -> NoDup r /\ ~ In t r).
Proof.
  intros w k l. induction l as [|x l' IH]; intros t r H; simpl in H; [discriminate|].
  destruct (key_eqb (tkey w x) k).
  - inversion H; subst. split; [left; reflexivity|]. split; [intros; right; assumption|].
    intro ND. inversion ND; subst. auto.
  - destruct (pick w k l') as [[u r']|] eqn:P; [|discriminate]. inversion H; subst.
    destruct (IH t r' eq_refl) as [A [B C]]. split; [right; assumption|]. split.
    + intros u [Hu|Hu]; [left; assumption|right; apply B; assumption].
    + intro ND. inversion ND as [|? ? Nx NDl]; subst. destruct (C NDl) as [C1 C2]. split.
      * constructor; [intro X; apply Nx; apply B; assumption|assumption].
      * intros [X|X]; [subst; contradiction|contradiction].
Qed.

Lemma order_by_spec : forall w s l, NoDup l -> NoDup (order_by w s l) /\ (forall u, In u (order_by w s l) -> In u l).
Proof.
  intros w s. induction s as [|k s' IH]; intros l ND; simpl; [auto|].
  destruct (pick w k l) as [[t r]|] eqn:P; [|apply IH; assumption].
  destruct (pick_spec _ _ _ _ _ P) as [A [B C]]. destruct (C ND) as [C1 C2].
  destruct (IH r C1) as [I1 I2]. split.
  - constructor; [intro X; apply C2; apply I2; assumption|assumption].
  - intros u [Hu|Hu]; [subst; assumption|apply B; apply I2; assumption].
Qed.

Definition active (tok nm : nat) (w : world) : Prop :=
  exists ev, nth_error (evs w) tok = Some ev /\ e_dispatched ev = true /\ e_gate ev = O /\ e_name ev = nm.

Lemma run_handlers_full : forall hs hi xp X tok nm w err,
  Full xp (Some tok) X w -> active tok nm w ->
  let w' := fst (run_handlers tok hi hs (w, err)) in
  Full xp (Some tok) X w' /\ active tok nm w' /\ ths w' = ths w /\ wsts w' = wsts w.
Proof.
  induction hs as [|h r IH]; intros hi xp X tok nm w err HF Act; simpl; [auto|].
  destruct Act as [ev0 [H0 [D [G Nm]]]].
  assert (Plain : forall F err', e_waiting (F ev0) = e_waiting ev0 -> e_dispatched (F ev0) = true -> e_gate (F ev0) = O ->
            e_name (F ev0) = e_name ev0 -> (e_alert ev0 = true -> e_alert (F ev0) = true) ->
            let w' := fst (run_handlers tok (S hi) r (mod_evt tok F (add_log (LPlain tok hi) w), err')) in
            Full xp (Some tok) X w' /\ active tok nm w' /\ ths w' = ths w /\ wsts w' = wsts w).
  { intros F err' V1 V2 V3 V4 V5. apply (IH (S hi) xp X tok nm (mod_evt tok F (add_log (LPlain tok hi) w)) err').
    - apply (Full_evt xp (Some tok) X tok _ F ev0); auto. apply Slack_log; [exact HF| |discriminate].
      intros t E. inversion E. subst t. eauto.
    - exists (F ev0). simpl. rewrite (nth_error_upd_same F _ _ _ H0). repeat split; congruence. }
  destruct h as [v [|]|c sts].
  - apply Plain; auto.
  - apply Plain; destruct (option_map (tokval tok) v); simpl; auto.
  - (* a generator handler: the new generator is in hand with the one count added, and becomes a task *)
    set (gnew := {| g_tok := tok; g_hi := hi; g_catch := c; g_k := O; g_cur := O; g_atcall := false; g_rest := Some sts |}).
    set (tn := mk_task tok (RGen (length (gens w))) None).
    set (w1 := mod_evt tok (add_wait 1) (set_gens w (gens w ++ [gnew]))).
    destruct (Slack_zero _ _ _ O tok _ HF) as [B [HI [[HO [HC HG]] HL]]]. pose proof HO as [_ [Htask Hown]].
    assert (U : unheld (length (gens w)) w1).
    { split.
      - intros u Hu Ru. destruct (Htask u _ Hu Ru) as [_ [gn [Hg _]]]. apply nth_error_lt in Hg. lia.
      - intros s st Hs Ow E. destruct (Hown s st Hs Ow) as [[gn [A1 _]] _]. apply nth_error_lt in A1. lia. }
    assert (F1 : Full xp (Some tok) X (reg_task tn w1)).
    { apply (Slack_reg_gen xp (Some tok) X w1 tok (length (gens w)) gnew); [|exact U| |reflexivity|reflexivity|].
      - apply (Slack_evt xp (Some tok) X tok 0 1 _ (add_wait 1) ev0); simpl; auto.
        apply Slack_parts; wproj; try assumption. apply Own_gen_snoc; [exact HO|discriminate].
      - simpl. rewrite nth_error_app2, Nat.sub_diag by lia. reflexivity.
      - simpl. rewrite length_upd_nth. exact (nth_error_lt _ _ _ H0). }
    rewrite reg_task_new in F1 |- * by (intro Hi; exact (proj1 U tn Hi eq_refl)).
    apply (IH (S hi) xp X tok nm _ err F1).
    exists (add_wait 1 ev0). simpl. rewrite (nth_error_upd_same (add_wait 1) _ _ _ H0). auto.
Qed.

Lemma on_event_eq : forall tok w sid st, bad w = false -> nth_error (wsts w) sid = Some st -> In (THEv sid) (ths w) ->
  on_event tok w sid = if negb (s_run st) && obj_ok (s_obj st) tok
                       then mod_evt tok set_alert (mod_wst sid (wst_seen tok) (del_th (THEv sid) w)) else w.
Proof. intros tok w sid st B Hs Hin. unfold on_event, rem_th_k. rewrite B, Hs, (proj2 (has_th_In _ _) Hin). reflexivity. Qed.

Lemma on_event_full : forall xp X tok nm w sid, Full xp (Some tok) X w -> active tok nm w -> In (THEv sid) (ths w) ->
  (forall st, nth_error (wsts w) sid = Some st -> s_name st = nm) ->
  (forall s st, nth_error (wsts w) s = Some st -> s_tevent st <> tok) ->
  let w' := on_event tok w sid in
  Full xp (Some tok) X w' /\ active tok nm w' /\
  (forall s, s <> sid -> In (THEv s) (ths w) -> In (THEv s) (ths w')) /\
  (forall s st, nth_error (wsts w') s = Some st -> exists st0, nth_error (wsts w) s = Some st0 /\
     s_tevent st = s_tevent st0 /\ s_name st = s_name st0 /\ (s <> sid -> st = st0)) /\
  (forall st, nth_error (wsts w') sid = Some st -> s_ph st = Armed -> s_obj st <> Some tok).
Proof.
  intros xp X tok nm w sid HF Act Hin Hnm NoT. pose proof HF as [B [HI [HX HL]]]. destruct Act as [ev0 [H0 [D [G Nm]]]].
  pose proof HI as [_ [I2 [I3 _]]]. specialize (I2 _ Hin). simpl in I2.
  destruct (nth_error (wsts w) sid) as [st|] eqn:Hs; [|apply nth_error_None in Hs; lia].
  cbv zeta. rewrite (on_event_eq tok w sid st B Hs Hin).
  pose proof (I3 sid st Hs) as [O1 O2 _ _ _ _ _].
  assert (Pa : s_ph st = Armed) by (apply (O1 (THEv sid) eq_refl); assumption). destruct (O2 Pa) as [Rn _].
  destruct (negb (s_run st) && obj_ok (s_obj st) tok) eqn:Gd.
  - split; [|split; [|split; [|split]]].
    + destruct (Full_evt xp (Some tok) X tok w set_alert ev0 HF H0) as [_ [_ [[HO [HC HG]] HL']]]; auto.
      apply Slack_parts; wproj; [exact B|exact (IC_seen _ _ _ sid st tok HI Hs Hin)| | | |].
      * apply (Own_wst _ _ _ _ sid (wst_seen tok) st HO Hs); auto.
      * apply (F_cnt_same _ _ _ _ _ _ _ _ HC). intro t. pose proof (cnt_own_upd t _ sid (wst_seen tok) st Hs) as U.
        change (owns t (wst_seen tok st)) with (owns t st) in U. wproj. lia.
      * apply (Gate_wst _ _ _ _ _ _ sid (wst_seen tok) st HG Hs). discriminate.
      * apply (EL_wst_seen xp X _ _ _ _ sid st tok (set_alert ev0) HL' Hs); auto.
        -- apply nth_error_upd_same. assumption.
        -- simpl. rewrite Nm. symmetry. apply Hnm. reflexivity.
    + exists (set_alert ev0). simpl. rewrite (nth_error_upd_same set_alert _ _ _ H0). auto.
    + intros s Ne Hs'. wproj. apply In_del. split; [assumption|congruence].
    + intros s st' Hs'. simpl in Hs'. destruct (nth_error_upd_cases _ _ _ _ _ _ Hs Hs') as [[-> ->]|[Ne A]]; [exists st|exists st'];
        repeat split; auto. intro; contradiction.
    + intros st' Hs' Ph. simpl in Hs'. rewrite (nth_error_upd_same _ _ _ _ Hs) in Hs'. inversion Hs'. subst st'. discriminate Ph.
  - split; [exact HF|]. split; [exists ev0; auto|]. split; [auto|]. split; [intros s st' Hs'; exists st'; auto|].
    intros st' Hs' Ph Ob. rewrite Hs in Hs'. inversion Hs'. subst st'. rewrite Rn, Ob in Gd. simpl in Gd. rewrite Nat.eqb_refl in Gd. discriminate.
Qed.

Lemma fold_on_event_full : forall xp X tok nm sids w, Full xp (Some tok) X w -> active tok nm w -> NoDup sids ->
  (forall s, In s sids -> In (THEv s) (ths w)) ->
  (forall s st, In s sids -> nth_error (wsts w) s = Some st -> s_name st = nm) ->
  (forall s st, nth_error (wsts w) s = Some st -> s_tevent st <> tok) ->
  (forall s st, nth_error (wsts w) s = Some st -> s_ph st = Armed -> s_obj st = Some tok -> In s sids) ->
  let w' := fold_left (on_event tok) sids w in
  Full xp (Some tok) X w' /\ active tok nm w' /\
  (forall s st, nth_error (wsts w') s = Some st -> s_ph st = Armed -> s_obj st <> Some tok).
Proof.
  intros xp X tok nm sids. induction sids as [|s r IH]; intros w HF Act ND Hin Hnm NoT Harm; simpl.
  - split; [assumption|]. split; [assumption|]. intros s st Hs Ph Ob. exact (Harm s st Hs Ph Ob).
  - inversion ND as [|? ? Hns NDr]; subst.
    destruct (on_event_full xp X tok nm w s HF Act (Hin s (or_introl eq_refl))) as [F1 [A1 [Fr [Sk Fs]]]].
    { intros st Hs. apply (Hnm s st); [left; reflexivity|assumption]. }
    { exact NoT. }
    apply IH; try assumption.
    + intros s' Hs'. apply Fr; [intro; subst; contradiction|]. apply Hin. right. assumption.
    + intros s' st Hs' Hst. destruct (Sk s' st Hst) as [st0 [A [_ [C _]]]]. rewrite C. apply (Hnm s' st0); [right; assumption|assumption].
    + intros s' st' Hs'. destruct (Sk s' st' Hs') as [st0 [A [Bt _]]]. rewrite Bt. apply (NoT s' st0 A).
    + intros s' st Hs' Ph Ob. destruct (Nat.eq_dec s' s) as [->|E].
      * destruct (Fs st Hs' Ph Ob).
      * destruct (Sk s' st Hs') as [st0 [A [_ [_ Eq]]]]. rewrite (Eq E) in *.
        destruct (Harm s' st0 A Ph Ob) as [E'|E']; [congruence|assumption].
Qed.

(* handlers are looked up before the first one runs: the snapshots are duplicate-free lists of installed handlers *)
Lemma sids_NoDup : forall (sel : th -> list nat) (k : nat -> th) l,
  (forall h s, In s (sel h) -> sel h = [s] /\ h = k s) -> NoDup l -> NoDup (flat_map sel l).
Proof.
  intros sel k l One ND. induction ND as [|h r Hn ND IH]; simpl; [constructor|].
  destruct (sel h) as [|s r'] eqn:E; [exact IH|].
  destruct (One h s) as [E1 ->]; [rewrite E; left; reflexivity|]. rewrite E in E1. inversion E1. subst r'. simpl.
  constructor; [|exact IH]. intro Hin. apply in_flat_map in Hin. destruct Hin as [h' [Hh' Hs]].
  destruct (One h' s Hs) as [_ ->]. contradiction.
Qed.

Lemma ev_sids_In : forall w nm s, In s (ev_sids w nm) <-> In (THEv s) (ths w) /\ name_of_sid w s = Some nm.
Proof.
  intros w nm s. unfold ev_sids. rewrite in_flat_map. split.
  - intros [h [Hh Hs]]. destruct h as [x|x|x]; try destruct Hs. destruct (onat_eqb (name_of_sid w x) (Some nm)) eqn:E; [|destruct Hs].
    destruct Hs as [<-|[]]. apply onat_eqb_eq in E. auto.
  - intros [Hin Hn]. exists (THEv s). split; [assumption|]. rewrite (proj2 (onat_eqb_eq _ _) Hn). left. reflexivity.
Qed.

Lemma done_sids_In : forall w nm s, In s (done_sids w nm) <-> In (THDone s) (ths w) /\ name_of_sid w s = Some nm.
Proof.
  intros w nm s. unfold done_sids. rewrite in_flat_map. split.
  - intros [h [Hh Hs]]. destruct h as [x|x|x]; try destruct Hs. destruct (onat_eqb (name_of_sid w x) (Some nm)) eqn:E; [|destruct Hs].
    destruct Hs as [<-|[]]. apply onat_eqb_eq in E. auto.
  - intros [Hin Hn]. exists (THDone s). split; [assumption|]. rewrite (proj2 (onat_eqb_eq _ _) Hn). left. reflexivity.
Qed.

Lemma tick_sids_In : forall w s, In s (tick_sids w) <-> In (THTick s) (ths w).
Proof.
  intros w s. unfold tick_sids. rewrite in_flat_map. split.
  - intros [h [Hh Hs]]. destruct h as [x|x|x]; try destruct Hs; [subst; assumption|contradiction].
  - intro Hin. exists (THTick s). split; [assumption|left; reflexivity].
Qed.

Lemma ev_sids_complete : forall w nm s, In (THEv s) (ths w) -> name_of_sid w s = Some nm -> In s (ev_sids w nm).
Proof. intros. apply ev_sids_In. auto. Qed.
Lemma done_sids_complete : forall w nm s, In (THDone s) (ths w) -> name_of_sid w s = Some nm -> In s (done_sids w nm).
Proof. intros. apply done_sids_In. auto. Qed.

Lemma ev_sids_NoDup : forall w nm, NoDup (ths w) -> NoDup (ev_sids w nm).
Proof.
  intros w nm. apply (sids_NoDup _ THEv). intros [x|x|x] s Hs; simpl in Hs; try destruct Hs.
  destruct (onat_eqb _ _); [|destruct Hs]. destruct Hs as [<-|[]]. auto.
Qed.
Lemma done_sids_NoDup : forall w nm, NoDup (ths w) -> NoDup (done_sids w nm).
Proof.
  intros w nm. apply (sids_NoDup _ THDone). intros [x|x|x] s Hs; simpl in Hs; try destruct Hs.
  destruct (onat_eqb _ _); [|destruct Hs]. destruct Hs as [<-|[]]. auto.
Qed.
Lemma tick_sids_NoDup : forall w, NoDup (ths w) -> NoDup (tick_sids w).
Proof. intros w. apply (sids_NoDup _ THTick). intros [x|x|x] s Hs; simpl in Hs; try destruct Hs; [subst; auto|contradiction]. Qed.

Lemma EX_EL_reg_nongen : forall xp xo X tev d w t, EX X tev d w -> EL xp xo X w -> is_gen (t_ref t) = false ->
  EXc X tev d (evs w) (gens w) (wsts w) (tasks (reg_task t w)) (queue w) (wlog w) /\
  ELc xp xo X (evs w) (wsts w) (tasks (reg_task t w)) (queue w).
Proof.
  intros xp xo X tev d w t [HO [HC HG]] HL Ng. unfold reg_task. destruct (existsb (task_eqb t) (tasks w)); [split; [split; [|split]|]; assumption|].
  wproj. split; [split; [|split; [|exact HG]]|].
  - apply (Own_tasks _ _ _ (tasks w) _ HO). intros u g Hu Rt. apply in_app_iff in Hu. destruct Hu as [Hu|[<-|[]]]; [left; assumption|].
    rewrite Rt in Ng. discriminate.
  - apply (F_cnt_same _ _ _ _ _ _ _ _ HC). intro tok. rewrite cnt_gen_snoc, (gen_for_other tok t Ng). cbn [b2n]. lia.
  - apply (EL_tasks _ _ _ _ _ (tasks w) _ _ HL). intros. apply in_app_iff. auto.
Qed.

Lemma EX_EL_wst : forall xp xo X tev d es gs ss ts q lg sid R st, EXc X tev d es gs ss ts q lg -> ELc xp xo X es ss ts q ->
  nth_error ss sid = Some st -> keeps_all R -> owning (R st) = owning st ->
  (s_ph (R st) = Flagged -> In (mk_task (s_tevent st) (RWait sid) (Some (s_parent st))) ts /\
     exists e ev, s_event st = Some e /\ nth_error es e = Some ev /\ (1 <= e_gate ev)%nat /\ ~ In (QDone e) (X ++ q)) ->
  (s_ph (R st) = Armed -> s_ph st = Armed) -> (s_ph (R st) = Seen -> s_ph st = Seen) ->
  EXc X tev d es gs (upd_nth sid R ss) ts q lg /\ ELc xp xo X es (upd_nth sid R ss) ts q.
Proof.
  intros xp xo X tev d es gs ss ts q lg sid R st [HO [HC HG]] HL Hs K Oe Pf Pa Pse.
  destruct (K st) as [K1 [K2 [K3 _]]].
  split; [split; [|split]|].
  - apply (Own_wst _ _ _ _ sid R st HO Hs K1 K2). congruence.
  - apply (F_cnt_same _ _ _ _ _ _ _ _ HC). intro tok. pose proof (cnt_own_upd tok _ sid R st Hs) as U. unfold owns in U. rewrite K1, Oe in U. lia.
  - apply (Gate_wst _ _ _ _ _ _ sid R st HG Hs). intro Ph. rewrite K3. apply (Pf Ph).
  - apply (EL_wst xp xo X es _ _ q sid R st HL Hs K); auto. intro Ph. right. apply (Pf Ph).
Qed.

Lemma del_th_absent : forall h w, ~ In h (ths w) -> del_th h w = w.
Proof. intros h [] H. unfold del_th, set_ths. simpl in *. rewrite (remove_absent th_eqb th_eqb_eq _ _ H). reflexivity. Qed.

Lemma on_done_eq : forall tok w sid st, bad w = false -> nth_error (wsts w) sid = Some st ->
  (s_event st = Some tok -> (In (THTick sid) (ths w) <-> 0 <= s_timeout st)) ->
  on_done tok w sid =
  if onat_eqb (s_event st) (Some tok)
  then del_th (THTick sid) (mod_wst sid (wst_phase Flagged) (reg_task (mk_task (s_tevent st) (RWait sid) (Some (s_parent st))) w))
  else w.
Proof.
  intros tok w sid st B Hs Ht. unfold on_done, rem_th_k. rewrite B, Hs. destruct (onat_eqb _ _) eqn:E; [|reflexivity].
  apply onat_eqb_eq in E. specialize (Ht E). cbv zeta. set (t := mk_task _ _ _).
  destruct (reg_task_frame t w) as [_ [_ [_ [Eh _]]]]. unfold has_th. wproj. rewrite Eh.
  destruct (Z.leb_spec 0 (s_timeout st)) as [L|L].
  - fold (has_th (THTick sid) w). rewrite (proj2 (has_th_In _ _) (proj2 Ht L)). reflexivity.
  - symmetry. apply del_th_absent. wproj. rewrite Eh. intro Hin. apply Ht in Hin. lia.
Qed.

Lemma on_done_full : forall xp X tok w sid ev, Full xp (Some tok) X w -> In (THDone sid) (ths w) ->
  (forall st, nth_error (wsts w) sid = Some st -> s_event st = Some tok -> s_ph st <> Flagged) ->
  nth_error (evs w) tok = Some ev -> (1 <= e_gate ev)%nat -> ~ In (QDone tok) (X ++ queue w) ->
  let w' := on_done tok w sid in
  Full xp (Some tok) X w' /\ evs w' = evs w /\ queue w' = queue w /\
  (forall s, s <> sid -> nth_error (wsts w') s = nth_error (wsts w) s) /\
  (forall s, In (THDone s) (ths w) -> In (THDone s) (ths w')) /\
  (forall st, nth_error (wsts w') sid = Some st -> s_ph st = Seen -> s_event st <> Some tok).
Proof.
  intros xp X tok w sid ev HF Hin Nf He Ge Ni. pose proof HF as [B [HI [HX HL]]].
  pose proof HI as [_ [I2 [I3 _]]]. specialize (I2 _ Hin). simpl in I2.
  destruct (nth_error (wsts w) sid) as [st|] eqn:Hs; [|apply nth_error_None in Hs; lia].
  pose proof (I3 sid st Hs) as [O1 O2 O3 O4 O5 O6 O7].
  assert (Ph : s_event st = Some tok -> s_ph st = Seen).
  { intro Ev. specialize (Nf st eq_refl Ev). pose proof (proj1 (O1 (THDone sid) eq_refl) Hin) as Pd. simpl in Pd.
    destruct (s_ph st); try congruence. destruct (O2 eq_refl). congruence. }
  cbv zeta. rewrite (on_done_eq tok w sid st B Hs).
  2:{ intro Ev. rewrite (O1 (THTick sid) eq_refl). simpl. rewrite (Ph Ev). intuition. }
  destruct (onat_eqb (s_event st) (Some tok)) eqn:Ev.
  2:{ split; [exact HF|]. repeat split; auto. intros st' Hs' _ E. rewrite Hs in Hs'. inversion Hs'. subst st'.
      apply onat_eqb_eq in E. congruence. }
  apply onat_eqb_eq in Ev. set (t := mk_task (s_tevent st) (RWait sid) (Some (s_parent st))).
  destruct (reg_task_frame t w) as [Ee [Eg [Ew [Eh [Eq [El Eb]]]]]].
  destruct (EX_EL_reg_nongen xp (Some tok) X _ _ w t HX HL eq_refl) as [X1 L1].
  destruct (EX_EL_wst _ _ _ _ _ _ _ _ _ _ _ sid (wst_phase Flagged) st X1 L1 Hs (keeps_all_phase Flagged) eq_refl) as [X2 L2];
    try discriminate.
  { intros _. split; [apply (reg_task_tasks t w); [apply HI|auto]|]. exists tok, ev. auto. }
  split; [|split; [|split; [|split; [|split]]]]; wproj; rewrite ?Ee, ?Eq, ?Ew, ?Eh; auto.
  - split; [wproj; exact (eq_trans Eb B)|]. split; [exact (IC_flag w sid st tok HI Hs Hin Ev)|]. unfold EX, EL. wproj.
    rewrite Ee, Eg, Ew, Eq, El. auto.
  - intros s Ne. apply nth_error_upd_other. congruence.
  - intros s Hs'. apply In_del. split; [assumption|discriminate].
  - intros st' Hs' Ph'. rewrite (nth_error_upd_same _ _ _ _ Hs) in Hs'. inversion Hs'. subst st'. discriminate Ph'.
Qed.

Lemma fold_on_done_full : forall xp X tok sids w ev, Full xp (Some tok) X w -> NoDup sids ->
  (forall s, In s sids -> In (THDone s) (ths w)) ->
  (forall s st, In s sids -> nth_error (wsts w) s = Some st -> s_event st = Some tok -> s_ph st <> Flagged) ->
  nth_error (evs w) tok = Some ev -> (1 <= e_gate ev)%nat -> ~ In (QDone tok) (X ++ queue w) ->
  (forall s st, nth_error (wsts w) s = Some st -> s_ph st = Seen -> s_event st = Some tok -> In s sids) ->
  let w' := fold_left (on_done tok) sids w in
  Full xp (Some tok) X w' /\ (forall s st, nth_error (wsts w') s = Some st -> s_ph st = Seen -> s_event st <> Some tok).
Proof.
  intros xp X tok sids. induction sids as [|s r IH]; intros w ev HF ND Hd Nf He Ge Ni Hseen; simpl.
  - split; [assumption|]. intros s st Hs Ph Ev. exact (Hseen s st Hs Ph Ev).
  - inversion ND as [|? ? Hns NDr]; subst.
    destruct (on_done_full xp X tok w s ev HF (Hd s (or_introl eq_refl))) as [F1 [E1 [E2 [Fr [Kd Fs]]]]]; try assumption.
    { intros st Hs. apply (Nf s st); [left; reflexivity|assumption]. }
    apply (IH _ ev); try assumption.
    + intros s' Hs'. apply Kd. apply Hd. right. assumption.
    + intros s' st Hs' Hst. rewrite Fr in Hst by (intro; subst; contradiction). apply (Nf s' st); [right; assumption|assumption].
    + rewrite E1. assumption.
    + rewrite E2. assumption.
    + intros s' st Hs' Ph Ev. destruct (Nat.eq_dec s' s) as [->|E].
      * destruct (Fs st Hs' Ph Ev).
      * rewrite Fr in Hs' by assumption. destruct (Hseen s' st Hs' Ph Ev) as [E'|E']; [congruence|assumption].
Qed.

Lemma on_tick_eq : forall w sid st, bad w = false -> nth_error (wsts w) sid = Some st ->
  In (THTick sid) (ths w) -> In (THDone sid) (ths w) -> (In (THEv sid) (ths w) <-> s_run st = false) ->
  on_tick w sid =
  if s_timeout st =? 0
  then mod_wst sid wst_timeout (del_th (THTick sid) (del_th (THDone sid) (del_th (THEv sid)
         (reg_task (mk_task (s_tevent st) (RTimeout sid) (Some (s_parent st))) w))))
  else if 0 <? s_timeout st then mod_wst sid wst_tick w else w.
Proof.
  intros w sid st B Hs Ht Hd He. unfold on_tick, rem_th_k. rewrite B, Hs. destruct (s_timeout st =? 0); [|reflexivity].
  cbv zeta. set (w1 := reg_task _ w). assert (Eh : ths w1 = ths w) by apply reg_task_frame.
  assert (Has : forall h w', In h (ths w') -> has_th h w' = true) by (intros; apply has_th_In; assumption).
  destruct (s_run st) eqn:Rn.
  - rewrite (del_th_absent (THEv sid) w1) by (rewrite Eh; intro X; apply He in X; discriminate).
    rewrite !Has; [reflexivity| |]; wproj; rewrite ?In_del, Eh; auto. split; [assumption|discriminate].
  - rewrite !Has; [reflexivity| | |]; wproj; rewrite ?In_del, Eh; repeat split; auto; try discriminate. apply He. reflexivity.
Qed.

Lemma on_tick_full : forall xp xo X w sid, Full xp xo X w -> In (THTick sid) (ths w) ->
  Full xp xo X (on_tick w sid) /\ (forall s, s <> sid -> In (THTick s) (ths w) -> In (THTick s) (ths (on_tick w sid))).
Proof.
  intros xp xo X w sid HF Hin. pose proof HF as [B [HI [HX HL]]].
  pose proof HI as [_ [I2 [I3 _]]]. specialize (I2 _ Hin). simpl in I2.
  destruct (nth_error (wsts w) sid) as [st|] eqn:Hs; [|apply nth_error_None in Hs; lia].
  pose proof (I3 sid st Hs) as [O1 O2 O3 O4 O5 O6 O7].
  destruct (proj1 (O1 (THTick sid) eq_refl) Hin) as [Ph Tm].
  assert (Hd : In (THDone sid) (ths w)) by (apply (O1 (THDone sid) eq_refl); simpl; destruct Ph as [P|P]; rewrite P; discriminate).
  assert (Nf : s_ph st <> Flagged) by (destruct Ph as [P|P]; rewrite P; discriminate).
  rewrite (on_tick_eq w sid st B Hs Hin Hd).
  2:{ rewrite (O1 (THEv sid) eq_refl). simpl. split; [intro P; apply (O2 P)|]. intro Rn. destruct Ph as [P|P]; [assumption|].
      rewrite (O3 P) in Rn. discriminate. }
  destruct (Z.eqb_spec (s_timeout st) 0) as [T0|T0]; [|destruct (Z.ltb_spec 0 (s_timeout st)) as [T1|T1]].
  - set (t := mk_task (s_tevent st) (RTimeout sid) (Some (s_parent st))).
    destruct (reg_task_frame t w) as [Ee [Eg [Ew [Eh [Eq [El Eb]]]]]].
    destruct (EX_EL_reg_nongen xp xo X _ _ w t HX HL eq_refl) as [X1 L1].
    destruct (EX_EL_wst _ _ _ _ _ _ _ _ _ _ _ sid wst_timeout st X1 L1 Hs keeps_all_timeout eq_refl) as [X2 L2]; try discriminate.
    split.
    + split; [wproj; exact (eq_trans Eb B)|]. split; [exact (IC_timeout w sid st HI Hs Hin T0)|]. unfold EX, EL. wproj.
      rewrite Ee, Eg, Ew, Eq, El. auto.
    + intros s Ne Hs'. wproj. rewrite !In_del, Eh. repeat split; auto; try discriminate. congruence.
  - destruct (EX_EL_wst _ _ _ _ _ _ _ _ _ _ _ sid wst_tick st HX HL Hs keeps_all_tick eq_refl) as [X2 L2]; auto; [intro; contradiction|].
    split; [|auto]. split; [exact B|]. split; [exact (IC_tick w sid st HI Hs T1)|]. auto.
  - auto.
Qed.

Lemma fold_on_tick_full : forall xp xo X sids w, Full xp xo X w -> NoDup sids -> (forall s, In s sids -> In (THTick s) (ths w)) ->
  Full xp xo X (fold_left on_tick sids w).
Proof.
  intros xp xo X sids. induction sids as [|s r IH]; intros w HF ND Hin; simpl; [assumption|].
  inversion ND as [|? ? Hns NDr]; subst.
  destruct (on_tick_full xp xo X w s HF (Hin s (or_introl eq_refl))) as [F1 Fr].
  apply IH; [assumption|assumption|]. intros s' Hs'. apply Fr; [intro; subst; contradiction|apply Hin; right; assumption].
Qed.

Lemma Full_pop : forall x X w, Full None None (x :: X) w ->
  Full (pexc x) (oexc x) X w /\ (udq x = true -> ~ In x (X ++ queue w)).
Proof.
  intros x X w [B [HI [[HO [HC HG]] HL]]]. destruct (Gate_pop _ _ _ _ _ _ _ HG) as [GP Ni].
  exact (conj (conj B (conj HI (conj (conj HO (conj HC GP)) (EL_pop _ _ _ _ _ _ HL)))) Ni).
Qed.

Lemma dispatch_full : forall p q0 rest w, Full None None (q0 :: rest) w -> Full None None rest (dispatch p w q0).
Proof.
  intros p q0 rest w HF. destruct (Full_pop _ _ _ HF) as [FP Ni]. destruct HF as [B [HI [[HO [HC HG]] _]]].
  pose proof HG as [Hq [Hgate [Hqu [Hqd [_ [Hfl _]]]]]]. pose proof HI as [I1 [_ [I3 _]]]. pose proof FP as [_ [_ [[_ [_ GP]] LP]]].
  unfold dispatch. rewrite B. destruct q0 as [tok|tok|tok|]; simpl in LP; try specialize (Ni eq_refl).
  - (* a user event: marked, its handlers, the waits for its name, its gate *)
    assert (Rg : (tok < length (evs w))%nat) by (apply (Hq (QUser tok)); left; reflexivity).
    destruct (nth_error (evs w) tok) as [ev|] eqn:H0; [|apply nth_error_None in H0; lia].
    assert (D : e_dispatched ev = false) by (apply (Hqu tok ev); [left; reflexivity|assumption]).
    destruct (Hgate tok ev H0) as [G1 _]. destruct (G1 D) as [G W].
    set (w1 := add_log (LDisp tok) (mod_evt tok set_dispatched w)).
    assert (F1 : Full (Some tok) (Some tok) rest w1).
    { unfold w1. apply Slack_log; [|discriminate|discriminate]. apply Slack_parts; wproj; [exact B|exact HI| | | |].
      - rewrite length_upd_nth. exact HO.
      - apply (F_cnt_step _ _ _ _ _ _ _ _ tok set_dispatched ev HC H0). intro t. cbn [set_dispatched e_waiting]. destruct (tok =? t)%nat; lia.
      - apply (Gate_evt _ _ _ _ _ tok set_dispatched ev GP H0); simpl; auto.
        unfold gate_ok. simpl. rewrite G. split; [discriminate|lia].
      - apply (EL_evt (Some tok) (Some tok) rest _ _ _ _ tok set_dispatched ev); auto. apply (EL_exc _ _ _ _ _ _ _ _ _ LP); [intros; congruence|discriminate]. }
    assert (A1 : active tok (e_name ev) w1).
    { exists (set_dispatched ev). unfold w1. simpl. rewrite (nth_error_upd_same set_dispatched _ _ _ H0). auto. }
    pose proof (run_handlers_full (handlers_of p (e_name ev)) O (Some tok) rest tok (e_name ev) w1 false F1 A1) as RH.
    destruct (run_handlers tok O (handlers_of p (e_name ev)) (w1, false)) as [w2 err]. simpl in RH.
    destruct RH as [F2 [A2 [T2 S2]]]. change (wsts w2 = wsts w) in S2. change (ths w2 = ths w) in T2.
    pose proof LP as [_ [_ [_ [_ [Lm2 [_ [Lz _]]]]]]].
    destruct (fold_on_event_full (Some tok) rest tok (e_name ev) (ev_sids w (e_name ev)) w2 F2 A2 (ev_sids_NoDup w _ I1)) as [F3 [A3 NoArm]].
    { intros s Hs. rewrite T2. apply ev_sids_In in Hs. tauto. }
    { intros s st Hs Hst. apply ev_sids_In in Hs. destruct Hs as [_ Hs]. unfold name_of_sid in Hs. rewrite S2 in Hst. rewrite Hst in Hs.
      inversion Hs. reflexivity. }
    { intros s' st' Hs' E. rewrite S2 in Hs'. destruct (Lz s' st' Hs') as [ev' [Z1 Z2]]. rewrite E, H0 in Z1. inversion Z1. subst. congruence. }
    { intros s st Hs Ph Ob. rewrite S2 in Hs. apply ev_sids_complete.
      - apply (so_th _ _ _ _ (I3 s st Hs) (THEv s) eq_refl). assumption.
      - destruct (Lm2 s st tok Hs Ob) as [ev' [Z1 Z2]]. rewrite H0 in Z1. inversion Z1. subst ev'. unfold name_of_sid. rewrite Hs. congruence. }
    destruct A3 as [ev3 [H3 [D3 [G3 _]]]].
    destruct (event_done_full (Some tok) rest _ tok err ev3 (Slack_zero _ _ _ O tok _ F3) H3 (fun _ => conj G3 D3)) as [B4 [I4 [X4 L4]]].
    split; [exact B4|]. split; [exact I4|]. split; [exact X4|]. apply (EL_exc (Some tok) None None None _ _ _ _ _ L4); [|discriminate].
    intros sid st e E _ Hs Ph Ob. inversion E. subst e. rewrite (quiet_wsts _ (event_done_quiet _ _)) in Hs. destruct (NoArm sid st Hs Ph Ob).
  - (* <name>_done: the waits that have seen the event are flagged *)
    assert (Rg : (tok < length (evs w))%nat) by (apply (Hq (QDone tok)); left; reflexivity).
    destruct (nth_error (evs w) tok) as [ev|] eqn:H0; [|apply nth_error_None in H0; lia].
    assert (Ge : (1 <= e_gate ev)%nat) by (apply (Hqd tok ev); [left; reflexivity|assumption]).
    pose proof LP as [_ [_ [_ [Lm _]]]].
    destruct (fold_on_done_full None rest tok (done_sids w (e_name ev)) w ev) as [[B3 [I3' [X3 L3]]] NoSeen]; try assumption.
    + apply done_sids_NoDup. exact I1.
    + intros s Hs. apply done_sids_In in Hs. tauto.
    + intros s st _ Hs Ev Ph. destruct (Hfl s st Hs Ph) as [e [ev' [A [_ [_ Nq]]]]]. rewrite Ev in A. inversion A. subst e.
      apply Nq. left. reflexivity.
    + intros s st Hs Ph Ev. apply done_sids_complete.
      * apply (so_th _ _ _ _ (I3 s st Hs) (THDone s) eq_refl). simpl. rewrite Ph. discriminate.
      * destruct (Lm s st tok Hs Ev) as [ev' [A1 [A2 _]]]. rewrite H0 in A1. inversion A1. subst ev'. unfold name_of_sid. rewrite Hs. congruence.
    + split; [exact B3|]. split; [exact I3'|]. split; [exact X3|]. apply (EL_exc None (Some tok) None None _ _ _ _ _ L3); [discriminate|].
      intros sid st e ev' E _ Hs Ph Ev. inversion E. subst e. destruct (NoSeen sid st Hs Ph Ev).
  - (* <name>_success *)
    assert (Rg : (tok < length (evs w))%nat) by (apply (Hq (QSucc tok)); left; reflexivity).
    destruct (nth_error (evs w) tok) as [ev|] eqn:H0; [|apply nth_error_None in H0; lia].
    apply Slack_log; [exact FP|discriminate|discriminate].
  - (* generate_events: the waits with a timeout count *)
    apply fold_on_tick_full; [exact FP|apply tick_sids_NoDup; exact I1|intros s Hs; apply tick_sids_In; exact Hs].
Qed.

Lemma Full_pend_eq : forall X q X' w, X ++ queue w = X' ++ q -> Full None None X w -> Full None None X' (set_queue w q).
Proof.
  (* the invariant reads X and the queue only through X ++ queue w *)
  intros X q X' w E. unfold Full, Slack, EX, EXc, Gate, F_q, F_quser, F_qdone, F_qnodup, F_flag, EL, ELc, L_p, L_o.
  cbn [set_queue evs gens wsts ths tasks queue wlog bad]. rewrite E. exact (fun H => H).
Qed.

Lemma tick_full : forall p g sch t w, Full None None [] w -> Full None None [] (tick p g sch t w).
Proof.
  intros p g sch t w HF. pose proof HF as [_ [HI _]]. unfold tick.
  set (w0 := add_log (LTick t) w).
  assert (F0 : Full None None [] w0) by (apply Slack_log; [exact HF|discriminate|discriminate]).
  destruct (order_by_spec w0 sch (tasks w0)) as [N1 N2]; [apply HI|].
  pose proof (fold_ptask_full _ [] w0 F0 N1 N2) as F1.
  set (w1 := fold_left (fun w t => ptask t w) (order_by w0 sch (tasks w0)) w0) in *.
  assert (F2 : Full None None [] (if g then push QGenEv w1 else w1)).
  { destruct g; [|exact F1]. destruct F1 as [B1 [I1 [[O1 [C1 G1]] L1]]]. split; [exact B1|]. split; [exact I1|]. split.
    - split; [exact O1|]. split; [exact C1|]. apply Gate_push; simpl; auto; try (intros ? ? [E|[]]; discriminate).
      + intros x [<-|[]]. exact I.
      + constructor.
      + intros x [<-|[]]. discriminate.
      + intros ? ? ? [E|[]]. discriminate.
    - apply (EL_ext None None [] _ _ _ _ [] [QGenEv]) in L1. rewrite app_nil_r in L1. exact L1. }
  set (w2 := if g then push QGenEv w1 else w1) in *.
  assert (F3 : Full None None (queue w2) (set_queue w2 [])) by (apply (Full_pend_eq [] [] (queue w2)); [rewrite app_nil_r; reflexivity|exact F2]).
  clearbody w2. generalize dependent (set_queue w2 []). induction (queue w2) as [|q0 rest IH]; intros w3 F3; simpl; [exact F3|].
  apply IH. apply dispatch_full. exact F3.
Qed.

Lemma fire_roots_full : forall roots t w, Full None None [] w -> Full None None [] (fire_roots roots t w).
Proof.
  intros roots t. unfold fire_roots. induction roots as [|r rs IH]; intros w HF; cbn [fold_left]; [assumption|].
  apply IH. destruct (Nat.eqb (fst r) t); [|assumption]. destruct HF as [B [HI [HX HL]]]. rewrite grow_fire.
  pose proof HL as [_ [_ [_ [_ [_ [_ [Lz _]]]]]]].
  apply (Slack_log None None [] O 0 (grow [snd r] [] w)); [|discriminate|discriminate].
  refine (conj B (conj HI (conj (EX_grow [] _ _ _ _ _ _ _ _ [snd r] [] (new_evt O) HX Lz (or_introl (conj eq_refl eq_refl)) (Forall_nil _)) _))).
  apply (EL_ext None None [] _ _ _ _ [new_evt (snd r)] [QUser (length (evs w))] HL).
Qed.

Lemma Full_init : Full None None [] init.
Proof.
  split; [reflexivity|]. split; [|split].
  - split; [constructor|]. split; [intros h []|]. split; [intros [|sid] st H; discriminate|]. split; [constructor|intros t []].
  - split; [|split].
    + split; [intros [|g] gn H; discriminate|]. split; [intros t g []|intros [|sid] st H; discriminate].
    + intros [|[|tok]] ev H; inversion H. reflexivity.
    + split; [intros x []|]. split; [intros [|[|tok]] ev H; inversion H; split; simpl; [auto|lia]|].
      split; [intros tok ev []|]. split; [intros tok ev []|]. split; [constructor|]. split; [intros [|sid] st H; discriminate|].
      split; [intros tok hi k e vals err []|exact I].
  - unfold EL, init, ELc. simpl. repeat match goal with |- _ /\ _ => split end; intros [|sid] st; intros; discriminate.
Qed.

Theorem run_full : forall p g scheds roots n, Full None None [] (run p g scheds roots n).
Proof.
  intros p g scheds roots n. unfold run. generalize O, init, Full_init.
  induction n as [|n IH]; intros t w HF; simpl; [exact HF|]. apply IH. apply tick_full. apply fire_roots_full. exact HF.
Qed.

Lemma run_IC : forall p g scheds roots n, IC (run p g scheds roots n).
Proof. intros. apply run_full. Qed.
Lemma run_EX : forall p g scheds roots n, EX [] O 0 (run p g scheds roots n).
Proof. intros. apply run_full. Qed.

Lemma IC_sid : forall w sid st, IC w -> nth_error (wsts w) sid = Some st -> sid_ok (ths w) (tasks w) sid st.
Proof. intros w sid st [_ [_ [C _]]]. apply C. Qed.

Lemma IC_residue : forall w, IC w ->
  NoDup (ths w) /\ forall h, In h (ths w) <-> exists st, nth_error (wsts w) (sid_of h) = Some st /\ wants h st.
Proof.
  intros w [A [R [C _]]]. split; [assumption|]. intro h. split.
  - intro Hin. pose proof (R h Hin) as L. apply nth_error_Some in L.
    destruct (nth_error (wsts w) (sid_of h)) as [st|] eqn:E; [|congruence]. exists st. split; [reflexivity|].
    apply (so_th _ _ _ _ (C _ _ E) h eq_refl). assumption.
  - intros [st [E W]]. apply (so_th _ _ _ _ (C _ _ E) h eq_refl). assumption.
Qed.

Lemma IC_all_dead : forall w, IC w -> (forall sid st, nth_error (wsts w) sid = Some st -> s_ph st = Dead) ->
  ths w = [] /\ forall t, In t (tasks w) -> forall sid, t_ref t <> RWait sid.
Proof.
  intros w HI Hd. split.
  - destruct (IC_residue w HI) as [_ S]. destruct (ths w) as [|h r]; [reflexivity|]. exfalso.
    destruct (proj1 (S h) (or_introl eq_refl)) as [st [Hs W]]. pose proof (Hd _ _ Hs) as D.
    destruct h; simpl in W; [congruence|congruence|destruct W as [[X|X] _]; congruence].
  - intros t Ht sid R. destruct HI as [_ [_ [_ [_ E]]]]. specialize (E t Ht). unfold task_ok in E. rewrite R in E.
    destruct E as [st [Hs [Ph _]]]. rewrite (Hd _ _ Hs) in Ph. discriminate.
Qed.

Lemma IC_at_most_once : forall w sid st, IC w -> nth_error (wsts w) sid = Some st ->
  (s_resumes st <= 1)%nat /\ (s_resumes st = 1%nat -> s_ph st = Dead /\ count_rt sid (tasks w) = O).
Proof.
  intros w sid st HI Hs. pose proof (so_credit _ _ _ _ (IC_sid w sid st HI Hs)) as A.
  split; [lia|]. intro R. split; [|lia]. destruct (s_ph st); simpl in A; try lia. reflexivity.
Qed.

Lemma IC_timeout_not_early : forall w sid st, IC w -> nth_error (wsts w) sid = Some st ->
  (s_timedout st = true \/ (0 < count_rt sid (tasks w))%nat) -> Z.of_nat (s_ticks st) = s_tmo0 st + 1 /\ s_ph st = Dead.
Proof.
  intros w sid st HI Hs H. destruct (IC_sid w sid st HI Hs) as [_ _ _ O4 O5 _ O7].
  assert (T : s_timedout st = true) by (destruct H; auto). unfold wst_time_ok in O5. rewrite T in O5. split; [assumption|apply O4; assumption].
Qed.

Lemma IC_countdown : forall w sid st, IC w -> nth_error (wsts w) sid = Some st -> s_timedout st = false -> 0 <= s_tmo0 st ->
  0 <= s_timeout st /\ s_timeout st + Z.of_nat (s_ticks st) = s_tmo0 st.
Proof.
  intros w sid st HI Hs T L. pose proof (so_time _ _ _ _ (IC_sid w sid st HI Hs)) as O5. unfold wst_time_ok in O5. rewrite T in O5.
  apply O5. assumption.
Qed.

Lemma IC_wait_task : forall w t sid, IC w -> In t (tasks w) -> t_ref t = RWait sid ->
  exists st, nth_error (wsts w) sid = Some st /\ s_ph st = Flagged /\ In (THDone sid) (ths w) /\
             ~ In (THEv sid) (ths w) /\ ~ In (THTick sid) (ths w).
Proof.
  intros w t sid HI Ht R. pose proof HI as [_ [_ [_ [_ E]]]]. specialize (E t Ht). unfold task_ok in E. rewrite R in E.
  destruct E as [st [Hs [Ph _]]]. exists st. pose proof (so_th _ _ _ _ (IC_sid w sid st HI Hs)) as O1. repeat split; try assumption.
  - apply (O1 (THDone sid) eq_refl). simpl. rewrite Ph. discriminate.
  - intro X. apply (O1 (THEv sid) eq_refl) in X. simpl in X. congruence.
  - intro X. apply (O1 (THTick sid) eq_refl) in X. destruct X as [[X|X] _]; congruence.
Qed.

Lemma EX_resume_value : forall X tev d w tok hi k e vals err, EX X tev d w -> In (LRes tok hi k e vals err) (wlog w) ->
  exists ev, nth_error (evs w) e = Some ev /\ e_vals ev = vals /\ e_errors ev = err /\
             (1 <= e_gate ev)%nat /\ e_dispatched ev = true /\ e_waiting ev = 0.
Proof.
  intros X tev d w tok hi k e vals err [_ [_ [_ [Hgate [_ [_ [_ [_ [Hres _]]]]]]]]] Hin.
  destruct (Hres _ _ _ _ _ _ Hin) as [ev [A [B [C D]]]]. exists ev. destruct (Hgate e ev A) as [_ G2]. destruct (G2 B). auto 7.
Qed.

Lemma ord_ok_split : forall a tok hi k e vals err b, ord_ok (a ++ LRes tok hi k e vals err :: b) ->
  forall x, In x a -> htok x <> Some e.
Proof.
  induction a as [|y r IH]; intros tok hi k e vals err b H x Hx; [destruct Hx|]. simpl in H. destruct H as [H1 H2].
  destruct Hx as [<-|Hx]; [|exact (IH tok hi k e vals err b H2 x Hx)].
  apply (H1 tok hi k e vals err). apply in_app_iff. right. left. reflexivity.
Qed.

Lemma EX_resume_after_finish : forall X tev w l1 l2 tok hi k e vals err, EX X tev 0 w ->
  rev (wlog w) = l1 ++ LRes tok hi k e vals err :: l2 ->
  (forall x, In x l2 -> htok x <> Some e) /\
  (forall t, In t (tasks w) -> t_ev t = e -> is_gen (t_ref t) = false) /\
  (forall sid st, nth_error (wsts w) sid = Some st -> s_tevent st = e -> s_resumes st <> O).
Proof.
  intros X tev w l1 l2 tok hi k e vals err HX Hsplit.
  assert (Hin : In (LRes tok hi k e vals err) (wlog w)).
  { apply in_rev. rewrite Hsplit. apply in_app_iff. right. left. reflexivity. }
  destruct (EX_resume_value X tev 0 w tok hi k e vals err HX Hin) as [ev [A [_ [_ [G [D W]]]]]].
  destruct HX as [_ [Hcnt [_ [_ [_ [_ [_ [_ [_ Hord]]]]]]]]]. apply (fun H => F_cnt_zero _ _ _ _ _ _ H A) in Hcnt. rewrite W in Hcnt.
  split; [|split].
  - assert (E : wlog w = rev l2 ++ LRes tok hi k e vals err :: rev l1).
    { rewrite <- (rev_involutive (wlog w)), Hsplit, rev_app_distr. simpl. rewrite <- app_assoc. reflexivity. }
    rewrite E in Hord. intros x Hx. apply (ord_ok_split _ _ _ _ _ _ _ _ Hord). apply in_rev in Hx. exact Hx.
  - intros t Ht Te. destruct (is_gen (t_ref t)) eqn:Ig; [|reflexivity]. exfalso.
    assert (Gf : gen_for e t = true) by (unfold gen_for; rewrite Te, Nat.eqb_refl, Ig; reflexivity).
    pose proof (filter_len_pos (gen_for e) _ t Ht Gf). unfold cnt_gen in Hcnt. lia.
  - intros sid st Hs Te R0.
    assert (Ow : owns e st = true) by (unfold owns, owning; rewrite Te, Nat.eqb_refl, R0; reflexivity).
    pose proof (filter_len_pos (owns e) _ st (nth_error_In _ _ Hs) Ow). unfold cnt_own in Hcnt. lia.
Qed.

(* (quiet here: a quiescent world, not the [quiet f] above, which says that f leaves [triple] alone)
   a quiet world (nothing queued, no task) in which no wait by name is still armed: the youngest live wait would be
   flagged (but its task is missing), armed on an event object (but that is not queued), or have seen an event e that
   still holds a count - of a handler suspended in a younger wait that has not resumed it, hence live *)
Lemma quiet_all_resumed : forall w, Full None None [] w -> queue w = [] -> tasks w = [] ->
  (forall sid st, nth_error (wsts w) sid = Some st -> s_ph st = Armed -> s_obj st <> None) ->
  forall sid st, nth_error (wsts w) sid = Some st -> s_ph st = Dead /\ s_resumes st = 1%nat.
Proof.
  intros w [_ [HI [HX HL]]] Q T NoName.
  destruct HL as [Lfl [Lp [Lo [Lm [Lm2 [Lv [Lz Lse]]]]]]]. rewrite Q in Lp, Lo. rewrite T in Lfl. simpl in Lp, Lo.
  destruct HX as [_ [Hcnt _]]. rewrite T in Hcnt.
  assert (Cr : forall sid st, nth_error (wsts w) sid = Some st -> (s_resumes st + alive (s_ph st) = 1)%nat).
  { intros sid st Hs. pose proof (so_credit _ _ _ _ (IC_sid w sid st HI Hs)) as C. rewrite T in C. unfold count_rt in C. simpl in C. lia. }
  assert (Dead_all : forall k sid st, (length (wsts w) - sid <= k)%nat -> nth_error (wsts w) sid = Some st -> s_ph st = Dead).
  { induction k as [|k IH]; intros sid st Hk Hs; [apply nth_error_lt in Hs; lia|].
    destruct (s_ph st) eqn:Ph; [| | |reflexivity]; exfalso.
    - destruct (s_obj st) as [e|] eqn:Ob; [|apply (NoName sid st Hs Ph Ob)]. apply (Lp sid st e Hs Ph Ob). discriminate.
    - destruct (s_event st) as [e|] eqn:Ev; [|apply (Lse sid st Hs Ph Ev)].
      destruct (Lm sid st e Hs Ev) as [ev [He _]].
      destruct (Lo sid st e ev Hs Ph Ev) as [W|[]]; [discriminate|assumption|].
      rewrite (F_cnt_zero _ _ _ _ _ _ Hcnt He) in W. change (cnt_gen e []) with O in W.
      destruct (filter_len_witness (owns e) (wsts w)) as [st' [Hin Ow]]; [unfold cnt_own in W; lia|].
      apply In_nth_error in Hin. destruct Hin as [s' Hs']. apply andb_prop in Ow. destruct Ow as [Te Ow]. apply Nat.eqb_eq in Te.
      pose proof (Lv sid st e s' st' Hs Ev Hs' Te) as Lt.
      assert (Pd : s_ph st' = Dead) by (apply (IH s' st'); [apply nth_error_lt in Hs'; lia|assumption]).
      pose proof (Cr s' st' Hs') as C. rewrite Pd in C. apply Nat.eqb_eq in Ow. simpl in C. lia.
    - apply (Lfl sid st Hs Ph). }
  intros sid st Hs. assert (Pd : s_ph st = Dead) by (apply (Dead_all (length (wsts w)) sid st); [lia|assumption]).
  split; [assumption|]. pose proof (Cr sid st Hs) as C. rewrite Pd in C. simpl in C. lia.
Qed.

(* Further facts about [quiet], about what [grow] does said as a relation ([ext_of]), and about removal from the
   task set, [unreg_task] and [name_of_sid], which the proof of the invariant does not use. *)
Lemma quiet_id : quiet (fun w => w).
Proof. intro w. auto. Qed.
Lemma quiet_comp : forall f g, quiet f -> quiet g -> quiet (fun w => g (f w)).
Proof.
  intros f g Hf Hg w. destruct (Hf w) as [A B]. destruct (Hg (f w)) as [C D]. split; [congruence|auto].
Qed.
Lemma quiet_set_bad : quiet set_bad. Proof. intro w. split; auto. Qed.
Lemma quiet_mod_evt : forall tok f, quiet (mod_evt tok f). Proof. intros tok f w. split; auto. Qed.
Lemma quiet_mod_gen : forall g f, quiet (mod_gen g f). Proof. intros g f w. split; auto. Qed.
Lemma quiet_set_gens : forall l, quiet (fun w => set_gens w l). Proof. intros l w. split; auto. Qed.

Definition ext_of (w w' : world) (nms : list nat) (ls : list lent) : Prop :=
  ths w' = ths w /\ wsts w' = wsts w /\ tasks w' = tasks w /\
  evs w' = evs w ++ map new_evt nms /\
  queue w' = queue w ++ map QUser (seq (length (evs w)) (length nms)) /\
  wlog w' = ls ++ wlog w.

Lemma ext_len : forall w w' nms ls, ext_of w w' nms ls -> (length (evs w) <= length (evs w'))%nat.
Proof. intros w w' nms ls [_ [_ [_ [D _]]]]. rewrite D, app_length. lia. Qed.

Lemma filter_len_remove_absent : forall (P : task -> bool) l t, ~ In t l ->
  filter (fun u => negb (task_eqb t u)) l = l.
Proof. intros P l t. apply (remove_absent task_eqb task_eqb_eq). Qed.

Lemma unreg_task_ths : forall t w, ths (unreg_task t w) = ths w. Proof. reflexivity. Qed.

Lemma name_of_sid_wsts : forall w w' s, wsts w' = wsts w -> name_of_sid w' s = name_of_sid w s.
Proof. intros. unfold name_of_sid. rewrite H. reflexivity. Qed.

(* non-vacuity: a call that returns, a call that times out, a callee whose generator handler raises after its
   first yield (the caller is resumed with the error), and a handler that raises right after being resumed *)
Definition prog_ok : program :=
  [ [HGen true [SCall 1%nat (-1); SYield (Some 7)]]; [HPlain (Some 5) false; HGen true [SYield (Some 9)]] ].
Definition prog_tmo : program :=
  [ [HGen true [SCall 1%nat 1; SYield (Some 7)]]; [HGen true [SYield None; SYield None; SYield None; SYield None]] ].
Definition prog_genraise : program :=
  [ [HGen true [SCall 1%nat (-1); SYield (Some 7)]]; [HGen true [SYield (Some 9); SRaise]] ].
Definition prog_raise_resumed : program :=
  [ [HGen true [SCall 1%nat (-1); SYield (Some 7)]]; [HGen true [SCall 2%nat (-1); SRaise]]; [HPlain (Some 5) false] ].
