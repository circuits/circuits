(* Proofs about Model/KTree.v (C07).
   First the forest invariant Inv: register and the completion of an unregistration both re-parent one component
   and re-root its subtree (reparent_invF); each has one lemma that says when it succeeds and what state it leaves
   (register_spec, complete_spec).  Then the counting invariant BI on announcement events.  Then, level
   by level from single operations up to histories, one lemma per level that says what the outcome of that level
   can be (outcome).  Last the restart of pending unregistrations in a detached subtree. *)
From Coq Require Import List Arith Bool Lia Permutation.
From Circ Require Import Lib.FunUpd Model.KTree.
Import ListNotations.

Lemma upd_true_false : forall (f : comp -> bool) k j, upd f k true j = false -> j <> k /\ f j = false.
Proof.
  intros f k j H. destruct (Nat.eq_dec j k) as [->|N]; [rewrite upd_same in H; discriminate|].
  rewrite upd_other in H by exact N. split; assumption.
Qed.

Lemma upd2_same : forall f p c v, upd2 f p c v p c = v.
Proof. intros. unfold upd2. rewrite !Nat.eqb_refl. reflexivity. Qed.

Lemma upd2_other : forall f p c v a b, (a <> p \/ b <> c) -> upd2 f p c v a b = f a b.
Proof.
  intros f p c v a b H. unfold upd2.
  destruct (a =? p) eqn:E1; destruct (b =? c) eqn:E2; simpl; try reflexivity.
  apply Nat.eqb_eq in E1. apply Nat.eqb_eq in E2. destruct H; contradiction.
Qed.

Lemma upd2_lt : forall n (kd : comp -> comp -> bool) p c v, (forall a b, kd a b = true -> b < n) -> c < n ->
  forall a b, upd2 kd p c v a b = true -> b < n.
Proof.
  intros n kd p c v Hlt Hc a b H. destruct (Nat.eq_dec b c) as [->|N]; [exact Hc|].
  rewrite upd2_other in H by (right; exact N). exact (Hlt a b H).
Qed.

(* x is in the subtree of c: reachable through .components links *)
Inductive desc (kd : comp -> comp -> bool) : comp -> comp -> Prop :=
| desc_refl : forall c, desc kd c c
| desc_step : forall c k x, kd c k = true -> desc kd k x -> desc kd c x.

Lemma desc_right : forall kd c y x, desc kd c y -> kd y x = true -> desc kd c x.
Proof.
  intros kd c y x H. induction H as [c | c k y Hk Hd IH]; intro Hx.
  - eapply desc_step; [exact Hx | apply desc_refl].
  - eapply desc_step; [exact Hk | apply IH; exact Hx].
Qed.

Lemma desc_trans : forall kd a b c, desc kd a b -> desc kd b c -> desc kd a c.
Proof.
  intros kd a b c H. induction H as [a | a k b Hk Hd IH]; intro Hc; [exact Hc|].
  eapply desc_step; [exact Hk | apply IH; exact Hc].
Qed.

Lemma desc_rind : forall kd c x, desc kd c x ->
  forall P : comp -> Prop, P c ->
  (forall y z, desc kd c y -> P y -> kd y z = true -> P z) -> P x.
Proof.
  intros kd c x H. induction H as [c | c k x Hk Hd IH]; intros P Pc Pstep; [exact Pc|].
  apply IH.
  - eapply Pstep; [apply desc_refl | exact Pc | exact Hk].
  - intros y z Hy Py Hz. eapply Pstep; [| exact Py | exact Hz].
    eapply desc_step; [exact Hk | exact Hy].
Qed.

Lemma desc_inv_right : forall kd c x, desc kd c x -> x = c \/ exists y, desc kd c y /\ kd y x = true.
Proof.
  intros kd c x H.
  apply (desc_rind kd c x H (fun z => z = c \/ exists y, desc kd c y /\ kd y z = true)).
  - left; reflexivity.
  - intros y z Hy _ Hz. right. exists y. split; assumption.
Qed.

Lemma desc_lt : forall n (kd : comp -> comp -> bool) c x, (forall a b, kd a b = true -> b < n) -> c < n ->
  desc kd c x -> x < n.
Proof.
  intros n kd c x Hlt Hc D. destruct (desc_inv_right _ _ _ D) as [->|(y & _ & H)]; [exact Hc | exact (Hlt y x H)].
Qed.

(* the subtree of c does not depend on the links into c: a path from c that comes back to c can start there *)
Lemma desc_off_column : forall (kd kd' : comp -> comp -> bool) c x,
  (forall a b, b <> c -> kd a b = true -> kd' a b = true) -> desc kd c x -> desc kd' c x.
Proof.
  intros kd kd' c x Hm H. apply (desc_rind kd c x H (desc kd' c)); [apply desc_refl|].
  intros y z _ Py Hz. destruct (Nat.eq_dec z c) as [->|Nz]; [apply desc_refl|].
  eapply desc_right; [exact Py | apply Hm; assumption].
Qed.

Lemma desc_upd2 : forall kd p c v x, desc (upd2 kd p c v) c x <-> desc kd c x.
Proof.
  intros kd p c v x.
  split; apply desc_off_column; intros a b N; rewrite upd2_other by (right; exact N); exact (fun H => H).
Qed.

Definition ur_step (n fu : nat) (kd : comp -> comp -> bool) (r c : comp)
  (acc : option (comp -> comp)) (k : comp) : option (comp -> comp) :=
  match acc with
  | None => None
  | Some g => if kd c k then upd_root n fu kd r k g else Some g
  end.

Lemma upd_root_S : forall n fu kd r c f,
  upd_root n (S fu) kd r c f = fold_left (ur_step n fu kd r c) (seq 0 n) (Some (upd f c r)).
Proof. reflexivity. Qed.

Lemma fold_ur_none : forall n fu kd r c l, fold_left (ur_step n fu kd r c) l None = None.
Proof. induction l as [|k l IH]; simpl; [reflexivity | exact IH]. Qed.

(* g is f with the value r on M, where membership of M is decided at every point *)
Definition sets (M : comp -> Prop) (r : comp) (f g : comp -> comp) : Prop :=
  forall x, (M x /\ g x = r) \/ (~ M x /\ g x = f x).

Lemma sets_in : forall {M : comp -> Prop} {r f g} x, sets M r f g -> M x -> g x = r.
Proof. intros M r f g x A m. destruct (A x) as [[_ E]|[N _]]; [exact E | contradiction]. Qed.

Lemma sets_out : forall {M : comp -> Prop} {r f g} x, sets M r f g -> ~ M x -> g x = f x.
Proof. intros M r f g x A N. destruct (A x) as [[m _]|[_ E]]; [contradiction | exact E]. Qed.

Lemma sets_upd : forall (M : comp -> Prop) r f g c, M c -> sets M r (upd f c r) g -> sets M r f g.
Proof.
  intros M r f g c Hc A x. destruct (A x) as [B|[N E]]; [left; exact B|]. right. split; [exact N|].
  rewrite E. apply upd_other. intros ->. contradiction.
Qed.

(* reachb's test of one candidate k for a child of c that leads to x *)
Definition reach_step (n fu : nat) (kd : comp -> comp -> bool) (c x k : comp) : bool :=
  if kd c k then reachb n fu kd k x else false.

Lemma fold_ur_reach : forall n fu kd r c,
  (forall k f g, upd_root n fu kd r k f = Some g -> forall x, g x = if reachb n fu kd k x then r else f x) ->
  forall l g0 g, fold_left (ur_step n fu kd r c) l (Some g0) = Some g ->
  forall x, g x = if existsb (reach_step n fu kd c x) l then r else g0 x.
Proof.
  intros n fu kd r c IHfu. induction l as [|k l IH]; simpl; intros g0 g H x; [injection H as <-; reflexivity|].
  unfold reach_step at 1. destruct (kd c k).
  - destruct (upd_root n fu kd r k g0) as [g1|] eqn:H1; [|rewrite fold_ur_none in H; discriminate].
    rewrite (IH _ _ H x), (IHfu _ _ _ H1 x). destruct (reachb n fu kd k x); [destruct (existsb _ l)|]; reflexivity.
  - exact (IH _ _ H x).
Qed.

(* a successful _updateRoot(r) from c sets the root of exactly what getHandlers reaches from c with the same
   fuel; no hypothesis: both recursions go through the same candidates *)
Lemma upd_root_reach : forall n kd r fu c f g, upd_root n fu kd r c f = Some g ->
  forall x, g x = if reachb n fu kd c x then r else f x.
Proof.
  intros n kd r. induction fu as [|fu IH]; intros c f g H x; [discriminate|].
  rewrite upd_root_S in H. rewrite (fold_ur_reach n fu kd r c IH _ _ _ H x). cbn [reachb].
  fold (reach_step n fu kd c x). unfold upd. destruct (x =? c); [destruct (existsb _ _)|]; reflexivity.
Qed.

(* a descending path c -> k1 -> k2 ... through .components links: what a failed _updateRoot exhibits, one link per
   unit of fuel ([upd_root_fail_chain]); in a forest it is too short for that ([chain_short]) *)
Inductive chain (kd : comp -> comp -> bool) : comp -> list comp -> Prop :=
| chain_nil : forall c, chain kd c []
| chain_cons : forall c k l, kd c k = true -> chain kd k l -> chain kd c (k :: l).

Lemma fold_ur_fail : forall n fu kd r c l g0,
  fold_left (ur_step n fu kd r c) l (Some g0) = None ->
  exists k g, kd c k = true /\ upd_root n fu kd r k g = None.
Proof.
  intros n fu kd r c. induction l as [|a l IH]; intros g0 H; simpl in H; [discriminate|].
  destruct (kd c a) eqn:Hk.
  - destruct (upd_root n fu kd r a g0) as [g1|] eqn:H1.
    + exact (IH g1 H).
    + exists a, g0. split; assumption.
  - exact (IH g0 H).
Qed.

Lemma upd_root_fail_chain : forall n kd r fu c f, upd_root n fu kd r c f = None ->
  exists l, length l = fu /\ chain kd c l.
Proof.
  intros n kd r. induction fu as [|fu IH]; intros c f H.
  - exists []. split; [reflexivity | constructor].
  - rewrite upd_root_S in H. destruct (fold_ur_fail _ _ _ _ _ _ _ H) as [k [g [Hk Hu]]].
    destruct (IH k g Hu) as [l [Hl Hc]]. exists (k :: l). split; [simpl; congruence | constructor; assumption].
Qed.

Lemma chain_nodup : forall kd (rk : comp -> nat), (forall a b, kd a b = true -> rk a < rk b) ->
  forall l c, chain kd c l -> (forall x, In x l -> rk c < rk x) /\ NoDup (c :: l).
Proof.
  intros kd rk Hrk. induction l as [|a l IH]; intros c H.
  - split; [intros x [] | constructor; [intros [] | constructor]].
  - inversion H as [|c' k l' Hk Hc]; subst. destruct (IH a Hc) as [Hlt Hnd].
    assert (Hall : forall x, In x (a :: l) -> rk c < rk x).
    { intros x [<-|Hx]; [apply Hrk; exact Hk|]. specialize (Hlt x Hx). specialize (Hrk c a Hk). lia. }
    split; [exact Hall|]. constructor; [|exact Hnd]. intro Hin. specialize (Hall c Hin). lia.
Qed.

Lemma chain_lt : forall n kd, (forall a b, kd a b = true -> b < n) ->
  forall l c, chain kd c l -> forall x, In x l -> x < n.
Proof.
  intros n kd Hlt. induction l as [|a l IH]; intros c H x Hx; [contradiction|].
  inversion H as [|c' k l' Hk Hc]; subst. destruct Hx as [<-|Hx]; [eapply Hlt; exact Hk | eapply IH; eassumption].
Qed.

Lemma chain_short : forall n kd c l, (forall a b, kd a b = true -> b < n) ->
  (exists rk : comp -> nat, forall a b, kd a b = true -> rk a < rk b) ->
  c < n -> chain kd c l -> length l < n.
Proof.
  intros n kd c l Hlt [rk Hrk] Hc Hch.
  destruct (chain_nodup kd rk Hrk l c Hch) as [_ Hnd].
  assert (Hincl : incl (c :: l) (seq 0 n)).
  { intros x Hx. apply in_seq. split; [lia|]. simpl.
    destruct Hx as [<-|Hx]; [exact Hc | eapply chain_lt; eassumption]. }
  pose proof (NoDup_incl_length Hnd Hincl) as Hlen. rewrite seq_length in Hlen. simpl in Hlen. lia.
Qed.

Lemma reachb_sound : forall n kd fu c x, reachb n fu kd c x = true -> desc kd c x.
Proof.
  intros n kd. induction fu as [|fu IH]; intros c x H; [discriminate|].
  simpl in H. destruct (x =? c) eqn:E.
  - apply Nat.eqb_eq in E. subst. apply desc_refl.
  - apply existsb_exists in H. destruct H as [k [_ Hk]].
    destruct (kd c k) eqn:Hc; [|discriminate].
    eapply desc_step; [exact Hc | apply IH; exact Hk].
Qed.

Lemma members_sound : forall n kd r x, In x (members n kd r) -> desc kd r x.
Proof.
  intros n kd r x H. unfold members in H. apply filter_In in H. destruct H as [_ H].
  eapply reachb_sound; exact H.
Qed.

Lemma desc_reachb : forall n kd, (forall a b, kd a b = true -> b < n) ->
  forall c x, desc kd c x ->
  exists l, chain kd c l /\ forall fuel, length l < fuel -> reachb n fuel kd c x = true.
Proof.
  intros n kd Hlt c x D. induction D as [c | c k x Hk D [l [Hc Hl]]].
  - exists []. split; [constructor|]. intros [|f] Hf; [inversion Hf|]. simpl. rewrite Nat.eqb_refl. reflexivity.
  - exists (k :: l). split; [constructor; assumption|]. intros [|f] Hf; [inversion Hf|].
    cbn [reachb]. destruct (x =? c); [reflexivity|]. apply existsb_exists. exists k. split.
    + apply in_seq. split; [lia|]. simpl. exact (Hlt c k Hk).
    + rewrite Hk. apply Hl. simpl in Hf. lia.
Qed.

Lemma members_complete : forall n kd c x,
  (forall a b, kd a b = true -> b < n) ->
  (exists rk : comp -> nat, forall a b, kd a b = true -> rk a < rk b) ->
  c < n -> desc kd c x -> In x (members n kd c).
Proof.
  intros n kd c x Hlt Hrk Hc D. unfold members. apply filter_In. split.
  - apply in_seq. split; [lia|]. simpl. exact (desc_lt n kd c x Hlt Hc D).
  - destruct (desc_reachb n kd Hlt c x D) as [l [Hch Hl]].
    apply Hl. pose proof (chain_short n kd c l Hlt Hrk Hc Hch). lia.
Qed.

(* in a forest _updateRoot(r) from c succeeds within its fuel and sets the root of exactly c's subtree *)
Lemma upd_root_spec : forall n kd r c f,
  (forall a b, kd a b = true -> b < n) ->
  (exists rk : comp -> nat, forall a b, kd a b = true -> rk a < rk b) ->
  c < n -> exists g, upd_root n (S n) kd r c f = Some g /\ sets (desc kd c) r f g.
Proof.
  intros n kd r c f Hlt Hrk Hc. destruct (upd_root n (S n) kd r c f) as [g|] eqn:E.
  - exists g. split; [reflexivity|]. intro x. rewrite (upd_root_reach _ _ _ _ _ _ _ E x).
    destruct (reachb n (S n) kd c x) eqn:Rb; [left | right]; (split; [|reflexivity]).
    + exact (reachb_sound _ _ _ _ _ Rb).
    + intro D. apply (members_complete n kd c x Hlt Hrk Hc), filter_In in D. rewrite Rb in D. destruct D; discriminate.
  - exfalso. destruct (upd_root_fail_chain _ _ _ _ _ _ E) as [l [Hl Hch]].
    pose proof (chain_short n kd c l Hlt Hrk Hc Hch). lia.
Qed.

(* ... also when the link into c has just been changed *)
Lemma upd_root_subtree : forall n (kd : comp -> comp -> bool) p c v r f,
  (forall a b, kd a b = true -> b < n) -> c < n ->
  (exists rk : comp -> nat, forall a b, upd2 kd p c v a b = true -> rk a < rk b) ->
  exists g, upd_root n (S n) (upd2 kd p c v) r c f = Some g /\ sets (desc kd c) r f g.
Proof.
  intros n kd p c v r f Hlt Hc Hrk.
  destruct (upd_root_spec n _ r c f (upd2_lt n kd p c v Hlt Hc) Hrk Hc) as (g & E & Hg).
  exists g. split; [exact E|]. intro x. pose proof (desc_upd2 kd p c v x) as U.
  destruct (Hg x) as [[D e]|[N e]]; [left | right]; (split; [tauto | exact e]).
Qed.

(* the forest invariant, over the fields and not the state: register and the completion of an unregistration write
   links, pending and dirty flags each in its own way, and [reparent_invF] serves both with the fields left open *)
Record InvF (n : nat) (pa ro : comp -> comp) (kd : comp -> comp -> bool) (pe di : comp -> bool)
  (ca : comp -> list (key * list comp)) (dl : list drec) : Prop := mkInv {
  i_kidlt : forall p c, kd p c = true -> c < n;
  i_rtlt : forall x, x < n -> ro x < n;
  i_kid : forall p c, kd p c = true <-> (pa c = p /\ c <> p);
  i_rtpar : forall c, ro (pa c) = ro c;
  i_rtroot : forall c, pa (ro c) = ro c;
  i_self : forall c, pa c = c -> ro c = c;
  i_rank : exists rk : comp -> nat, forall c, pa c <> c -> rk (pa c) < rk c;
  i_pend : forall c, pe c = true -> pa c <> c;
  i_cache : forall r, pa r = r -> di r = false ->
            forall k ms x, In (k, ms) (ca r) -> In x ms -> ro x = r;
  i_disp : forall d, In d dl -> d_ok d = true
}.

Arguments i_kidlt {n pa ro kd pe di ca dl}.
Arguments i_rtlt {n pa ro kd pe di ca dl}.
Arguments i_kid {n pa ro kd pe di ca dl}.
Arguments i_rtpar {n pa ro kd pe di ca dl}.
Arguments i_rtroot {n pa ro kd pe di ca dl}.
Arguments i_self {n pa ro kd pe di ca dl}.
Arguments i_rank {n pa ro kd pe di ca dl}.
Arguments i_pend {n pa ro kd pe di ca dl}.
Arguments i_cache {n pa ro kd pe di ca dl}.
Arguments i_disp {n pa ro kd pe di ca dl}.

Definition Inv (n : nat) (s : st) : Prop :=
  InvF n (par s) (rt s) (kid s) (pend s) (dirty s) (cache s) (disp s).

Lemma inv_init : forall n, Inv n init.
Proof.
  intro n. unfold Inv, init; simpl. constructor; simpl.
  - intros p c H; discriminate.
  - intros x H; exact H.
  - intros p c. split; [discriminate | intros [H1 H2]; congruence].
  - reflexivity.
  - reflexivity.
  - reflexivity.
  - exists (fun _ => 0). intros c H; congruence.
  - intros c H; discriminate.
  - intros r _ _ k ms x H; contradiction.
  - intros d H; contradiction.
Qed.

Section Forest.
Context {n : nat} {pa ro : comp -> comp} {kd : comp -> comp -> bool} {pe di : comp -> bool}
  {ca : comp -> list (key * list comp)} {dl : list drec} (I : InvF n pa ro kd pe di ca dl).

Lemma desc_rt : forall c x, desc kd c x -> ro x = ro c.
Proof.
  intros c x H. apply (desc_rind kd c x H (fun z => ro z = ro c)); [reflexivity|].
  intros y z _ Hy Hz. apply (i_kid I) in Hz. destruct Hz as [Hz _].
  rewrite <- Hy, <- Hz. symmetry. apply (i_rtpar I).
Qed.

Lemma desc_of_root : forall x, desc kd (ro x) x.
Proof.
  destruct (i_rank I) as [rk Hrk].
  intro x. remember (rk x) as m eqn:Hm. revert x Hm.
  induction m as [m IH] using lt_wf_ind. intros x Hm.
  destruct (Nat.eq_dec (pa x) x) as [E|E].
  - rewrite (i_self I x E). apply desc_refl.
  - assert (Hlt : rk (pa x) < m) by (subst m; apply Hrk; exact E).
    specialize (IH _ Hlt (pa x) eq_refl).
    rewrite (i_rtpar I) in IH.
    eapply desc_right; [exact IH|].
    apply (i_kid I). split; [reflexivity | congruence].
Qed.

(* for a detached c the model's test "the root of p is c" reads "p is in the subtree of c" *)
Lemma subtree_reading : forall c p, pa c = c -> (ro p = c <-> desc kd c p).
Proof.
  intros c p Hc. split.
  - intros <-. apply desc_of_root.
  - intro H. rewrite (desc_rt c p H). exact (i_self I c Hc).
Qed.

Lemma sub_up : forall c x, desc kd c x -> x <> c -> desc kd c (pa x) /\ pa x <> x.
Proof.
  intros c x D N. destruct (desc_inv_right _ _ _ D) as [->|(y & Dy & Hy)]; [contradiction|].
  apply (i_kid I) in Hy. destruct Hy as [<- Ny]. split; [exact Dy | congruence].
Qed.

Lemma sub_down : forall c x, desc kd c (pa x) -> pa x <> x -> desc kd c x.
Proof.
  intros c x D N. eapply desc_right; [exact D|]. apply (i_kid I). split; [reflexivity | congruence].
Qed.

(* unregister marks an attached component pending and the cache of its root dirty *)
Lemma invF_mark : forall c r, pa c <> c -> InvF n pa ro kd (upd pe c true) (upd di r true) ca dl.
Proof.
  intros c r E. destruct I as [Hkl Hrl Hk Hrp Hrr Hs Hrk Hpe Hca Hdl].
  constructor; try assumption.
  - intros x Hx. destruct (Nat.eq_dec x c) as [->|N]; [exact E|].
    rewrite upd_other in Hx by exact N. apply Hpe; exact Hx.
  - intros r' Hr Hd. apply upd_true_false in Hd. apply Hca; [exact Hr | exact (proj2 Hd)].
Qed.

(* a lookup by r writes r's cache, with members of r's tree, and no dirty flag is set *)
Lemma invF_cache_at : forall r l di',
  (forall r', r' <> r -> di' r' = false -> di r' = false) ->
  (pa r = r -> di' r = false -> forall k ms x, In (k, ms) l -> In x ms -> ro x = r) ->
  InvF n pa ro kd pe di' (upd ca r l) dl.
Proof.
  intros r l di' Hd Hl. pose proof (i_cache I) as Hca. destruct I. constructor; try assumption.
  intros r' Hr' Hd' k ms x Hin Hx. destruct (Nat.eq_dec r' r) as [->|N].
  - rewrite upd_same in Hin. exact (Hl Hr' Hd' k ms x Hin Hx).
  - rewrite upd_other in Hin by exact N. exact (Hca r' Hr' (Hd r' N Hd') k ms x Hin Hx).
Qed.

Lemma invF_disp : forall d, d_ok d = true -> InvF n pa ro kd pe di ca (d :: dl).
Proof.
  intros d H. destruct I. constructor; try assumption.
  intros d' [<-|Hin]; [exact H | auto].
Qed.

(* c gets the parent p' - itself: it is cut off; a component outside its subtree: it is put there - and the
   members of its subtree get the root r' of the tree they are in now.  The conjuncts on links, ranks, pending
   flags and dirty flags depend on how the operation writes those fields and are left to the caller. *)
Lemma reparent_invF : forall {c p'} r' {g kd' pe' di'}, c < n -> r' < n ->
  (p' = c /\ r' = c) \/ (~ desc kd c p' /\ r' = ro p') ->
  sets (desc kd c) r' ro g ->
  (forall a b, kd' a b = true <-> (upd pa c p' b = a /\ b <> a)) ->
  (exists rk : comp -> nat, forall x, upd pa c p' x <> x -> rk (upd pa c p' x) < rk x) ->
  (forall x, pe' x = true -> upd pa c p' x <> x) ->
  (forall r, upd pa c p' r = r -> di' r = false -> di r = false /\ r <> r' /\ r <> ro c) ->
  InvF n (upd pa c p') g kd' pe' di' ca dl.
Proof.
  intros c p' r' g kd' pe' di' Hc Hr' Hp' Hg Hk' Hrk' Hpe' Hdi'.
  pose proof (sets_in c Hg (desc_refl _ c)) as Hgc.
  assert (Hgp : g p' = r').
  { destruct Hp' as [[-> _]|[N ->]]; [exact Hgc | exact (sets_out p' Hg N)]. }
  (* the root of a component outside the subtree is not c *)
  assert (Hout : forall x, ~ desc kd c x -> ro x <> c).
  { intros x N E. apply N. rewrite <- E. apply desc_of_root. }
  assert (Hr'c : upd pa c p' r' = r').
  { destruct Hp' as [[-> ->]|[N ->]]; [apply upd_same|].
    rewrite upd_other by (apply Hout; exact N). apply (i_rtroot I). }
  constructor.
  - intros a b H. apply Hk' in H. destruct H as [H N]. destruct (Nat.eq_dec b c) as [->|Nb]; [exact Hc|].
    rewrite upd_other in H by exact Nb. apply (i_kidlt I a). apply (i_kid I). split; assumption.
  - intros x Hx. destruct (Hg x) as [[_ ->]|[_ ->]]; [exact Hr' | apply (i_rtlt I); exact Hx].
  - exact Hk'.
  - intro x. destruct (Nat.eq_dec x c) as [->|Nx]; [rewrite upd_same; congruence|].
    rewrite upd_other by exact Nx.
    destruct (Nat.eq_dec (pa x) x) as [E|E]; [rewrite E; reflexivity|].
    destruct (Hg x) as [[D ->]|[N ->]].
    + apply (sets_in _ Hg). apply sub_up; assumption.
    + rewrite (sets_out (pa x) Hg); [apply (i_rtpar I)|]. intro D. apply N. apply sub_down; assumption.
  - intro x. destruct (Hg x) as [[_ ->]|[N ->]]; [exact Hr'c|].
    rewrite upd_other by (apply Hout; exact N). apply (i_rtroot I).
  - intros x H. destruct (Nat.eq_dec x c) as [->|Nx].
    + rewrite upd_same in H. subst p'. destruct Hp' as [[_ ->]|[N _]]; [exact Hgc | destruct N; apply desc_refl].
    + rewrite upd_other in H by exact Nx. destruct (Hg x) as [[D _]|[_ ->]]; [|apply (i_self I); exact H].
      destruct (sub_up _ _ D Nx) as [_ N]. contradiction.
  - exact Hrk'.
  - exact Hpe'.
  - intros r Hr Hd k ms x Hin Hx. destruct (Hdi' r Hr Hd) as (Hd0 & N1 & N2).
    assert (Hr0 : pa r = r).
    { destruct (Nat.eq_dec r c) as [->|N]; [|rewrite upd_other in Hr by exact N; exact Hr].
      rewrite upd_same in Hr. subst p'. destruct Hp' as [[_ ->]|[N _]]; [congruence | destruct N; apply desc_refl]. }
    pose proof (i_cache I r Hr0 Hd0 k ms x Hin Hx) as E.
    destruct (Hg x) as [[D _]|[_ ->]]; [|exact E].
    destruct N2. rewrite <- E. apply desc_rt. exact D.
  - exact (i_disp I).
Qed.

End Forest.

Lemma link_rank : forall {pa : comp -> comp} {kd : comp -> comp -> bool},
  (forall p c, kd p c = true <-> (pa c = p /\ c <> p)) ->
  (exists rk : comp -> nat, forall c, pa c <> c -> rk (pa c) < rk c) ->
  exists rk : comp -> nat, forall a b, kd a b = true -> rk a < rk b.
Proof.
  intros pa kd Hk [rk Hrk]. exists rk. intros a b H. apply Hk in H. destruct H as [<- N].
  apply Hrk. congruence.
Qed.

(* reduce the field projections of a state that is written out with the setters, in the goal and the context *)
Ltac proj :=
  cbn [par rt kid pend q dirty cache regd unregd disp fx
       set_par set_rt set_kid set_pend set_q set_dirty set_cache set_regd set_unregd set_disp set_fx enq] in *.

Lemma refire_set_q : forall l c s, refire l c s = set_q s (q (refire l c s)).
Proof.
  induction l as [|d t IH]; intros c s.
  - destruct s; reflexivity.
  - exact (IH c (enq c (PrepUnreg d) s)).
Qed.

Lemma refire_q : forall l c s, q (refire l c s) c = q s c ++ map PrepUnreg l.
Proof.
  induction l as [|d t IH]; intros c s; simpl; [symmetry; apply app_nil_r|].
  fold (refire t c (enq c (PrepUnreg d) s)). rewrite IH. proj. rewrite upd_same, <- app_assoc. reflexivity.
Qed.

(* no invariant is assumed, so every branch of complete is looked at *)
Lemma complete_regd : forall n c s s', complete n c s = Ok s' -> regd s' = regd s.
Proof.
  intros n c s s' H. unfold complete in H.
  destruct (pend s c); cbn [negb] in H; [|injection H as <-; reflexivity]. proj.
  destruct (par s c =? c); [|destruct (kid s (par s c) c); cbn [negb] in H; [proj|discriminate]];
    (destruct (upd_root _ _ _ _ _ _); [|discriminate]); injection H as <-; rewrite refire_set_q; reflexivity.
Qed.

(* outcome discipline: Ok with the postcondition, or one of the two verdicts on the hypotheses; never a
   crash, never out of fuel *)
Definition post {A : Type} (P : A -> Prop) (r : res A) : Prop :=
  match r with Ok a => P a | PreViolated | BadSched => True | OutOfFuel | Crash => False end.

Definition good {A : Type} (r : res A) : Prop :=
  match r with PreViolated | BadSched => False | _ => True end.

(* both at once, and exactly, for a computation whose hypotheses are V: Ok when V holds, a verdict when it fails *)
Definition outcome {A : Type} (V : Prop) (P : A -> Prop) (r : res A) : Prop :=
  match r with Ok a => V /\ P a | PreViolated | BadSched => ~ V | OutOfFuel | Crash => False end.

Lemma outcome_post : forall {A V} {P : A -> Prop} {r}, outcome V P r -> post P r.
Proof. intros A V P r H. destruct r; simpl; auto. exact (proj2 H). Qed.

Lemma outcome_good : forall {A V} {P : A -> Prop} {r}, outcome V P r -> V -> good r.
Proof. intros A V P r H v. destruct r; simpl; auto. Qed.

Lemma outcome_ok : forall {A V} {P : A -> Prop} {r}, outcome V P r -> V -> exists a, r = Ok a /\ P a.
Proof. intros A V P r H v. destruct r; simpl in H; try contradiction. exists a. split; [reflexivity | exact (proj2 H)]. Qed.

Lemma outcome_inv : forall {A V} {P : A -> Prop} {r a}, outcome V P r -> r = Ok a -> V /\ P a.
Proof. intros A V P r a H ->. exact H. Qed.

Lemma outcome_weaken : forall {A} {V V' : Prop} {P P' : A -> Prop} {r},
  outcome V P r -> (V <-> V') -> (forall a, P a -> P' a) -> outcome V' P' r.
Proof. intros A V V' P P' r H HV HP. destruct r; simpl in *; try tauto. split; [tauto | apply HP, H]. Qed.

Lemma outcome_and : forall {A} {V V' : Prop} {P0 P : A -> Prop} {r},
  outcome V P0 r -> (V <-> V') -> (forall a, r = Ok a -> P a) -> outcome V' P r.
Proof. intros A V V' P0 P r H HV HP. destruct r; simpl in *; try tauto. split; [tauto | exact (HP a eq_refl)]. Qed.

(* sequencing: the second computation runs on the result of the first, and its hypotheses are read there *)
Lemma outcome_bind : forall {A B} {V1 : Prop} {P1 : A -> Prop} {r : res A}
  (V2 : A -> Prop) (P2 : B -> Prop) (k : A -> res B),
  outcome V1 P1 r -> (forall a, P1 a -> outcome (V2 a) P2 (k a)) ->
  outcome (V1 /\ forall a, r = Ok a -> V2 a) P2
    match r with
    | Ok a => k a
    | PreViolated => PreViolated | BadSched => BadSched | OutOfFuel => OutOfFuel | Crash => Crash
    end.
Proof.
  intros A B V1 P1 r V2 P2 k H1 H2. destruct r as [a| | | |]; cbn [outcome] in *; try tauto.
  apply (outcome_weaken (H2 a (proj2 H1))); [|auto]. split; [|intros [_ H]; exact (H a eq_refl)].
  intro v. split; [exact (proj1 H1) | intros a' [= <-]; exact v].
Qed.

Lemma outcome_with_fx : forall V (P : st -> Prop) r x,
  outcome V (fun s => P (set_fx s x)) r -> outcome V P (with_fx r x).
Proof. intros V P r x H. destruct r; exact H. Qed.

(* the preconditions of the property's quantifier, read on the state the op is applied to *)
Definition op_pre (n : nat) (o : op) (s : st) : Prop :=
  match o with
  | OReg c p => c < n /\ p < n /\ par s c = c /\ pend s c = false /\ ~ desc (kid s) c p
  | OUnreg c => c < n /\ par s c <> c
  | OFire x _ => x < n
  | OTick r _ => r < n /\ par s r = r
  | OFlush x _ => x < n
  end.

Lemma register_check : forall n c p s,
  (c <? n) && (p <? n) && (par s c =? c) && negb (pend s c) && negb (rt s p =? c) && negb (c =? p) = true <->
  c < n /\ p < n /\ par s c = c /\ pend s c = false /\ rt s p <> c /\ c <> p.
Proof. intros. rewrite !andb_true_iff, !negb_true_iff, !Nat.ltb_lt, Nat.eqb_eq, !Nat.eqb_neq. tauto. Qed.

Lemma register_cases : forall n c p s, register n c p s = PreViolated \/
  (c < n /\ p < n /\ par s c = c /\ pend s c = false /\ rt s p <> c /\ c <> p).
Proof.
  intros n c p s. unfold register. destruct (_ && negb (c =? p)) eqn:C; [right | left; reflexivity].
  apply register_check. exact C.
Qed.

(* c with its subtree is under p, in the tree of p *)
Definition reg_state (c p : comp) (f : comp -> comp) (s : st) : st :=
  mkst (upd (par s) c p) f (upd2 (kid s) p c true) (pend s)
       (upd (upd (upd (q s) (rt s p) (q s (rt s p) ++ q s c)) c []) (rt s p)
            (upd (upd (q s) (rt s p) (q s (rt s p) ++ q s c)) c [] (rt s p) ++ [Registered c p]))
       (upd (dirty s) (rt s p) true) (cache s) ((c, p) :: regd s) (unregd s) (disp s) (fx s).

Lemma register_fields : forall n c p s s', register n c p s = Ok s' ->
  pend s' = pend s /\ disp s' = disp s /\ unregd s' = unregd s /\ regd s' = (c, p) :: regd s /\ fx s' = fx s.
Proof.
  intros n c p s s' R. unfold register in R. destruct (_ && negb (c =? p)); [|discriminate]. proj.
  destruct (upd_root _ _ _ _ _ _); [|discriminate]. injection R as <-. repeat split; reflexivity.
Qed.

(* the links and ranks after register(c, p): the old tree of c is lifted above p *)
Lemma reg_links : forall n s c p, Inv n s -> par s c = c -> c <> p ->
  forall a b, upd2 (kid s) p c true a b = true <-> (upd (par s) c p b = a /\ b <> a).
Proof.
  intros n s c p I Hdet Hcp a b. destruct (Nat.eq_dec b c) as [->|Nb].
  - rewrite upd_same. destruct (Nat.eq_dec a p) as [->|Na].
    + rewrite upd2_same. tauto.
    + rewrite upd2_other by (left; exact Na). rewrite (i_kid I). split; intros [H1 H2]; congruence.
  - rewrite upd_other by exact Nb. rewrite upd2_other by (right; exact Nb). apply (i_kid I).
Qed.

Lemma reg_rank : forall n s c p, Inv n s -> par s c = c -> rt s p <> c ->
  exists rk : comp -> nat, forall x, upd (par s) c p x <> x -> rk (upd (par s) c p x) < rk x.
Proof.
  intros n s c p I Hdet Hout. destruct (i_rank I) as [rk Hrk].
  exists (fun x => if rt s x =? c then rk x + rk p + 1 else rk x).
  intros x H. destruct (Nat.eq_dec x c) as [->|Nx].
  - rewrite upd_same, (i_self I c Hdet), Nat.eqb_refl, (proj2 (Nat.eqb_neq _ _) Hout). lia.
  - rewrite upd_other in H |- * by exact Nx. rewrite (i_rtpar I). specialize (Hrk x H).
    destruct (rt s x =? c); lia.
Qed.

Lemma cut_links : forall n s c, Inv n s ->
  forall a b, upd2 (kid s) (par s c) c false a b = true <-> (upd (par s) c c b = a /\ b <> a).
Proof.
  intros n s c I a b. destruct (Nat.eq_dec b c) as [->|Nb].
  - rewrite upd_same. destruct (Nat.eq_dec a (par s c)) as [->|Na].
    + rewrite upd2_same. split; [discriminate | intros [H1 H2]; congruence].
    + rewrite upd2_other by (left; exact Na). rewrite (i_kid I). split; intros [H1 H2]; congruence.
  - rewrite upd_other by exact Nb. rewrite upd2_other by (right; exact Nb). apply (i_kid I).
Qed.

Lemma cut_rank : forall n s c, Inv n s ->
  exists rk : comp -> nat, forall x, upd (par s) c c x <> x -> rk (upd (par s) c c x) < rk x.
Proof.
  intros n s c I. destruct (i_rank I) as [rk Hrk]. exists rk. intros x H.
  destruct (Nat.eq_dec x c) as [->|Nx]; [rewrite upd_same in H; congruence|].
  rewrite upd_other in H |- * by exact Nx. apply Hrk. exact H.
Qed.

(* register(c, p) refuses exactly when the precondition fails; otherwise the test has passed and _updateRoot
   has given the subtree of c the root of p *)
Lemma register_spec : forall n c p s, Inv n s ->
  outcome (op_pre n (OReg c p) s)
    (fun s' => c < n /\ p < n /\ par s c = c /\ pend s c = false /\ rt s p <> c /\ c <> p /\
               exists f, sets (desc (kid s) c) (rt s p) (rt s) f /\ s' = reg_state c p f s)
    (register n c p s).
Proof.
  intros n c p s I. unfold register. destruct (_ && negb (c =? p)) eqn:C.
  - apply register_check in C. destruct C as (Hc & Hp & Hdet & Hnp & Hout & Hcp). proj.
    destruct (upd_root_subtree n (kid s) p c true (rt s p) (upd (rt s) c (rt s p)) (i_kidlt I) Hc
                (link_rank (reg_links n s c p I Hdet Hcp) (reg_rank n s c p I Hdet Hout))) as (f & -> & Hf).
    apply (sets_upd _ _ _ _ c (desc_refl _ c)) in Hf. cbn [outcome op_pre].
    split; [repeat (split; [assumption|]); intro D; apply Hout, (subtree_reading I); assumption|].
    repeat (split; [assumption|]).
    exists f. split; [exact Hf|]. rewrite (sets_in c Hf (desc_refl _ c)). reflexivity.
  - intros (Hc & Hp & Hdet & Hnp & Hout). apply not_true_iff_false in C. apply C, register_check.
    repeat (split; [assumption|]). split.
    + intro E. apply Hout. apply (subtree_reading I); assumption.
    + intros ->. apply Hout, desc_refl.
Qed.

Lemma register_ok : forall n c p s s', Inv n s -> register n c p s = Ok s' ->
  c < n /\ p < n /\ par s c = c /\ pend s c = false /\ rt s p <> c /\ c <> p /\
  exists f, sets (desc (kid s) c) (rt s p) (rt s) f /\ s' = reg_state c p f s.
Proof. intros n c p s s' I R. exact (proj2 (outcome_inv (register_spec n c p s I) R)). Qed.

Lemma attached_lt : forall n s c, Inv n s -> par s c <> c -> c < n.
Proof. intros n s c I H. apply (i_kidlt I (par s c)), (i_kid I). split; [reflexivity | congruence]. Qed.

(* c is cut off and is the root of its subtree; the re-fires are still to come *)
Definition cut_state (c : comp) (f : comp -> comp) (s : st) : st :=
  mkst (upd (par s) c c) f (upd2 (kid s) (par s c) c false) (upd (pend s) c false)
       (upd (q s) (rt s c) (q s (rt s c) ++ [Unregistered c (par s c)]))
       (upd (upd (dirty s) (rt s (par s c)) true) c true) (cache s) (regd s)
       ((c, par s c) :: unregd s) (disp s) (fx s).

Lemma complete_stale : forall n c s, pend s c = false -> complete n c s = Ok s.
Proof. intros n c s Hp. unfold complete. rewrite Hp. reflexivity. Qed.

(* a pending component is attached, so the model's delattr / set.remove find what they remove, and the
   fuel of _updateRoot suffices *)
Lemma complete_spec : forall n c s, Inv n s -> exists s', complete n c s = Ok s' /\
  ((pend s c = false /\ s' = s) \/
   (pend s c = true /\ par s c <> c /\ c < n /\
    exists f, sets (desc (kid s) c) c (rt s) f /\ s' = refire (refire_list n c s) c (cut_state c f s))).
Proof.
  intros n c s I. destruct (pend s c) eqn:Hp; [|exists s; split; [exact (complete_stale n c s Hp) | auto]].
  unfold complete. rewrite Hp. cbn [negb].
  pose proof (i_pend I c Hp) as Hatt. pose proof (attached_lt n s c I Hatt) as Hcn. proj.
  rewrite (proj2 (Nat.eqb_neq _ _) Hatt).
  rewrite (proj2 (i_kid I (par s c) c)) by (split; [reflexivity | congruence]).
  cbn [negb]. proj.
  destruct (upd_root_subtree n (kid s) (par s c) c false c (rt s) (i_kidlt I) Hcn
              (link_rank (cut_links n s c I) (cut_rank n s c I))) as (f & -> & Hf).
  eexists. split; [reflexivity|]. right. split; [reflexivity|]. repeat (split; [assumption|]).
  exists f. split; [exact Hf | reflexivity].
Qed.

Lemma complete_ok : forall n c s s', Inv n s -> complete n c s = Ok s' ->
  (pend s c = false /\ s' = s) \/
  (pend s c = true /\ par s c <> c /\ c < n /\
   exists f, sets (desc (kid s) c) c (rt s) f /\ s' = refire (refire_list n c s) c (cut_state c f s)).
Proof.
  intros n c s s' I H. destruct (complete_spec n c s I) as (s0 & E & F). rewrite E in H. injection H as <-. exact F.
Qed.

Lemma register_inv : forall n c p s s', Inv n s -> register n c p s = Ok s' -> Inv n s'.
Proof.
  intros n c p s s' I H.
  destruct (register_ok _ _ _ _ _ I H) as (Hc & Hp & Hdet & Hnp & Hout & Hcp & f & Hf & ->).
  unfold Inv, reg_state; proj.
  apply (reparent_invF I (rt s p) Hc (i_rtlt I p Hp)).
  - right. split; [|reflexivity]. intro D. apply Hout. apply (subtree_reading I); assumption.
  - exact Hf.
  - exact (reg_links n s c p I Hdet Hcp).
  - exact (reg_rank n s c p I Hdet Hout).
  - intros x Hx. destruct (Nat.eq_dec x c) as [->|Nx]; [congruence|].
    rewrite upd_other by exact Nx. exact (i_pend I x Hx).
  - intros r Hr Hd. apply upd_true_false in Hd. destruct Hd as [N Hd]. split; [exact Hd | split; [exact N|]].
    rewrite (i_self I c Hdet). intros ->. rewrite upd_same in Hr. congruence.
Qed.

Lemma complete_inv : forall n c s s', Inv n s -> complete n c s = Ok s' ->
  Inv n s' /\ (forall r, par s r = r -> par s' r = r).
Proof.
  intros n c s s' I H.
  destruct (complete_ok _ _ _ _ I H) as [[_ ->]|(_ & Hatt & Hcn & f & Hf & ->)]; [split; [exact I | auto]|].
  rewrite refire_set_q. split.
  - unfold Inv, cut_state; proj.
    apply (reparent_invF I c Hcn Hcn (or_introl (conj eq_refl eq_refl)) Hf).
    + exact (cut_links n s c I).
    + exact (cut_rank n s c I).
    + intros x Hx. destruct (Nat.eq_dec x c) as [->|Nx]; [rewrite upd_same in Hx; discriminate|].
      rewrite upd_other in Hx |- * by exact Nx. exact (i_pend I x Hx).
    + intros r _ Hd. apply upd_true_false in Hd. destruct Hd as [N Hd].
      apply upd_true_false in Hd. destruct Hd as [N' Hd]. rewrite (i_rtpar I) in N'. auto.
  - intros r Hr. unfold cut_state; proj. destruct (Nat.eq_dec r c) as [->|N]; [apply upd_same|].
    rewrite upd_other by exact N. exact Hr.
Qed.

Lemma find_key_in : forall k l ms, find_key k l = Some ms -> exists k', In (k', ms) l.
Proof.
  induction l as [|[k' m] l IH]; intros ms H; [discriminate|]. simpl in H.
  destruct (key_eqb k k').
  - inversion H; subst. exists k'. left; reflexivity.
  - destruct (IH ms H) as [k'' Hin]. exists k''. right; exact Hin.
Qed.

Lemma lookup_fields : forall n r e s, let s1 := fst (lookup n r e s) in
  s1 = set_dirty (set_cache s (cache s1)) (dirty s1).
Proof.
  intros n r e s. unfold lookup. destruct (dirty s r); cbv zeta; proj;
    destruct (find_key _ _); destruct s; reflexivity.
Qed.

Lemma lookup_inv : forall n r e s, Inv n s -> par s r = r ->
  Inv n (fst (lookup n r e s)) /\ (forall x, In x (snd (lookup n r e s)) -> rt s x = r).
Proof.
  intros n r e s I Hr. unfold lookup.
  set (s0 := if dirty s r then set_dirty (set_cache s (upd (cache s) r [])) (upd (dirty s) r false) else s).
  assert (H0 : Inv n s0 /\ dirty s0 r = false /\ par s0 = par s /\ rt s0 = rt s).
  { unfold s0. destruct (dirty s r) eqn:Hd; [|split; [exact I | split; [exact Hd | repeat split]]].
    split; [|split; [proj; apply upd_same | repeat split]].
    unfold Inv; proj. apply (invF_cache_at I); [|intros _ _ k ms' x []].
    intros r' N Hd'. rewrite upd_other in Hd' by exact N. exact Hd'. }
  clearbody s0. destruct H0 as (I0 & Hd0 & Ep & Er). rewrite <- Ep in Hr. rewrite <- Er.
  destruct (find_key (key_of e) (cache s0 r)) as [m|] eqn:Hf; cbn [fst snd].
  - split; [exact I0|]. intros x Hx. destruct (find_key_in _ _ _ Hf) as [k' Hin].
    exact (i_cache I0 r Hr Hd0 k' m x Hin Hx).
  - assert (Hms : forall x, In x (members n (kid s0) r) -> rt s0 x = r).
    { intros x Hx. apply members_sound in Hx. rewrite (desc_rt I0 r x Hx). exact (i_self I0 r Hr). }
    split; [|exact Hms]. unfold Inv; proj. apply (invF_cache_at I0); [auto|].
    intros _ Hd' k ms' x [E|Hin] Hx; [|exact (i_cache I0 r Hr Hd' k ms' x Hin Hx)].
    inversion E; subst. apply Hms. exact Hx.
Qed.

Fixpoint anc (pa : comp -> comp) (k : nat) (c : comp) : comp :=
  match k with O => c | S k' => anc pa k' (pa c) end.

Definition top_of (s : st) (c t : comp) : Prop := par s t = t /\ exists k, anc (par s) k c = t.

Definition forest (s : st) : Prop :=
  (forall p c, kid s p c = true <-> (par s c = p /\ c <> p)) /\        (* parent and child links agree *)
  (forall c k, anc (par s) (S k) c = c -> par s c = c) /\              (* no cycles *)
  (forall c, top_of s c (rt s c)) /\                                   (* root = top of its tree *)
  (forall c t, top_of s c t -> t = rt s c).

Lemma inv_forest : forall n s, Inv n s -> forest s.
Proof.
  intros n s I. destruct (i_rank I) as [rk Hrk].
  assert (Hle : forall k c, rk (anc (par s) k c) <= rk c).
  { induction k as [|k IH]; intro c; simpl; [lia|].
    destruct (Nat.eq_dec (par s c) c) as [E|E]; [rewrite E; apply IH|].
    specialize (IH (par s c)). specialize (Hrk c E). lia. }
  assert (Hrt : forall k c, rt s (anc (par s) k c) = rt s c).
  { induction k as [|k IH]; intro c; simpl; [reflexivity|]. rewrite IH. apply (i_rtpar I). }
  split; [exact (i_kid I)|]. split; [|split].
  - intros c k H. destruct (Nat.eq_dec (par s c) c) as [E|E]; [exact E|].
    exfalso. simpl in H. pose proof (Hle k (par s c)) as H1. rewrite H in H1.
    specialize (Hrk c E). lia.
  - intro c. split; [apply (i_rtroot I)|].
    (* the path from the root down to c, read upwards *)
    apply (desc_rind _ _ _ (desc_of_root I c) (fun z => exists k, anc (par s) k z = rt s c)); [exists 0; reflexivity|].
    intros y z _ [k Hk] Hz. apply (i_kid I) in Hz. destruct Hz as [<- _]. exists (S k). exact Hk.
  - intros c t [Ht [k Hk']]. rewrite <- (Hrt k c), Hk'. symmetry. exact (i_self I t Ht).
Qed.

(* when the link into c is rewritten, c gets the parent p' and its subtree the root R, then the subtree
   keeps its inner links and everything outside is as before *)
Lemma subtree_moves : forall (kd : comp -> comp -> bool) (pa ro : comp -> comp) c p v p' R f,
  sets (desc kd c) R ro f ->
  (forall x, desc kd c x ->
     f x = R /\ desc (upd2 kd p c v) c x /\
     (x <> c -> upd pa c p' x = pa x /\ upd2 kd p c v (pa x) x = kd (pa x) x)) /\
  (forall x, ~ desc kd c x -> f x = ro x /\ upd pa c p' x = pa x).
Proof.
  intros kd pa ro c p v p' R f Hf. split.
  - intros x D. split; [|split; [apply desc_upd2; exact D|]].
    + exact (sets_in x Hf D).
    + intro N. split; [apply upd_other; exact N | apply upd2_other; right; exact N].
  - intros x N. split.
    + exact (sets_out x Hf N).
    + apply upd_other. intros ->. apply N, desc_refl.
Qed.

Lemma detach_connected : forall n c s s', Inv n s -> pend s c = true -> complete n c s = Ok s' ->
  par s' c = c /\ pend s' c = false /\ kid s' (par s c) c = false /\
  (forall x, desc (kid s) c x ->
     rt s' x = c /\ desc (kid s') c x /\ (x <> c -> par s' x = par s x /\ kid s' (par s x) x = kid s (par s x) x)) /\
  (forall x, ~ desc (kid s) c x -> rt s' x = rt s x /\ par s' x = par s x).
Proof.
  intros n c s s' I Hp H.
  destruct (complete_ok _ _ _ _ I H) as [[Hp' _]|(_ & _ & _ & f & Hf & ->)]; [congruence|].
  rewrite refire_set_q. unfold cut_state; proj.
  split; [apply upd_same|]. split; [apply upd_same|]. split; [apply upd2_same|].
  apply subtree_moves. exact Hf.
Qed.

Lemma move_connected : forall n c p s s', Inv n s -> register n c p s = Ok s' ->
  par s' c = p /\ kid s' p c = true /\
  (forall x, desc (kid s) c x ->
     rt s' x = rt s p /\ desc (kid s') c x /\ (x <> c -> par s' x = par s x /\ kid s' (par s x) x = kid s (par s x) x)) /\
  (forall x, ~ desc (kid s) c x -> rt s' x = rt s x /\ par s' x = par s x).
Proof.
  intros n c p s s' I H.
  destruct (register_ok _ _ _ _ _ I H) as (_ & _ & _ & _ & _ & _ & f & Hf & ->). unfold reg_state. proj.
  split; [apply upd_same|]. split; [apply upd2_same|]. apply subtree_moves. exact Hf.
Qed.

Lemma register_queue : forall n c p s s', Inv n s -> register n c p s = Ok s' ->
  rt s' c = rt s p /\
  q s' (rt s p) = q s (rt s p) ++ q s c ++ [Registered c p] /\
  q s' c = [] /\
  (forall x, x <> c -> x <> rt s p -> q s' x = q s x).
Proof.
  intros n c p s s' I H.
  destruct (register_ok _ _ _ _ _ I H) as (_ & _ & _ & _ & Hout & _ & f & Hf & ->). unfold reg_state. proj.
  split; [exact (sets_in c Hf (desc_refl _ c))|]. split; [|split].
  - rewrite upd_same. rewrite (upd_other _ _ c) by exact Hout. rewrite upd_same.
    rewrite <- app_assoc. reflexivity.
  - rewrite (upd_other _ _ (rt s p)) by (intro E'; apply Hout; symmetry; exact E'). apply upd_same.
  - intros x N1 N2. rewrite !upd_other by assumption. reflexivity.
Qed.

(* the counts of [BI]: the occurrences of e in the queues of the pool ([qcount]) and among the dispatches so far
   ([dcount]) make [tot]; [gh] is the number of completed (un)registrations that the ghost lists regd / unregd hold for e *)
Definition cnt (e : ev) (l : list ev) : nat := length (filter (ev_eqb e) l).
Definition qsum (e : ev) (qf : comp -> list ev) (l : list comp) : nat :=
  list_sum (map (fun x => cnt e (qf x)) l).
Definition qcount (n : nat) (qf : comp -> list ev) (e : ev) : nat := qsum e qf (seq 0 n).
Definition dcount (dl : list drec) (e : ev) : nat := length (filter (fun d => ev_eqb e (d_ev d)) dl).
Definition cntp (c p : comp) (l : list (comp * comp)) : nat :=
  length (filter (fun cp => (c =? fst cp) && (p =? snd cp)) l).
Fixpoint count_reg (c p : comp) (h : list op) : nat :=
  match h with
  | [] => 0
  | OReg a b :: t => (if (c =? a) && (p =? b) then 1 else 0) + count_reg c p t
  | _ :: t => count_reg c p t
  end.

Definition isann (e : ev) : bool :=
  match e with Registered _ _ | Unregistered _ _ => true | _ => false end.
Definition gh (s : st) (e : ev) : nat :=
  match e with
  | Registered c p => cntp c p (regd s)
  | Unregistered c p => cntp c p (unregd s)
  | _ => 0
  end.
Definition tot (n : nat) (s : st) (e : ev) : nat := qcount n (q s) e + dcount (disp s) e.

Definition occ (n : nat) (qf : comp -> list ev) (rem : list ev) (c : comp) : nat :=
  qcount n qf (PrepUnreg c) + qcount n qf (PrepDone c) + cnt (PrepUnreg c) rem + cnt (PrepDone c) rem.

Lemma cnt_nil : forall e, cnt e [] = 0.
Proof. reflexivity. Qed.

Lemma cnt_cons : forall e e0 t, cnt e (e0 :: t) = (if ev_eqb e e0 then 1 else 0) + cnt e t.
Proof. intros. unfold cnt. simpl. destruct (ev_eqb e e0); reflexivity. Qed.

Lemma cnt_app : forall e a b, cnt e (a ++ b) = cnt e a + cnt e b.
Proof. intros. unfold cnt. rewrite filter_app, app_length. reflexivity. Qed.

Lemma cnt_perm : forall e a b, Permutation a b -> cnt e a = cnt e b.
Proof.
  intros e a b H. induction H; rewrite ?cnt_cons; lia.
Qed.

Lemma cntp_cons : forall a b c p l, cntp a b ((c, p) :: l) = cntp a b l + (if (a =? c) && (b =? p) then 1 else 0).
Proof. intros. unfold cntp. simpl. destruct ((a =? c) && (b =? p)); simpl; lia. Qed.

Lemma qsum_notin : forall e qf x v l, ~ In x l -> qsum e (upd qf x v) l = qsum e qf l.
Proof.
  intros e qf x v. induction l as [|y l IH]; intro H; [reflexivity|].
  unfold qsum in *. simpl. rewrite IH by (intro; apply H; right; assumption).
  rewrite upd_other by (intro E; apply H; left; exact E). reflexivity.
Qed.

Lemma qsum_in : forall e qf x v l, NoDup l -> In x l ->
  qsum e (upd qf x v) l + cnt e (qf x) = qsum e qf l + cnt e v.
Proof.
  intros e qf x v. induction l as [|y l IH]; intros ND H; [contradiction|].
  inversion ND as [|y' l' Hy ND']; subst.
  unfold qsum in *. simpl. destruct H as [->|H].
  - rewrite upd_same. pose proof (qsum_notin e qf x v l Hy) as E. unfold qsum in E. rewrite E. lia.
  - rewrite upd_other by (intro E; subst; contradiction). specialize (IH ND' H). lia.
Qed.

Lemma qcount_upd : forall n e qf x v, x < n ->
  qcount n (upd qf x v) e + cnt e (qf x) = qcount n qf e + cnt e v.
Proof.
  intros. unfold qcount. apply qsum_in; [apply seq_NoDup | apply in_seq; lia].
Qed.

Lemma qcount_upd_out : forall n e qf x v, ~ x < n -> qcount n (upd qf x v) e = qcount n qf e.
Proof. intros. unfold qcount. apply qsum_notin. intro H1. apply in_seq in H1. lia. Qed.

Lemma qcount_enq : forall n e qf x e0, x < n ->
  qcount n (upd qf x (qf x ++ [e0])) e = qcount n qf e + (if ev_eqb e e0 then 1 else 0).
Proof.
  intros n e qf x e0 L. pose proof (qcount_upd n e qf x (qf x ++ [e0]) L) as E.
  rewrite cnt_app, cnt_cons, cnt_nil in E. lia.
Qed.

Lemma qcount_enq_le : forall n e qf x e0,
  qcount n (upd qf x (qf x ++ [e0])) e <= qcount n qf e + (if ev_eqb e e0 then 1 else 0).
Proof.
  intros n e qf x e0. destruct (lt_dec x n) as [L|L].
  - rewrite qcount_enq by exact L. lia.
  - rewrite qcount_upd_out by exact L. lia.
Qed.

Lemma qcount_enq_other : forall n e qf x e0, ev_eqb e e0 = false ->
  qcount n (upd qf x (qf x ++ [e0])) e = qcount n qf e.
Proof.
  intros n e qf x e0 H.
  destruct (lt_dec x n) as [L|L]; [rewrite qcount_enq, H by exact L; lia | apply qcount_upd_out; exact L].
Qed.

Lemma qcount_empty : forall n e, qcount n (fun _ => []) e = 0.
Proof.
  intros n e. unfold qcount, qsum. induction (seq 0 n) as [|a l IH]; simpl; [reflexivity | exact IH].
Qed.

Lemma isann_neq : forall e e0, isann e = true -> isann e0 = false -> ev_eqb e e0 = false.
Proof. intros e e0 A A0. destruct e; try discriminate; destruct e0; try discriminate; reflexivity. Qed.

(* announcement events queued in the pool, dispatched so far and still to be dispatched in the current batch
   are as many as the completed registrations / unregistrations *)
Definition BI (n : nat) (s : st) (rem : list ev) : Prop :=
  forall e, isann e = true -> tot n s e + cnt e rem = gh s e.

Definition GI (n : nat) (s : st) (rem : list ev) : Prop := Inv n s /\ BI n s rem.

Lemma bi_enq : forall n s rem x e0, BI n s rem -> isann e0 = false -> BI n (enq x e0 s) rem.
Proof.
  intros n s rem x e0 B A0 e A. specialize (B e A). unfold tot, gh in *. proj.
  rewrite qcount_enq_other by (apply isann_neq; assumption). exact B.
Qed.

Lemma bi_announce : forall n s s' rem e1, BI n s rem -> disp s' = disp s ->
  (forall e, isann e = true ->
     qcount n (q s') e = qcount n (q s) e + (if ev_eqb e e1 then 1 else 0) /\
     gh s' e = gh s e + (if ev_eqb e e1 then 1 else 0)) ->
  BI n s' rem.
Proof.
  intros n s s' rem e1 B D H e A. specialize (B e A). destruct (H e A) as [Q G].
  unfold tot in *. rewrite Q, G, D. lia.
Qed.

Lemma refire_bi : forall n l c s rem, BI n s rem -> BI n (refire l c s) rem.
Proof.
  intros n. induction l as [|d t IH]; intros c s rem B; [exact B|].
  apply (IH c (enq c (PrepUnreg d) s)). apply bi_enq; [exact B | reflexivity].
Qed.

Lemma register_qcount : forall n c p s s', Inv n s -> register n c p s = Ok s' ->
  forall e, qcount n (q s') e = qcount n (q s) e + (if ev_eqb e (Registered c p) then 1 else 0).
Proof.
  intros n c p s s' I R e.
  destruct (register_ok _ _ _ _ _ I R) as (Hc & Hp & _ & _ & Hrp & _ & f & _ & ->).
  assert (HR : rt s p < n) by (apply (i_rtlt I); exact Hp).
  unfold reg_state. proj. rewrite qcount_enq by exact HR.
  pose proof (qcount_upd n e (q s) (rt s p) (q s (rt s p) ++ q s c) HR) as X1. rewrite cnt_app in X1.
  pose proof (qcount_upd n e (upd (q s) (rt s p) (q s (rt s p) ++ q s c)) c [] Hc) as X2.
  rewrite upd_other in X2 by (intro Y; apply Hrp; symmetry; exact Y). rewrite cnt_nil in X2. lia.
Qed.

Lemma register_gi : forall n c p s s' rem, GI n s rem -> register n c p s = Ok s' -> GI n s' rem.
Proof.
  intros n c p s s' rem [I B] R. split; [exact (register_inv _ _ _ _ _ I R)|].
  destruct (register_fields _ _ _ _ _ R) as (_ & Fd & Fu & Fr & _).
  apply (bi_announce n s s' rem (Registered c p) B Fd). intros e A. split; [exact (register_qcount _ _ _ _ _ I R e)|].
  destruct e; try discriminate; unfold gh; rewrite ?Fr, ?Fu, ?cntp_cons; simpl; lia.
Qed.

Lemma complete_gi : forall n c s s' rem, GI n s rem -> complete n c s = Ok s' ->
  GI n s' rem /\ (forall r, par s r = r -> par s' r = r) /\ disp s' = disp s.
Proof.
  intros n c s s' rem [I B] H. destruct (complete_inv _ _ _ _ I H) as [I' Hroots].
  enough (BI n s' rem /\ disp s' = disp s) as [B' D] by (split; [split|split]; assumption).
  destruct (complete_ok _ _ _ _ I H) as [[_ ->]|(_ & _ & Hcn & f & _ & ->)]; [split; [exact B | reflexivity]|].
  split; [|rewrite refire_set_q; reflexivity]. apply refire_bi. apply (bi_announce n s _ rem (Unregistered c (par s c)) B); [reflexivity|].
  intros e A. unfold cut_state; proj. split.
  - apply qcount_enq. apply (i_rtlt I). exact Hcn.
  - destruct e; try discriminate; unfold gh; proj; rewrite ?cntp_cons; simpl; lia.
Qed.

Lemma emit_fx_wl : forall c R e x, wl (emit_fx c R e x) = wl x.
Proof. intros c R e x. destruct e; reflexivity. Qed.

Lemma with_fx_ok : forall r x s', with_fx r x = Ok s' -> exists s0, r = Ok s0 /\ s' = set_fx s0 x.
Proof. intros r x s' H. destruct r; try discriminate. inversion H. eexists. split; reflexivity. Qed.

Lemma lookup_fx : forall n r e s, fx (fst (lookup n r e s)) = fx s.
Proof. intros n r e s. rewrite lookup_fields. reflexivity. Qed.

(* the same preconditions for what a handler does, at the moment it does it; r = the root that is flushing *)
Definition act_pre (n : nat) (r : comp) (a : act) (s : st) : Prop :=
  match a with
  | AReg c p => c <> r /\ op_pre n (OReg c p) s
  | AUnreg c => op_pre n (OUnreg c) s
  | AFire x i => op_pre n (OFire x i) s
  end.

Fixpoint acts_pre (c0 : ctx) (n : nat) (r : comp) (l : list act) (s : st) : Prop :=
  match l with
  | [] => True
  | a :: t => act_pre n r a s /\ forall s', run_act c0 n r a s = Ok s' -> acts_pre c0 n r t s'
  end.

Fixpoint handlers_pre (c0 : ctx) (n : nat) (r : comp) (ms : list comp) (hs : list (comp * list act)) (s : st)
  : Prop :=
  match ms with
  | [] => True
  | x :: t => acts_pre c0 n r (acts_of x hs) s /\
              forall s', run_acts c0 n r (acts_of x hs) s = Ok s' -> handlers_pre c0 n r t hs s'
  end.

Definition ctx_of (r : comp) (tg : list nat) : ctx := match tg with [] => None | _ => Some (r, tg) end.

(* only receivers act, only on probe / registered / unregistered / prepare_unregister events, and what they
   do is allowed *)
Definition item_pre (n : nat) (r : comp) (it : item * list nat) (s : st) : Prop :=
  let e := fst (fst it) in let hs := snd (fst it) in
  hs_ok e (snd (lookup n r e s)) hs = true /\
  handlers_pre (ctx_of r (snd it)) n r (snd (lookup n r e s)) hs (fst (lookup n r e s)).

Fixpoint items_pre (n : nat) (r : comp) (sched : list (item * list nat)) (s : st) : Prop :=
  match sched with
  | [] => True
  | it :: t => item_pre n r it s /\ forall s', dispatch n r it s = Ok s' -> items_pre n r t s'
  end.

(* the state in which a flush starts dispatching: the batch has left the queue *)
Definition flush_start (r : comp) (s : st) : st :=
  set_fx (set_q s (upd (q s) r []))
         (mkfx (upd (qt (fx s)) r []) (nxt (fx s)) (out (fx s)) (wl (fx s))).

(* a flush dispatches its batch in some order *)
Definition flush_pre (n : nat) (r : comp) (sched : list item) (s : st) : Prop :=
  Permutation (map fst sched) (q s r) /\
  items_pre n r (attach sched (q s r) (qt (fx s) r)) (flush_start r s).

Fixpoint ticks_sched (n : nat) (r : comp) (scheds : list (list item)) (s : st) : Prop :=
  match scheds with
  | [] => True
  | sc :: t => match q s r with
               | [] => sc = [] /\ ticks_sched n r t s
               | _ => flush_pre n (rt s r) sc s /\
                      forall s', flush n (rt s r) sc s = Ok s' -> ticks_sched n r t s'
               end
  end.

Definition op_sched (n : nat) (o : op) (s : st) : Prop :=
  match o with
  | OTick r scheds => ticks_sched n r scheds s
  | OFlush x sched => flush_pre n (rt s x) sched s
  | _ => True
  end.

Fixpoint valid (n : nat) (h : list op) (s : st) : Prop :=
  match h with
  | [] => True
  | o :: t => op_pre n o s /\ op_sched n o s /\ forall s', step n o s = Ok s' -> valid n t s'
  end.

(* what is preserved for the root r whose flush is in progress *)
Definition keeps (r : comp) (s s' : st) : Prop :=
  par s' r = r /\ (forall y, rt s y = r -> rt s' y = r) /\ disp s' = disp s.

Lemma keeps_refl : forall r s, par s r = r -> keeps r s s.
Proof. intros r s H. split; [exact H | split; [intros y Hy; exact Hy | reflexivity]]. Qed.

Lemma keeps_trans : forall r s1 s2 s3, keeps r s1 s2 -> keeps r s2 s3 -> keeps r s1 s3.
Proof.
  intros r s1 s2 s3 [A1 [A2 A3]] [B1 [B2 B3]]. split; [exact B1|]. split.
  - intros y Hy. apply B2. apply A2. exact Hy.
  - rewrite B3. exact A3.
Qed.

Lemma register_keeps : forall n c p s s' r, Inv n s -> register n c p s = Ok s' -> c <> r -> par s r = r ->
  keeps r s s'.
Proof.
  intros n c p s s' r I R Ncr Hr.
  destruct (register_ok _ _ _ _ _ I R) as [_ [_ [Hdet _]]].
  destruct (move_connected _ _ _ _ _ I R) as [_ [_ [_ Hout]]].
  assert (Hnot : forall y, rt s y = r -> ~ desc (kid s) c y).
  { intros y Hy D. apply (subtree_reading I c y Hdet) in D. congruence. }
  split; [|split; [|exact (proj1 (proj2 (register_fields _ _ _ _ _ R)))]].
  - destruct (Hout r (Hnot r (i_self I r Hr))) as [_ E]. rewrite E. exact Hr.
  - intros y Hy. destruct (Hout y (Hnot y Hy)) as [E _]. rewrite E. exact Hy.
Qed.

(* a step that announces nothing and moves nothing (unregister, fire, settling the closures): both invariants go
   through with any rest of the batch, and the tree and the dispatch log stay *)
Definition neutral (n : nat) (s s' : st) : Prop :=
  (forall rem, GI n s rem -> GI n s' rem) /\ par s' = par s /\ rt s' = rt s /\ disp s' = disp s.

Lemma neutral_refl : forall n s, neutral n s s.
Proof. intros n s. split; [auto | repeat split]. Qed.

Lemma neutral_trans : forall n s1 s2 s3, neutral n s1 s2 -> neutral n s2 s3 -> neutral n s1 s3.
Proof.
  intros n s1 s2 s3 (A & A1 & A2 & A3) (B & B1 & B2 & B3).
  split; [auto | split; [congruence | split; congruence]].
Qed.

Lemma neutral_keeps : forall n r s s', neutral n s s' -> par s r = r -> keeps r s s'.
Proof. intros n r s s' (_ & E1 & E2 & E3) Hr. rewrite <- E1 in Hr. split; [exact Hr | split; [congruence | exact E3]]. Qed.

Lemma neutral_fx : forall n s x, neutral n s (set_fx s x).
Proof. intros n s x. split; [intros rem G; exact G | repeat split]. Qed.

Lemma neutral_enq : forall n s x e0, isann e0 = false -> neutral n s (enq x e0 s).
Proof.
  intros n s x e0 A. split; [|repeat split].
  intros rem [I B]. split; [exact I | apply bi_enq; assumption].
Qed.

Lemma unregister_spec : forall n c s, outcome (op_pre n (OUnreg c) s) (neutral n s) (unregister n c s).
Proof.
  intros n c s. unfold unregister. destruct (Nat.ltb_spec c n) as [L|L]; [|intros [H _]; lia].
  destruct (Nat.eqb_spec (par s c) c) as [E|E]; [intros [_ H]; exact (H E)|].
  cbn [andb negb]. destruct (pend s c); cbn [outcome]; (split; [exact (conj L E)|]); [apply neutral_refl|].
  split; [|repeat split]. intros rem [I B]. split; [|apply bi_enq; [exact B | reflexivity]].
  unfold Inv; proj. apply invF_mark; assumption.
Qed.

Lemma fire_spec : forall n x i s, outcome (op_pre n (OFire x i) s) (neutral n s) (fire n x i s).
Proof.
  intros n x i s. unfold fire. destruct (Nat.ltb_spec x n) as [L|L]; [|intro H; simpl in H; lia].
  split; [exact L | apply neutral_enq; reflexivity].
Qed.

(* what an operation of a handler does, from the forest invariant alone; the counting invariant and the
   flushing root come in only in the postcondition *)
Lemma act_step : forall c0 n r a s, Inv n s ->
  outcome (act_pre n r a s)
          (fun s' => forall rem, GI n s rem -> par s r = r -> GI n s' rem /\ keeps r s s') (run_act c0 n r a s).
Proof.
  intros c0 n r a s I. destruct a as [c p|c|x i]; cbn [run_act act_pre]; [destruct (Nat.eqb_spec c r) as [E|E]|..];
    [intros [N _]; exact (N E) | apply outcome_with_fx..].
  - apply (outcome_and (register_spec n c p s I)); [tauto|]. intros s' R rem G Hr.
    exact (conj (register_gi _ _ _ _ _ _ G R) (register_keeps _ _ _ _ _ r I R E Hr)).
  - apply (outcome_weaken (unregister_spec n c s) (iff_refl _)). intros s' U rem G Hr.
    exact (conj (proj1 U rem G) (neutral_keeps n r s s' U Hr)).
  - apply (outcome_weaken (fire_spec n x i s) (iff_refl _)). intros s' F rem G Hr.
    exact (conj (proj1 F rem G) (neutral_keeps n r s s' F Hr)).
Qed.

Lemma act_spec : forall c0 n r a s rem, GI n s rem -> par s r = r ->
  outcome (act_pre n r a s) (fun s' => GI n s' rem /\ keeps r s s') (run_act c0 n r a s).
Proof.
  intros c0 n r a s rem G Hr.
  exact (outcome_weaken (act_step c0 n r a s (proj1 G)) (iff_refl _) (fun s' H => H rem G Hr)).
Qed.

Lemma act_post : forall c0 n r a s rem, GI n s rem -> par s r = r ->
  post (fun s' => GI n s' rem /\ keeps r s s') (run_act c0 n r a s).
Proof. intros c0 n r a s rem G Hr. exact (outcome_post (act_spec c0 n r a s rem G Hr)). Qed.

Lemma act_good : forall c0 n r a s, Inv n s -> act_pre n r a s -> good (run_act c0 n r a s).
Proof. intros c0 n r a s I. exact (outcome_good (act_step c0 n r a s I)). Qed.

Lemma acts_spec : forall c0 n r l s rem, GI n s rem -> par s r = r ->
  outcome (acts_pre c0 n r l s) (fun s' => GI n s' rem /\ keeps r s s') (run_acts c0 n r l s).
Proof.
  intros c0 n r. induction l as [|a t IH]; intros s rem G Hr; cbn [run_acts acts_pre].
  - split; [exact Logic.I | split; [exact G | apply keeps_refl; exact Hr]].
  - apply (outcome_bind (acts_pre c0 n r t) _ (run_acts c0 n r t) (act_spec c0 n r a s rem G Hr)).
    intros s1 [G1 K1]. apply (outcome_weaken (IH s1 rem G1 (proj1 K1)) (iff_refl _)).
    intros s2 [G2 K2]. exact (conj G2 (keeps_trans _ _ _ _ K1 K2)).
Qed.

Lemma handlers_spec : forall c0 n r hs ms ok s rem, GI n s rem -> par s r = r ->
  (forall x, In x ms -> rt s x = r) ->
  outcome (handlers_pre c0 n r ms hs s)
          (fun so => GI n (fst so) rem /\ keeps r s (fst so) /\ snd so = ok) (run_handlers c0 n r ms hs ok s).
Proof.
  intros c0 n r hs. induction ms as [|x t IH]; intros ok s rem G Hr Hms; cbn [run_handlers handlers_pre].
  - split; [exact Logic.I | split; [exact G | split; [apply keeps_refl; exact Hr | reflexivity]]].
  - rewrite (Hms x (or_introl eq_refl)), Nat.eqb_refl, andb_true_r.
    apply (outcome_bind (handlers_pre c0 n r t hs) _ (run_handlers c0 n r t hs ok)
             (acts_spec c0 n r (acts_of x hs) s rem G Hr)).
    intros s1 [G1 K1].
    assert (Hms1 : forall y, In y t -> rt s1 y = r).
    { intros y Hy. apply (proj1 (proj2 K1)). apply Hms. right. exact Hy. }
    apply (outcome_weaken (IH ok s1 rem G1 (proj1 K1) Hms1) (iff_refl _)).
    intros so (G2 & K2 & E). exact (conj G2 (conj (keeps_trans _ _ _ _ K1 K2) E)).
Qed.

Lemma lookup_gi : forall n r e s rem, GI n s rem -> par s r = r ->
  let s1 := fst (lookup n r e s) in
  GI n s1 rem /\ par s1 r = r /\ (forall x, In x (snd (lookup n r e s)) -> rt s1 x = r) /\ disp s1 = disp s.
Proof.
  intros n r e s rem [I B] Hr. destruct (lookup_inv n r e s I Hr) as [I1 Hms].
  pose proof (lookup_fields n r e s) as F. cbv zeta in F |- *.
  split; [split; [exact I1 | rewrite F; exact B] | rewrite F; proj; auto].
Qed.

Lemma log_gi : forall n r e0 ms t s, GI n s (e0 :: t) -> GI n (set_disp s (mkd r e0 ms true :: disp s)) t.
Proof.
  intros n r e0 ms t s [I B]. split.
  - unfold Inv; proj. apply (invF_disp I). reflexivity.
  - intros e A. specialize (B e A). unfold tot, gh, dcount in *. proj. rewrite cnt_cons in B. simpl.
    destruct (ev_eqb e e0); simpl; lia.
Qed.

Lemma neutral_done : forall n s s' R c, neutral n s s' -> neutral n s (emitX None R (PrepDone c) s').
Proof.
  intros n s s' R c H. apply (neutral_trans _ _ _ _ H).
  exact (neutral_trans _ _ _ _ (neutral_enq n s' R (PrepDone c) eq_refl) (neutral_fx _ _ _)).
Qed.

Lemma finish_anc_neutral : forall n r tg s, neutral n s (finish_anc r tg s).
Proof.
  intros n r. induction tg as [|A t IH]; intro s; cbn [finish_anc]; cbv zeta; [apply neutral_refl|].
  apply (fun X => neutral_trans n s _ _ X (IH _)).
  destruct (wl_find A (wl (fx s))); [|apply neutral_refl].
  destruct (out (dec (fx s) A) A =? 0); [apply neutral_done, neutral_fx | apply neutral_fx].
Qed.

Lemma finish_neutral : forall n r e tg s, neutral n s (finish r e tg s).
Proof.
  intros n r e tg s. destruct e; try apply finish_anc_neutral.
  unfold finish. cbv zeta. destruct tg as [|B t]; [apply neutral_done, neutral_refl|].
  apply (fun X => neutral_trans n s _ _ X (finish_anc_neutral n r t _)).
  destruct (out (dec (fx s) B) B =? 0); [apply neutral_done, neutral_fx | apply neutral_fx].
Qed.

(* the dispatch log (newest first) after one item: one new record, of e at r; [dispN] below is the same for a batch *)
Definition disp1 (r : comp) (e : ev) (s s' : st) : Prop :=
  exists d, disp s' = d :: disp s /\ d_root d = r /\ d_ev d = e.

Lemma dispatch_spec : forall n r e0 hs tg t s, GI n s (e0 :: t) -> par s r = r ->
  outcome (item_pre n r ((e0, hs), tg) s)
          (fun s' => GI n s' t /\ par s' r = r /\ disp1 r e0 s s') (dispatch n r ((e0, hs), tg) s).
Proof.
  intros n r e0 hs tg t s G Hr. unfold dispatch, item_pre. cbn [fst snd].
  destruct (lookup_gi n r e0 s _ G Hr) as (G1 & Hr1 & Hms & D1).
  destruct (lookup n r e0 s) as [s1 ms]. cbn [fst snd] in *.
  destruct (hs_ok e0 ms hs); [|intros [X _]; discriminate]. cbv zeta. fold (ctx_of r tg).
  pose proof (handlers_spec (ctx_of r tg) n r hs ms true s1 _ G1 Hr1 Hms) as P.
  destruct (run_handlers (ctx_of r tg) n r ms hs true s1) as [[s1' ok]| | | |]; cbn [outcome] in P |- *; try tauto.
  cbn [fst snd] in P. destruct P as (V & G1' & (K1 & _ & K3) & ->).
  pose proof (log_gi n r e0 ms t s1' G1') as G2.
  set (s2 := set_disp s1' (mkd r e0 ms true :: disp s1')) in *.
  (* settling the closures is the last step, whatever came between *)
  assert (Fin : forall s3, GI n s3 t -> par s3 r = r -> disp s3 = disp s2 ->
                (true = true /\ handlers_pre (ctx_of r tg) n r ms hs s1) /\
                GI n (finish r e0 tg s3) t /\ par (finish r e0 tg s3) r = r /\ disp1 r e0 s (finish r e0 tg s3)).
  { intros s3 G3 Hr3 D3. destruct (finish_neutral n r e0 tg s3) as (F & F1 & _ & F3).
    split; [exact (conj eq_refl V)|]. split; [exact (F t G3) | split; [rewrite F1; exact Hr3|]].
    exists (mkd r e0 ms true). rewrite F3, D3. unfold s2; proj. rewrite K3, D1. repeat split. }
  change (par s2 r = r) in K1. clearbody s2.
  destruct e0 as [i|a b|a b|a|a|]; try (apply Fin; [assumption | assumption | reflexivity]).
  destruct (existsb (Nat.eqb a) ms); [|apply Fin; [assumption | assumption | reflexivity]].
  (* prepare_unregister_complete(a), a still listed *)
  unfold completeX. destruct (complete_spec n a s2 (proj1 G2)) as (s0 & Hs0 & _). rewrite Hs0. cbn [with_fx].
  destruct (complete_gi _ _ _ _ _ G2 Hs0) as (G0 & Hroots & Dd).
  apply Fin; [exact G0 | exact (Hroots r K1) | exact Dd].
Qed.

(* the events of a batch with its tags attached, in dispatch order: the rest that [GI] is stated with *)
Definition evs_of (l : list (item * list nat)) : list ev := map (fun x => fst (fst x)) l.

Lemma attach_evs : forall sched bev btg, evs_of (attach sched bev btg) = map fst sched.
Proof.
  induction sched as [|it t IH]; intros bev btg; [reflexivity|].
  cbn [attach]. destruct (take_tags (fst it) bev btg) as [g [bev' btg']].
  unfold evs_of in *. simpl. rewrite IH. reflexivity.
Qed.

Definition dispN (r : comp) (evs : list ev) (s s' : st) : Prop :=
  exists ds, disp s' = ds ++ disp s /\ map d_ev (rev ds) = evs /\ (forall d, In d ds -> d_root d = r).

Lemma dispatch_all_spec : forall n r sched s, GI n s (evs_of sched) -> par s r = r ->
  outcome (items_pre n r sched s)
          (fun s' => GI n s' [] /\ par s' r = r /\ dispN r (evs_of sched) s s') (dispatch_all n r sched s).
Proof.
  intros n r. induction sched as [|[[e0 hs] tg] t IH]; intros s G Hr;
    unfold evs_of in *; cbn [dispatch_all items_pre map fst] in G |- *.
  - split; [exact Logic.I | split; [exact G | split; [exact Hr|]]]. exists [].
    split; [reflexivity | split; [reflexivity | intros d []]].
  - apply (outcome_bind (items_pre n r t) _ (dispatch_all n r t) (dispatch_spec n r e0 hs tg _ s G Hr)).
    intros s1 (G1 & Hr1 & d & E1 & E2 & E3). apply (outcome_weaken (IH s1 G1 Hr1) (iff_refl _)).
    intros s2 (G2 & Hr2 & ds & F1 & F2 & F3). split; [exact G2 | split; [exact Hr2|]].
    exists (ds ++ [d]). split; [|split].
    + rewrite F1, E1, <- app_assoc. reflexivity.
    + rewrite rev_app_distr. simpl. rewrite E3, F2. reflexivity.
    + intros d' Hin. apply in_app_or in Hin. destruct Hin as [Hin|[<-|[]]]; [apply F3; exact Hin | exact E2].
Qed.

Lemma ev_eqb_eq : forall a b, ev_eqb a b = true <-> a = b.
Proof.
  intros a b. split.
  - destruct a, b; simpl; intro H; try discriminate; try reflexivity;
      try (apply andb_prop in H; destruct H as [H1 H2]; apply Nat.eqb_eq in H1; apply Nat.eqb_eq in H2; subst; reflexivity);
      apply Nat.eqb_eq in H; subst; reflexivity.
  - intros ->. destruct b; simpl; rewrite ?Nat.eqb_refl; reflexivity.
Qed.

Lemma remove1_perm : forall e l l', remove1 e l = Some l' -> Permutation l (e :: l').
Proof.
  intros e. induction l as [|x t IH]; intros l' H; [discriminate|]. simpl in H.
  destruct (ev_eqb e x) eqn:E.
  - apply ev_eqb_eq in E. inversion H; subst. apply Permutation_refl.
  - destruct (remove1 e t) as [t'|] eqn:R; [|discriminate]. inversion H; subst.
    eapply perm_trans; [apply perm_skip; apply IH; reflexivity | apply perm_swap].
Qed.

Lemma is_perm_perm : forall sched batch, is_perm sched batch = true -> Permutation sched batch.
Proof.
  induction sched as [|e t IH]; intros batch H; simpl in H.
  - destruct batch; [apply perm_nil | discriminate].
  - destruct (remove1 e batch) as [b|] eqn:R; [|discriminate].
    eapply perm_trans; [apply perm_skip; apply IH; exact H|].
    apply Permutation_sym. apply remove1_perm. exact R.
Qed.

Lemma remove1_in : forall e l, In e l -> exists l', remove1 e l = Some l'.
Proof.
  intros e. induction l as [|x t IH]; intro H; [contradiction|]. simpl.
  destruct (ev_eqb e x) eqn:E; [eexists; reflexivity|].
  destruct H as [->|H]; [rewrite (proj2 (ev_eqb_eq e e) eq_refl) in E; discriminate|].
  destruct (IH H) as [t' ->]. eexists; reflexivity.
Qed.

Lemma perm_is_perm : forall sched batch, Permutation sched batch -> is_perm sched batch = true.
Proof.
  induction sched as [|e t IH]; intros batch H; simpl.
  - apply Permutation_nil in H. subst. reflexivity.
  - assert (Hin : In e batch) by (eapply Permutation_in; [exact H | left; reflexivity]).
    destruct (remove1_in _ _ Hin) as [b R]. rewrite R. apply IH.
    apply remove1_perm in R. eapply Permutation_cons_inv. eapply perm_trans; [exact H | exact R].
Qed.

Lemma flush_start_gi : forall n r s evs, GI n s [] -> r < n -> Permutation evs (q s r) -> GI n (flush_start r s) evs.
Proof.
  intros n r s evs [I B] Hrn P. split; [exact I|].
  intros e A. specialize (B e A). unfold tot, gh, flush_start in *. proj. rewrite cnt_nil in B.
  rewrite (cnt_perm _ _ _ P). pose proof (qcount_upd n e (q s) r [] Hrn) as E1. rewrite cnt_nil in E1. lia.
Qed.

Lemma flush_spec : forall n r sched s, GI n s [] -> par s r = r -> r < n ->
  outcome (flush_pre n r sched s)
          (fun s' => GI n s' [] /\ dispN r (map fst sched) s s') (flush n r sched s).
Proof.
  intros n r sched s G Hr Hrn. unfold flush, flush_pre.
  destruct (is_perm (map fst sched) (q s r)) eqn:P.
  - apply is_perm_perm in P. cbv zeta. fold (flush_start r s).
    pose proof (flush_start_gi n r s (map fst sched) G Hrn P) as G0.
    rewrite <- (attach_evs sched (q s r) (qt (fx s) r)) in G0.
    apply (outcome_weaken (dispatch_all_spec n r _ (flush_start r s) G0 Hr)); [tauto|].
    intros s' (G' & _ & D). rewrite attach_evs in D. exact (conj G' D).
  - intros [Pm _]. rewrite (perm_is_perm _ _ Pm) in P. discriminate.
Qed.

Lemma ticks_spec : forall n r scheds s, GI n s [] -> r < n ->
  outcome (ticks_sched n r scheds s) (fun s' => GI n s' []) (ticks n r scheds s).
Proof.
  intros n r. induction scheds as [|sc t IH]; intros s G Hr; cbn [ticks ticks_sched]; [exact (conj Logic.I G)|].
  unfold tick1. destruct (q s r) eqn:Q.
  - destruct sc; [|intros [X _]; discriminate].
    apply (outcome_weaken (IH s G Hr)); [tauto | auto].
  - apply (outcome_bind (ticks_sched n r t) _ (ticks n r t)
             (flush_spec n (rt s r) sc s G (i_rtroot (proj1 G) r) (i_rtlt (proj1 G) r Hr))).
    intros s1 P. exact (IH s1 (proj1 P) Hr).
Qed.

Lemma step_spec : forall n o s, GI n s [] ->
  outcome (op_pre n o s /\ op_sched n o s) (fun s' => GI n s' []) (step n o s).
Proof.
  intros n o s G. destruct o as [c p|c|x i|r scheds|x sched]; cbn [step op_sched].
  - apply outcome_with_fx, (outcome_and (register_spec n c p s (proj1 G))); [tauto|].
    intros s' R. exact (register_gi _ _ _ _ _ _ G R).
  - exact (outcome_with_fx _ _ _ _ (outcome_weaken (unregister_spec n c s) (conj (fun v => conj v Logic.I) (@proj1 _ _))
                                      (fun s' U => proj1 U [] G))).
  - exact (outcome_with_fx _ _ _ _ (outcome_weaken (fire_spec n x i s) (conj (fun v => conj v Logic.I) (@proj1 _ _))
                                      (fun s' F => proj1 F [] G))).
  - unfold op_pre. destruct (Nat.ltb_spec r n) as [L|L]; [|intros [[H _] _]; lia].
    destruct (Nat.eqb_spec (par s r) r) as [E|E]; [|intros [[_ H] _]; exact (E H)].
    apply (outcome_weaken (ticks_spec n r scheds s G L)); [tauto | auto].
  - unfold op_pre. destruct (Nat.ltb_spec x n) as [L|L]; [|intros [H _]; lia].
    apply (outcome_weaken (flush_spec n (rt s x) sched s G (i_rtroot (proj1 G) x) (i_rtlt (proj1 G) x L)));
      [tauto | intros s' H; exact (proj1 H)].
Qed.

Lemma step_good : forall n o s, GI n s [] -> op_pre n o s -> op_sched n o s -> good (step n o s).
Proof. intros n o s G Pre Sch. exact (outcome_good (step_spec n o s G) (conj Pre Sch)). Qed.

Lemma run_spec : forall n h s, GI n s [] -> outcome (valid n h s) (fun s' => GI n s' []) (run n h s).
Proof.
  intros n. induction h as [|o t IH]; intros s G; cbn [run valid]; [exact (conj Logic.I G)|].
  apply (outcome_weaken (outcome_bind (valid n t) _ (run n t) (step_spec n o s G) IH)); [tauto | auto].
Qed.

Lemma run_post : forall n h s, GI n s [] -> post (fun s' => GI n s' []) (run n h s).
Proof. intros n h s G. exact (outcome_post (run_spec n h s G)). Qed.

Lemma gi_init : forall n, GI n init [].
Proof.
  intro n. split; [apply inv_init|].
  intros e A. unfold tot, gh. change (q init) with (fun _ : comp => @nil ev).
  rewrite qcount_empty, cnt_nil. destruct e; reflexivity.
Qed.

Lemma run_gi : forall n h s, run n h init = Ok s -> GI n s [].
Proof. intros n h s R. pose proof (run_post n h init (gi_init n)) as P. rewrite R in P. exact P. Qed.

Lemma run_inv : forall n h s, run n h init = Ok s -> Inv n s.
Proof. intros n h s R. exact (proj1 (run_gi _ _ _ R)). Qed.

(* registered(c,p) events queued or dispatched = completed registrations (c,p) (the ghost list regd is
   extended by register and by nothing else: register_fields); likewise unregistered / unregd *)
Lemma run_announce : forall n h s e, run n h init = Ok s -> isann e = true ->
  qcount n (q s) e + dcount (disp s) e = gh s e.
Proof.
  intros n h s e R A. destruct (run_gi _ _ _ R) as [_ B]. specialize (B e A).
  rewrite cnt_nil, Nat.add_0_r in B. exact B.
Qed.

(* every history whose operations - those of the history and those performed by handlers - satisfy the
   preconditions when they run, under every schedule, runs to Ok *)
Lemma run_ok : forall n h, valid n h init -> exists s, run n h init = Ok s.
Proof.
  intros n h V. destruct (outcome_ok (run_spec n h init (gi_init n)) V) as [s [R _]]. exists s. exact R.
Qed.

Lemma valid_app : forall n h o s0, valid n (h ++ [o]) s0 ->
  valid n h s0 /\ forall s, run n h s0 = Ok s -> op_pre n o s /\ op_sched n o s.
Proof.
  intros n. induction h as [|a t IH]; intros o s0 V.
  - simpl in V. destruct V as [P [S _]]. split; [exact Logic.I|].
    intros s R. simpl in R. inversion R; subst. split; assumption.
  - simpl in V. destruct V as [P [S V]]. split.
    + simpl. split; [exact P | split; [exact S|]]. intros s' St. exact (proj1 (IH o s' (V s' St))).
    + intros s R. simpl in R. destruct (step n a s0) as [s1| | | |] eqn:St; try discriminate.
      exact (proj2 (IH o s1 (V s1 eq_refl)) s R).
Qed.

(* with run_ok: valid is exactly what the model accepts *)
Lemma run_valid : forall n h s s', GI n s [] -> run n h s = Ok s' -> valid n h s.
Proof. intros n h s s' G R. exact (proj1 (outcome_inv (run_spec n h s G) R)). Qed.

(* a detaching component restarts the pending unregistrations of the members of its subtree
   (fixes/C07_nested_unregister_completes.patch) *)
Lemma detach_restarts : forall n c s s', Inv n s -> pend s c = true -> complete n c s = Ok s' ->
  forall d, desc (kid s') c d -> pend s' d = true ->
  rt s' d = c /\ In (PrepUnreg d) (q s' (rt s' d)).
Proof.
  intros n c s s' I Hp H d D Pd.
  destruct (detach_connected _ _ _ _ I Hp H) as [_ [Pc [_ [Hin _]]]].
  assert (Nd : d <> c) by congruence.
  destruct (complete_ok _ _ _ _ I H) as [[Hp' _]|(_ & Hatt & Hcn & f & _ & E)]; [congruence|].
  rewrite E, refire_set_q in D, Pd. unfold cut_state in D, Pd. proj.
  rewrite upd_other in Pd by exact Nd.
  destruct (Hin d (proj1 (desc_upd2 _ _ _ _ _) D)) as [Hr _]. split; [exact Hr|]. rewrite Hr.
  rewrite E, refire_q. apply in_or_app. right. apply in_map.
  unfold refire_list. rewrite (proj2 (Nat.eqb_neq _ _) Hatt). apply filter_In. split.
  - apply members_complete; [apply upd2_lt; [exact (i_kidlt I) | exact Hcn] | | exact Hcn | exact D].
    exact (link_rank (cut_links n s c I) (cut_rank n s c I)).
  - rewrite (proj2 (Nat.eqb_neq _ _) Nd), Pd. reflexivity.
Qed.
