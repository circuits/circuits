(* The line splitter, through a description of a byte stream that does not mention it:
   every stream is  line_1 t_1 ... line_n t_n tail  (t_i in {LF, CRLF}) in a well-formed
   way, and [resplit] returns the lines and the tail of any such description (so these are
   unique).
   Segmentation invariance is an equation, by the streaming law of [resplit]: reading chunk
   after chunk is one scan of the whole stream.  Exactness and conservation are read off it
   through the description of the whole stream; socket isolation is a projection. *)
From Coq Require Import List NArith Arith.
From Circ Require Import Model.Line.
Import ListNotations.
Open Scope N_scope.

Definition noLF (l : list N) := Forall (fun c => (c =? LF) = false) l.
Definition held (buf : list N) := noLF buf.

Lemma pieces_noLF_app x : noLF x -> forall cur s, pieces cur (x ++ s) = pieces (rev x ++ cur) s.
Proof.
  induction 1 as [|c x Hc Hx IH]; intros cur s; [reflexivity|].
  cbn [app pieces rev]. rewrite Hc, IH, <- app_assoc. reflexivity.
Qed.

Lemma resplit_line l s : noLF l -> resplit (l ++ LF :: s) = strip_cr l :: resplit s.
Proof.
  intros H. unfold resplit. rewrite (pieces_noLF_app l H), app_nil_r. cbn [pieces].
  rewrite N.eqb_refl, rev_involutive. reflexivity.
Qed.

Lemma resplit_noLF buf : noLF buf -> resplit buf = [buf].
Proof.
  intros H. unfold resplit. rewrite <- (app_nil_r buf) at 1.
  rewrite (pieces_noLF_app buf H), app_nil_r. cbn [pieces]. now rewrite rev_involutive.
Qed.

Definition ends_cr (l : list N) := exists l', l = l' ++ [CR].

Lemma ends_cr_cons c l : ends_cr (c :: l) <-> (c = CR /\ l = []) \/ ends_cr l.
Proof.
  split.
  - intros [[|x l'] [= -> E]]; [now left|right]. subst l. now exists l'.
  - intros [[-> ->]|[l' ->]]; [now exists []|now exists (c :: l')].
Qed.

Lemma not_ends_cr_nil : ~ ends_cr [].
Proof. intros [[|x l'] [=]]. Qed.

Lemma strip_cr_app_cr l : strip_cr (l ++ [CR]) = l.
Proof.
  induction l as [|c t IH]; [reflexivity|].
  cbn [app]. destruct t; cbn [app strip_cr] in *; [reflexivity|]. now rewrite IH.
Qed.

Lemma strip_cr_id l : ~ ends_cr l -> strip_cr l = l.
Proof.
  induction l as [|c t IH]; intros H; [reflexivity|].
  rewrite ends_cr_cons in H. destruct t as [|d t'].
  - cbn. destruct (N.eqb_spec c CR); [|reflexivity]. exfalso. now apply H; left.
  - change (strip_cr (c :: d :: t')) with (c :: strip_cr (d :: t')). f_equal. apply IH.
    intros E. now apply H; right.
Qed.

Fixpoint join_lines (ls : list (list N * bool)) (tail : list N) : list N :=
  match ls with
  | [] => tail
  | (l, crlf) :: r => l ++ (if crlf then [CR; LF] else [LF]) ++ join_lines r tail
  end.

(* well-formed description of a stream: no LF inside lines or tail; an
   LF-terminated line does not end in CR (otherwise it is a CRLF line) *)
Fixpoint wf_lines (ls : list (list N * bool)) : Prop :=
  match ls with
  | [] => True
  | (l, crlf) :: r => noLF l /\ (crlf = false -> ~ ends_cr l) /\ wf_lines r
  end.

Lemma join_lines_app ls ls' t : join_lines (ls ++ ls') t = join_lines ls (join_lines ls' t).
Proof. induction ls as [|[l crlf] r IH]; [reflexivity|]. cbn [app join_lines]. now rewrite IH. Qed.

Lemma join_lines_tail ls t b : join_lines ls (t ++ b) = join_lines ls t ++ b.
Proof.
  induction ls as [|[l crlf] r IH]; [reflexivity|]. cbn [join_lines]. now rewrite IH, !app_assoc.
Qed.

Lemma wf_lines_app ls ls' : wf_lines ls -> wf_lines ls' -> wf_lines (ls ++ ls').
Proof. induction ls as [|[l crlf] r IH]; [easy|]. cbn [app wf_lines]. intuition. Qed.

Lemma resplit_join ls s : wf_lines ls -> resplit (join_lines ls s) = map fst ls ++ resplit s.
Proof.
  induction ls as [|[l crlf] r IH]; intros W; [reflexivity|].
  destruct W as (Hl & Hc & Hr). cbn [join_lines map fst app]. rewrite <- (IH Hr).
  destruct crlf; cbn [app].
  - change (l ++ CR :: LF :: ?x) with (l ++ [CR] ++ LF :: x).
    rewrite app_assoc, resplit_line, strip_cr_app_cr; [reflexivity|].
    apply Forall_app; split; [exact Hl|]. now constructor.
  - rewrite (resplit_line l _ Hl), strip_cr_id by now apply Hc. reflexivity.
Qed.

Lemma resplit_description ls tail : wf_lines ls -> noLF tail ->
  resplit (join_lines ls tail) = map fst ls ++ [tail].
Proof. intros W T. now rewrite resplit_join, resplit_noLF. Qed.

(* every stream has a description: put one more byte in front of one *)
Theorem stream_decomposes (s : list N) :
  exists ls tail, wf_lines ls /\ noLF tail /\ s = join_lines ls tail.
Proof.
  induction s as [|c s (ls & tail & W & T & ->)]; [exists [], []; repeat constructor|].
  destruct (c =? LF) eqn:EL.
  { apply N.eqb_eq in EL as ->. exists (([], false) :: ls), tail.
    cbn [wf_lines]. repeat split; auto using not_ends_cr_nil. constructor. }
  destruct ls as [|[l crlf] r].
  { exists [], (c :: tail). repeat split. now constructor. }
  destruct W as (Hl & Hc & Hr).
  assert (Hcl : noLF (c :: l)) by now constructor.
  destruct crlf.
  { exists ((c :: l, true) :: r), tail. cbn [wf_lines]. easy. }
  (* an LF line: c joins it, unless the line is empty and c is the CR of a CRLF *)
  destruct l as [|d l']; [destruct (N.eqb_spec c CR) as [->|NC]|].
  - exists (([], true) :: r), tail. cbn [wf_lines]. easy.
  - exists (([c], false) :: r), tail. cbn [wf_lines]. repeat split; trivial.
    intros _. rewrite ends_cr_cons. intros [[E _]|E]; [easy|]. now apply not_ends_cr_nil in E.
  - exists ((c :: d :: l', false) :: r), tail. cbn [wf_lines]. repeat split; trivial.
    intros _. rewrite ends_cr_cons. intros [[_ [=]]|E]. now apply Hc.
Qed.

(* the streaming law: scanning a ++ b equals scanning a, keeping its last
   (unterminated) piece, and re-scanning that piece followed by b *)
Lemma resplit_app a b :
  resplit (a ++ b) = removelast (resplit a) ++ resplit (last (resplit a) [] ++ b).
Proof.
  destruct (stream_decomposes a) as (ls & t & W & T & ->).
  rewrite <- join_lines_tail, resplit_join, resplit_description, removelast_last, last_last; trivial.
Qed.

Lemma last_resplit_held s : held (last (resplit s) []).
Proof. destruct (stream_decomposes s) as (ls & t & W & T & ->). now rewrite resplit_description, last_last. Qed.

(* segmentation does not matter: reading chunk after chunk from a held buffer is one scan of
   the buffer followed by all the bytes.  By the streaming law the scan of what the first read
   holds back followed by the later chunks is the second part of an append; it is written as the
   lines and tail of a description, so that [removelast] and [last] of the append compute. *)
Lemma run_split cs : forall buf, held buf -> run buf cs = split_lines (concat cs) buf.
Proof.
  induction cs as [|d ds IH]; intros buf H; cbn [run concat]; unfold feed, split_lines.
  - now rewrite app_nil_r, resplit_noLF.
  - rewrite (IH _ (last_resplit_held _)). unfold split_lines.
    rewrite app_assoc, (resplit_app (buf ++ d)).
    destruct (stream_decomposes (last (resplit (buf ++ d)) [] ++ concat ds)) as (ls & t & W & T & ->).
    now rewrite resplit_description, app_assoc, !removelast_last, !last_last.
Qed.

Theorem lines_segmentation chunks :
  run [] chunks = (removelast (resplit (concat chunks)), last (resplit (concat chunks)) []).
Proof. apply (run_split chunks []). constructor. Qed.

(* conservation: for every cut of every stream, the emitted lines (with the
   terminator each one had) followed by the held tail are the bytes received *)
Theorem lines_conserve (chunks : list (list N)) :
  exists ls tail, wf_lines ls /\ noLF tail /\
    run [] chunks = (map fst ls, tail) /\ concat chunks = join_lines ls tail.
Proof.
  destruct (stream_decomposes (concat chunks)) as (ls & t & W & T & E). exists ls, t.
  now rewrite lines_segmentation, E, resplit_description, removelast_last, last_last.
Qed.

Theorem lines_exact ls tail chunks : wf_lines ls -> noLF tail ->
  concat chunks = join_lines ls tail ->
  run [] chunks = (map fst ls, tail).
Proof.
  intros W T E. now rewrite lines_segmentation, E, resplit_description, removelast_last, last_last.
Qed.

Lemma tail_held chunks : held (snd (run [] chunks)).
Proof. rewrite lines_segmentation. apply last_resplit_held. Qed.

Definition proj (k : nat) (evs : list (nat * list N)) : list (list N) :=
  map snd (filter (fun e => Nat.eqb (fst e) k) evs).
Definition projl (k : nat) (out : list (nat * list N)) : list (list N) :=
  map snd (filter (fun e => Nat.eqb (fst e) k) out).

Lemma projl_app k a b : projl k (a ++ b) = projl k a ++ projl k b.
Proof. unfold projl. now rewrite filter_app, map_app. Qed.

Lemma projl_tagged k j (ls : list (list N)) :
  projl k (map (fun l => (j, l)) ls) = if Nat.eqb j k then ls else [].
Proof.
  unfold projl. induction ls as [|l r IH]; cbn [map filter fst]; [now destruct (Nat.eqb j k)|].
  destruct (Nat.eqb j k); cbn [map snd]; now rewrite IH.
Qed.

Lemma proj_cons k j d r :
  proj k ((j, d) :: r) = if Nat.eqb j k then d :: proj k r else proj k r.
Proof. unfold proj. cbn [filter fst]. now destruct (Nat.eqb j k). Qed.

Lemma run_srv_proj k evs : forall m,
  (projl k (fst (run_srv m evs)), snd (run_srv m evs) k) = run (m k) (proj k evs).
Proof.
  induction evs as [|[j d] r IH]; intros m; [reflexivity|].
  cbn [run_srv]. unfold feed_srv.
  destruct (split_lines d (m j)) as [ls b] eqn:S.
  specialize (IH (upd m j b)). destruct (run_srv (upd m j b) r) as [ls' m2].
  cbn [fst snd] in *. rewrite projl_app, projl_tagged, proj_cons.
  unfold upd in IH. rewrite (Nat.eqb_sym k j) in IH. revert IH.
  destruct (Nat.eqb_spec j k) as [->|_]; intros IH; [|exact IH].
  cbn [run]. unfold feed. now rewrite S, <- IH.
Qed.

Theorem server_isolation k evs :
  (projl k (fst (run_srv empty_bufs evs)), snd (run_srv empty_bufs evs) k) = run [] (proj k evs).
Proof. apply (run_srv_proj k evs empty_bufs). Qed.

Corollary server_run k evs ls t : run [] (proj k evs) = (ls, t) ->
  projl k (fst (run_srv empty_bufs evs)) = ls /\ snd (run_srv empty_bufs evs) k = t.
Proof. intros R. pose proof (server_isolation k evs) as S. rewrite R in S. now injection S. Qed.
