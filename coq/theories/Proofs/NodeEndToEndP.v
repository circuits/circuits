(* C19: composition of the per-packet / per-party results into one statement about the two-party system
   (Model/NodeProto.v: exec over schedules) for every honest schedule with arbitrary chunking. *)
From Coq Require Import List ZArith Lia Permutation.
From Circ Require Import Lib.ListFacts Model.NodeProto Proofs.NodeProtoP.
Import ListNotations.

Definition DELIM : list N := [TILDE; TILDE; TILDE].
Definition isobj (j : json) : Prop := match j with JObj _ => True | _ => False end.

(* what is assumed about json.dumps / json.loads (the same laws as the premises of C19_framing, for the
   texts of JSON objects): [ser] is the text json.dumps returns *)
Record json_laws (dumps : json -> option (list N)) (loads : list N -> option (option json))
                 (ser : json -> list N) : Prop := {
  L_dumps : forall j, dumps j = Some (ser j);
  L_rt : forall j, isobj j -> loads (escape (ser j)) = Some (Some j);
  L_pre : forall j q r, isobj j -> escape (ser j) = q ++ r -> r <> [] -> loads q = Some None;
  L_ext : forall j t t', isobj j -> DELIM = t ++ t' -> t <> [] -> t' <> [] ->
                         loads (escape (ser j) ++ t) = Some None;
  L_del : forall t t', DELIM = t ++ t' -> t' <> [] -> loads t = Some None
}.

Section E2E.
  Variable excl : list (list N).
  Variable dumps : json -> option (list N).
  Variable loads : list N -> option (option json).
  Variables fw_send fw_recv : event -> bool.
  Variable handler : event -> hres.
  Variable b_chan : json.
  Variable ser : json -> list N.
  Hypothesis laws : json_laws dumps loads ser.

  Definition enc (j : json) : list N := escape (ser j).
  Notation prs := (parse loads).
  Notation FInv := (Inv json prs enc TILDE [TILDE; TILDE] isobj).
  Notation frm := (frames json DELIM enc).

  Lemma P_rt : forall p, isobj p -> prs (enc p) = Some p.
  Proof. intros p H. unfold parse, enc. rewrite (L_rt _ _ _ laws p H). reflexivity. Qed.
  Lemma P_clean : forall p, isobj p -> ~ In TILDE (enc p).
  Proof. intros p _. apply escape_no_tilde. Qed.
  Lemma P_pre : forall p q r, isobj p -> enc p = q ++ r -> r <> [] -> prs q = None.
  Proof. intros p q r H H1 H2. unfold parse. rewrite (L_pre _ _ _ laws p q r H H1 H2). reflexivity. Qed.
  Lemma P_ext : forall p t t', isobj p -> TILDE :: [TILDE; TILDE] = t ++ t' -> t <> [] -> t' <> [] ->
    prs (enc p ++ t) = None.
  Proof. intros p t t' H H1 H2 H3. unfold parse, enc. rewrite (L_ext _ _ _ laws p t t' H H1 H2 H3). reflexivity. Qed.
  Lemma P_del : forall t t', TILDE :: [TILDE; TILDE] = t ++ t' -> t' <> [] -> prs t = None.
  Proof. intros t t' H1 H2. unfold parse. rewrite (L_del _ _ _ laws t t' H1 H2). reflexivity. Qed.

  (* a wire and the reader's buffer behind it, seen as the list [l] of packets [f x] still to come out:
     what a write, a read of any size, and the exhaustion of the wire do to that list *)
  Lemma wire_write : forall (A : Type) (f : A -> json), (forall a, isobj (f a)) ->
    forall buf rest l ps, FInv buf rest (map f l) -> FInv buf (rest ++ frm (map f ps)) (map f (l ++ ps)).
  Proof.
    intros A f Hobj buf rest l ps H. rewrite map_app.
    apply (Inv_extend json prs enc TILDE [TILDE; TILDE] isobj P_rt); [|exact H].
    apply Forall_forall. intros x Hx. apply in_map_iff in Hx. destruct Hx as [a [<- _]]. apply Hobj.
  Qed.

  Lemma wire_read : forall (A : Type) (f : A -> json) buf d rest l, FInv buf (d ++ rest) (map f l) ->
    exists la lb buf', l = la ++ lb /\ feed json prs DELIM buf d = (map f la, buf') /\ FInv buf' rest (map f lb).
  Proof.
    intros A f buf d rest l H.
    destruct (step_inv json prs enc TILDE [TILDE; TILDE] isobj P_rt P_clean P_pre P_ext P_del _ _ _ _ H)
      as (out & buf' & exp' & Hfeed & Hsplit & Hinv).
    apply map_eq_app in Hsplit. destruct Hsplit as (la & lb & -> & <- & <-). exists la, lb, buf'. auto.
  Qed.

  Lemma wire_end : forall (A : Type) (f : A -> json) buf l, FInv buf [] (map f l) -> buf = [] /\ l = [].
  Proof.
    intros A f buf l H. destruct (Inv_end json prs enc TILDE [TILDE; TILDE] isobj _ _ H) as [-> Hl].
    apply map_eq_nil in Hl. auto.
  Qed.

  Lemma packet_eq : forall j, packet dumps DELIM j = Some (enc j ++ DELIM).
  Proof. intros j. unfold packet. rewrite (L_dumps _ _ _ laws j). reflexivity. Qed.

  Definition ev1 (e : event) : event :=      (* the event load_event builds from dump_event e *)
    {| ename := ename e; eargs := eargs e; ekwargs := ekwargs e; esuccess := esuccess e;
       efailure := efailure e; enotify := enotify e; echannels := echannels e;
       eattrs := apply_meta excl (dump_meta_ev excl e) [] |}.
  Definition ev2 (e : event) : event :=      (* the event that is dispatched *)
    {| ename := ename e; eargs := eargs e; ekwargs := ekwargs e; esuccess := true;
       efailure := efailure e; enotify := enotify e;
       echannels := match echannels e with [] => [b_chan] | l => l end;
       eattrs := apply_meta excl (dump_meta_ev excl e) [] |}.
  (* what the peer answers: class of the answer (order on the wire within one read), value, error flag *)
  Definition kind (e : event) : nat :=
    if fw_recv (ev1 e) then match handler (ev2 e) with HRaise true | HValLate _ => 3 | HRaise false => 2 | _ => 1 end else 0.
  Definition oval (e : event) : json :=
    if fw_recv (ev1 e) then match handler (ev2 e) with HVal r | HValLate r => r | HRaise _ => JERR | HNone => JNull end
    else JNull.
  Definition oerr (e : event) : bool :=
    if fw_recv (ev1 e) then match handler (ev2 e) with HRaise _ => true | _ => false end else false.
  Definition logof (e : event) : list event :=
    if fw_recv (ev1 e) then match handler (ev2 e) with HNone => [] | _ => [ev2 e] end else [].
  Definition cpkt (j : nat) (e : event) : json := event_data excl e (JInt (Z.of_nat j)).
  Definition rpkt (j : nat) (e : event) : json :=
    value_data excl (JInt (Z.of_nat j)) (JBool (oerr e)) (oval e) (ev1 e).

  Notation bpacket := (b_packet excl dumps DELIM fw_recv handler b_chan).
  Notation bpackets := (b_packets excl dumps DELIM fw_recv handler b_chan).

  Lemma b_packet_honest : forall j e, wf_event e ->
    bpacket (cpkt j e) = (logof e, [(kind e, enc (rpkt j e) ++ DELIM)], false, false).
  Proof.
    intros j e Hwf. unfold NodeProto.b_packet, cpkt.
    change (is_miss (event_data excl e (JInt (Z.of_nat j)))) with false. cbv iota.
    change (is_value (event_data excl e (JInt (Z.of_nat j)))) with (@None (list (list N * json))).
    cbv iota. rewrite (serial excl e _ Hwf). fold (ev1 e).
    unfold logof, kind, rpkt, oval, oerr.
    destruct (fw_recv (ev1 e)) eqn:Hf.
    - fold (accepted b_chan (ev1 e)). change (accepted b_chan (ev1 e)) with (ev2 e).
      cbv zeta. cbn [no_reply]. rewrite packet_eq.
      destruct (handler (ev2 e)) as [|r|r|[|]]; reflexivity.
    - rewrite packet_eq. reflexivity.
  Qed.

  (* a call is kept as the pair (id, event): the packet A writes for it, the packet B answers it with, its id *)
  Definition cp (je : nat * event) : json := cpkt (fst je) (snd je).
  Definition rp (je : nat * event) : json := rpkt (fst je) (snd je).
  Definition rid (x : nat * event) : nat := fst x.
  (* the calls of one read whose answer is of class k; [newR]: in the order in which b_read writes the answers *)
  Definition pk (k : nat) (la : list (nat * event)) : list (nat * event) :=
    filter (fun je => Nat.eqb (kind (snd je)) k) la.
  Definition newR (la : list (nat * event)) := pk 0 la ++ pk 1 la ++ pk 2 la ++ pk 3 la.

  Lemma b_packets_honest : forall la, Forall (fun je => wf_event (snd je)) la ->
    bpackets (map cp la) =
    (flat_map (fun je => logof (snd je)) la, map (fun je => (kind (snd je), enc (rp je) ++ DELIM)) la, false, false).
  Proof.
    induction la as [|[j e] la IH]; intros Hwf; [reflexivity|].
    inversion Hwf as [|? ? He Hla]; subst. simpl in He.
    cbn [map NodeProto.b_packets]. unfold cp at 1. cbn [fst snd].
    rewrite (b_packet_honest j e He). cbv iota. rewrite (IH Hla). reflexivity.
  Qed.

  Lemma pick_frames : forall k la,
    pick k (map (fun je => (kind (snd je), enc (rp je) ++ DELIM)) la) = frm (map rp (pk k la)).
  Proof.
    intros k la. unfold pick, pk. induction la as [|je la IH]; [reflexivity|].
    cbn [map filter fst]. destruct (Nat.eqb (kind (snd je)) k); [|exact IH].
    cbn [map concat snd]. rewrite IH, frames_cons, <- app_assoc. reflexivity.
  Qed.

  Lemma kind_cases : forall e, kind e = 0 \/ kind e = 1 \/ kind e = 2 \/ kind e = 3.
  Proof.
    intros e. unfold kind. destruct (fw_recv (ev1 e)); [|auto].
    destruct (handler (ev2 e)) as [|r|r|[|]]; auto.
  Qed.

  Lemma perm_new : forall la, Permutation (newR la) la.
  Proof.
    induction la as [|je la IH]; [constructor|]. unfold newR, pk in *. cbn [filter].
    destruct (kind_cases (snd je)) as [H|[H|[H|H]]]; rewrite H; cbn [Nat.eqb app].
    - constructor. exact IH.
    - apply Permutation_sym, Permutation_cons_app, Permutation_sym. exact IH.
    - apply Permutation_sym. rewrite app_assoc. apply Permutation_cons_app.
      rewrite <- app_assoc. apply Permutation_sym. exact IH.
    - apply Permutation_sym. rewrite 2 app_assoc. apply Permutation_cons_app.
      rewrite <- 2 app_assoc. apply Permutation_sym. exact IH.
  Qed.

  Lemma in_new : forall la je, In je (newR la) <-> In je la.
  Proof.
    intros la je. split; intros H.
    - apply (Permutation_in _ (perm_new la) H).
    - apply (Permutation_in _ (Permutation_sym (perm_new la)) H).
  Qed.

  Lemma NoDup_new : forall la, NoDup (map fst la) -> NoDup (map rid (newR la)).
  Proof.
    intros la H. apply (Permutation_NoDup (Permutation_sym (Permutation_map fst (perm_new la)))). exact H.
  Qed.

  (* the caller's bookkeeping as a list of entries, one per send, in order *)
  Inductive status := Rej | NoRes (j : nat) | Wait (j : nat) | Fin (j : nat).
  Record ent := { en_e : event; en_m : smode; en_s : status }.

  Definition meta_of (e : event) := filter (fun p => allowed excl (fst p)) (dump_meta excl (ev1 e)).
  Definition final (e : event) : call := set_value call0 (oval e) (JBool (oerr e)) (meta_of e).
  Definition rej_call (m : smode) : call :=
    {| c_fin := match m with MNoResApi => false | _ => true end; c_res := false; c_val := JNull; c_err := None |}.
  Definition call_of (en : ent) : call :=
    match en_s en with
    | Rej => rej_call (en_m en)
    | NoRes _ | Wait _ => call0
    | Fin _ => final (en_e en)
    end.
  Fixpoint pend_of (k : nat) (ents : list ent) : list (Z * nat) :=
    match ents with
    | [] => []
    | en :: r => match en_s en with Wait j => [(Z.of_nat j, k)] | _ => [] end ++ pend_of (S k) r
    end.
  Definition acc1 (en : ent) : list (nat * event) :=
    match en_s en with Rej => [] | NoRes j | Wait j | Fin j => [(j, en_e en)] end.
  Definition acc (ents : list ent) := flat_map acc1 ents.
  Definition wait1 (en : ent) : list nat := match en_s en with Wait j => [j] | _ => [] end.
  Definition waits (ents : list ent) := flat_map wait1 ents.
  Definition mark (j : nat) (en : ent) : ent :=
    match en_s en with
    | Wait j' => if Nat.eqb j' j then {| en_e := en_e en; en_m := en_m en; en_s := Fin j |} else en
    | _ => en
    end.
  Definition marks (ra : list (nat * event)) (ents : list ent) : list ent :=
    fold_left (fun es x => map (mark (rid x)) es) ra ents.

  (* what one read at A may do to an entry *)
  Definition evo (en en' : ent) : Prop :=
    en' = en \/ exists j, en_s en = Wait j /\ en_s en' = Fin j.

  (* a well-formed entry: its status is one that an event with this firewall verdict, sent in this mode, can have *)
  Definition went (en : ent) : Prop :=
    wf_event (en_e en) /\
    match en_s en with
    | Rej => fw_send (en_e en) = false
    | NoRes _ => fw_send (en_e en) = true /\ en_m en <> MCall
    | Wait _ => fw_send (en_e en) = true /\ en_m en = MCall
    | Fin _ => fw_send (en_e en) = true /\ en_m en = MCall
    end.

  (* what the caller asked for: [map sig ents] is the sequence of sends so far ([sends_of]); no read changes it *)
  Definition sig (en : ent) : event * smode := (en_e en, en_m en).

  Lemma in_waits : forall ents j, In j (waits ents) <-> exists en, In en ents /\ en_s en = Wait j.
  Proof.
    intros ents j. unfold waits. rewrite in_flat_map. split; intros [en [Hin H]]; exists en; split; try exact Hin.
    - unfold wait1 in H. destruct (en_s en) eqn:E; cbn in H; try contradiction. destruct H as [<-|[]]. reflexivity.
    - unfold wait1. rewrite H. left. reflexivity.
  Qed.

  Lemma mark_cases : forall j en,
    (en_s en = Wait j /\ mark j en = {| en_e := en_e en; en_m := en_m en; en_s := Fin j |}) \/
    (en_s en <> Wait j /\ mark j en = en).
  Proof.
    intros j en. unfold mark. destruct (en_s en) as [|j'|j'|j']; try (right; split; [discriminate|reflexivity]).
    destruct (Nat.eqb_spec j' j) as [->|Hne]; [left; auto|].
    right. split; [|reflexivity]. intros [= ->]. exact (Hne eq_refl).
  Qed.

  Lemma acc1_mark : forall j en, acc1 (mark j en) = acc1 en.
  Proof.
    intros j en. destruct (mark_cases j en) as [[E ->]|[_ ->]]; [|reflexivity].
    unfold acc1. cbn [en_s en_e]. rewrite E. reflexivity.
  Qed.

  Lemma sig_mark : forall j en, sig (mark j en) = sig en.
  Proof. intros j en. destruct (mark_cases j en) as [[_ ->]|[_ ->]]; reflexivity. Qed.

  Lemma went_mark : forall j en, went en -> went (mark j en).
  Proof.
    intros j en H. destruct (mark_cases j en) as [[E ->]|[_ ->]]; [|exact H].
    unfold went in *. rewrite E in H. exact H.
  Qed.

  Lemma evo_mark : forall j en en', evo en en' -> evo en (mark j en').
  Proof.
    intros j en en' H. destruct (mark_cases j en') as [[E ->]|[_ ->]]; [|exact H].
    destruct H as [->|(j0 & _ & Hs')]; [right; exists j; auto|]. rewrite Hs' in E. discriminate.
  Qed.

  Lemma mark_noop : forall j ents, ~ In j (waits ents) -> map (mark j) ents = ents.
  Proof.
    intros j ents H. rewrite <- (map_id ents) at 2. apply map_ext_in. intros en Hin.
    destruct (mark_cases j en) as [[E _]|[_ ->]]; [|reflexivity].
    destruct H. apply in_waits. exists en. auto.
  Qed.

  Lemma waits_mark : forall j ents,
    waits (map (mark j) ents) = filter (fun x => negb (Nat.eqb x j)) (waits ents).
  Proof.
    intros j ents. induction ents as [|en r IH]; [reflexivity|].
    unfold waits in *. cbn [map flat_map]. rewrite filter_app, IH. f_equal.
    destruct (mark_cases j en) as [[E ->]|[E ->]]; unfold wait1; cbn [en_s].
    - rewrite E. cbn [filter]. rewrite Nat.eqb_refl. reflexivity.
    - destruct (en_s en) as [|j'|j'|j']; try reflexivity. cbn [filter].
      destruct (Nat.eqb_spec j' j) as [->|_]; [destruct E|]; reflexivity.
  Qed.

  Lemma in_mark_wait : forall j ents en j', In en (map (mark j) ents) -> en_s en = Wait j' ->
    In en ents /\ j' <> j.
  Proof.
    intros j ents en j' Hin Hs. apply in_map_iff in Hin. destruct Hin as [en0 [<- Hin0]].
    destruct (mark_cases j en0) as [[_ Hm]|[E Hm]]; rewrite Hm in *; [discriminate Hs|].
    split; [exact Hin0|]. intros ->. exact (E Hs).
  Qed.

  Lemma marks_ind : forall Q : list ent -> Prop, (forall j es, Q es -> Q (map (mark j) es)) ->
    forall ra es, Q es -> Q (marks ra es).
  Proof.
    intros Q H ra. induction ra as [|x ra IH]; intros es Hq; [exact Hq|].
    apply (IH (map (mark (rid x)) es)), H, Hq.
  Qed.

  Lemma acc_marks : forall ra ents, acc (marks ra ents) = acc ents.
  Proof.
    intros ra ents. apply (marks_ind (fun es => acc es = acc ents)); [|reflexivity].
    intros j es <-. unfold acc. rewrite !flat_map_concat_map, map_map.
    f_equal. apply map_ext. intros en. apply acc1_mark.
  Qed.

  Lemma sig_marks : forall ra ents, map sig (marks ra ents) = map sig ents.
  Proof.
    intros ra ents. apply (marks_ind (fun es => map sig es = map sig ents)); [|reflexivity].
    intros j es <-. rewrite map_map. apply map_ext. intros en. apply sig_mark.
  Qed.

  Lemma went_marks : forall ra ents, Forall went ents -> Forall went (marks ra ents).
  Proof.
    intros ra ents. apply (marks_ind (Forall went)). intros j es H.
    apply Forall_forall. intros en' Hin. apply in_map_iff in Hin. destruct Hin as [en [<- Hen]].
    apply went_mark. rewrite Forall_forall in H. exact (H en Hen).
  Qed.

  Lemma evo_marks : forall ra ents, Forall2 evo ents (marks ra ents).
  Proof.
    intros ra ents. apply (marks_ind (Forall2 evo ents)).
    - intros j es H. induction H as [|en en' r r' Hev Hr IH]; constructor; [apply evo_mark, Hev|exact IH].
    - induction ents; constructor; [left; reflexivity|assumption].
  Qed.

  Lemma in_marks_wait : forall ra ents en j, In en (marks ra ents) -> en_s en = Wait j ->
    In en ents /\ ~ In j (map rid ra).
  Proof.
    induction ra as [|x ra IH]; intros ents en j Hin Hs; [split; [exact Hin|intros []]|].
    destruct (IH _ en j Hin Hs) as [Hin' Hni].
    destruct (in_mark_wait _ _ _ _ Hin' Hs) as [Hin0 Hne].
    split; [exact Hin0|]. intros [Hx|Hx]; [congruence|contradiction].
  Qed.

  Lemma zget_skip : forall j (st : status) k rest, st <> Wait j ->
    zget (Z.of_nat j) (match st with Wait j' => [(Z.of_nat j', k)] | _ => [] end ++ rest)
    = zget (Z.of_nat j) rest.
  Proof.
    intros j st k rest H. destruct st as [|j'|j'|j']; try reflexivity. cbn [app zget].
    destruct (Z.eqb_spec (Z.of_nat j) (Z.of_nat j')) as [E|_]; [|reflexivity].
    apply Nat2Z.inj in E. subst j'. destruct H. reflexivity.
  Qed.

  Lemma zget_mark : forall j j' ents k, j <> j' ->
    zget (Z.of_nat j) (pend_of k (map (mark j') ents)) = zget (Z.of_nat j) (pend_of k ents).
  Proof.
    intros j j' ents. induction ents as [|en r IH]; intros k Hne; [reflexivity|].
    cbn [map pend_of]. destruct (mark_cases j' en) as [[E ->]|[_ ->]].
    - cbn [en_s app]. rewrite (zget_skip j (en_s en)) by (rewrite E; congruence). apply IH, Hne.
    - destruct (en_s en) as [|j0|j0|j0]; cbn [app]; try (apply IH, Hne).
      cbn [zget]. rewrite IH by exact Hne. reflexivity.
  Qed.

  Lemma upd_app_length : forall (A : Type) (f : A -> A) pre x r,
    upd (length pre) f (pre ++ x :: r) = pre ++ f x :: r.
  Proof. intros A f pre x r. induction pre as [|y pre IH]; cbn [length app upd]; [|rewrite IH]; reflexivity. Qed.

  (* looking [j] up in the table built from the entries and updating the call found there is [mark j];
     [pre] stands for the calls of the entries before [ents] *)
  Lemma route : forall j f ents pre, NoDup (waits ents) ->
    (forall en, In en ents -> en_s en = Wait j -> f call0 = final (en_e en)) ->
    match zget (Z.of_nat j) (pend_of (length pre) ents) with
    | Some i => upd i f (pre ++ map call_of ents)
    | None => pre ++ map call_of ents
    end = pre ++ map call_of (map (mark j) ents).
  Proof.
    intros j f ents. induction ents as [|en r IH]; intros pre Hnd Hf; [reflexivity|].
    unfold waits in Hnd. cbn [flat_map] in Hnd. fold (waits r) in Hnd.
    apply NoDup_app_iff in Hnd. destruct Hnd as (_ & Hr & Hdis).
    cbn [pend_of map]. destruct (mark_cases j en) as [[E ->]|[E ->]].
    - (* the entry that waits for j: by NoDup no later one does *)
      rewrite E. cbn [app zget]. rewrite Z.eqb_refl, upd_app_length.
      rewrite mark_noop by (apply Hdis; unfold wait1; rewrite E; left; reflexivity).
      unfold call_of at 1 3. cbn [en_s en_e]. rewrite E, (Hf en (or_introl eq_refl) E). reflexivity.
    - rewrite (zget_skip j _ _ _ E).
      specialize (IH (pre ++ [call_of en]) Hr (fun en' H' => Hf en' (or_intror H'))).
      rewrite app_length, Nat.add_1_r, <- !app_assoc in IH. exact IH.
  Qed.

  Notation apacket := (a_packet excl).
  Notation apackets := (a_packets excl).

  Lemma a_packet_reply : forall j e pend ents, NoDup (waits ents) ->
    zget (Z.of_nat j) pend = zget (Z.of_nat j) (pend_of 0 ents) ->
    (forall en, In en ents -> en_s en = Wait j -> en_e en = e) ->
    apacket pend (map call_of ents) (rpkt j e) = (map call_of (map (mark j) ents), false, false).
  Proof.
    intros j e pend ents Hw Hz He. unfold rpkt.
    rewrite a_packet_value, Hz. do 2 f_equal.
    apply (route j _ ents [] Hw). intros en Hen Hs. rewrite (He en Hen Hs). reflexivity.
  Qed.

  Lemma a_batch : forall ra pend ents, NoDup (map rid ra) -> NoDup (waits ents) ->
    (forall x, In x ra -> zget (Z.of_nat (rid x)) pend = zget (Z.of_nat (rid x)) (pend_of 0 ents)) ->
    (forall x en, In x ra -> In en ents -> en_s en = Wait (rid x) -> en_e en = snd x) ->
    apackets pend (map call_of ents) (map rp ra) = (map call_of (marks ra ents), false, false).
  Proof.
    induction ra as [|[j e] ra IH]; intros pend ents Hnd Hw Hz He; [reflexivity|].
    inversion Hnd as [|? ? Hni Hnd']; subst.
    cbn [map NodeProto.a_packets]. unfold rp at 1. cbn [fst snd].
    rewrite (a_packet_reply j e pend ents Hw (Hz _ (or_introl eq_refl)) (fun en => He _ en (or_introl eq_refl))).
    cbv iota. rewrite (IH pend (map (mark j) ents)); [reflexivity|exact Hnd'| | |].
    - rewrite waits_mark. apply NoDup_filter. exact Hw.
    - intros x Hx. rewrite (Hz x (or_intror Hx)). symmetry. apply zget_mark.
      intros Heq. apply Hni. cbn [rid fst]. rewrite <- Heq. apply (in_map rid). exact Hx.
    - intros x en Hx Hen Hs. destruct (in_mark_wait j ents en (rid x) Hen Hs) as [Hen0 _].
      apply (He x en (or_intror Hx) Hen0 Hs).
  Qed.

  (* after a read at A the finished calls leave the table *)
  Lemma filter_pend : forall ents ents', Forall2 evo ents ents' -> forall k pre, length pre = k ->
    filter (fun p => negb (finished (pre ++ map call_of ents') p)) (pend_of k ents) = pend_of k ents'.
  Proof.
    intros ents ents' H. induction H as [|en en' r r' Hev Hr IH]; intros k pre Hk; [reflexivity|].
    cbn [map pend_of].
    assert (Hnth : nth_error (pre ++ call_of en' :: map call_of r') k = Some (call_of en')).
    { rewrite nth_error_app2 by lia. rewrite Hk, Nat.sub_diag. reflexivity. }
    assert (Hrest : filter (fun p => negb (finished (pre ++ call_of en' :: map call_of r') p)) (pend_of (S k) r)
                    = pend_of (S k) r').
    { replace (pre ++ call_of en' :: map call_of r') with ((pre ++ [call_of en']) ++ map call_of r')
        by (rewrite <- app_assoc; reflexivity).
      apply IH. rewrite app_length. simpl. lia. }
    rewrite filter_app, Hrest. f_equal.
    destruct Hev as [->|(j & Hs & Hs')].
    - destruct (en_s en) eqn:E; try reflexivity.
      cbn [filter]. unfold finished. cbn [snd]. rewrite Hnth. unfold call_of. rewrite E. reflexivity.
    - rewrite Hs, Hs'. cbn [filter]. unfold finished. cbn [snd]. rewrite Hnth.
      unfold call_of. rewrite Hs'. reflexivity.
  Qed.

  Lemma pend_of_app : forall a b k, pend_of k (a ++ b) = pend_of k a ++ pend_of (k + length a) b.
  Proof.
    induction a as [|en a IH]; intros b k; [simpl; rewrite Nat.add_0_r; reflexivity|].
    cbn [app pend_of length]. rewrite IH, <- app_assoc. rewrite Nat.add_succ_r. reflexivity.
  Qed.

  Lemma acc_snoc : forall ents en, acc (ents ++ [en]) = acc ents ++ acc1 en.
  Proof. intros. unfold acc. rewrite flat_map_app. cbn [flat_map]. rewrite app_nil_r. reflexivity. Qed.

  Lemma in_acc_wait : forall ents en j, In en ents -> en_s en = Wait j -> In (j, en_e en) (acc ents).
  Proof.
    intros ents en j Hin Hs. apply in_flat_map. exists en. split; [exact Hin|].
    unfold acc1. rewrite Hs. left. reflexivity.
  Qed.

  Lemma NoDup_waits : forall ents, NoDup (map fst (acc ents)) -> NoDup (waits ents).
  Proof.
    induction ents as [|en r IH]; intros H; [constructor|].
    unfold acc, waits in *. cbn [flat_map] in *. rewrite map_app in H.
    unfold acc1, wait1 in *. destruct (en_s en) eqn:E; cbn [app map] in *;
      try (apply IH; try exact H; inversion H; assumption).
    inversion H as [|? ? Hni Hnd]; subst. constructor; [|apply IH; exact Hnd].
    intros Hi. apply Hni. fold (waits r) in Hi. apply in_waits in Hi. destruct Hi as [en' [Hin Hs]].
    change j with (fst (j, en_e en')). apply in_map. apply (in_acc_wait r en' j Hin Hs).
  Qed.

  (* the invariant of the two-party system.  [acc ents] = [done ++ todo]: the calls written so far, in order of
     their ids - those B has processed, and those still on the wire or in B's buffer; [R]: the replies still on
     the wire or in A's buffer.  g_wait: a call that B has processed and A still waits for has its reply in flight. *)
  Record GI (ents : list ent) (done todo : list (nat * event)) (R : list (nat * event)) (s : st)
    : Prop := {
    g_nid : a_nid s = Z.of_nat (length (acc ents));
    g_calls : a_calls s = map call_of ents;
    g_pend : a_pend s = pend_of 0 ents;
    g_bad : bad s = false;
    g_went : Forall went ents;
    g_ids : map fst (acc ents) = seq 0 (length (acc ents));
    g_split : acc ents = done ++ todo;
    g_ab : FInv (b_buf s) (wab s) (map cp todo);
    g_log : b_log s = flat_map (fun je => logof (snd je)) done;
    g_ba : FInv (a_buf s) (wba s) (map rp R);
    g_rnd : NoDup (map rid R);
    g_rin : forall x, In x R -> In x done;
    g_wait : forall en j, In en ents -> en_s en = Wait j -> In (j, en_e en) done -> In (j, en_e en) R
  }.

  Lemma isobj_cp : forall l, Forall isobj (map cp l).
  Proof. intros l. apply Forall_forall. intros x H. apply in_map_iff in H. destruct H as [y [<- _]]. exact I. Qed.

  Notation asend := (a_send excl dumps DELIM fw_send).

  Lemma gi_send : forall ents done todo R s e m, GI ents done todo R s -> wf_event e ->
    exists ents' todo', GI ents' done todo' R (asend s e m) /\ map sig ents' = map sig ents ++ [(e, m)].
  Proof.
    intros ents done todo R s e m G Hwf. destruct G.
    unfold NodeProto.a_send. destruct (fw_send e) eqn:Hf.
    - (* accepted: the call goes on the wire under the next id *)
      rewrite packet_eq. set (j := length (acc ents)).
      set (en := {| en_e := e; en_m := m; en_s := match m with MCall => Wait j | _ => NoRes j end |}).
      assert (Hacc : acc (ents ++ [en]) = acc ents ++ [(j, e)]) by (rewrite acc_snoc; destruct m; reflexivity).
      exists (ents ++ [en]), (todo ++ [(j, e)]). split; [|rewrite map_app; reflexivity].
      (* fields not closed by an assumption: g_nid, g_calls, g_pend, g_went, g_ids, g_split, g_ab, g_wait *)
      constructor; cbn [a_nid a_calls a_pend bad b_buf wab b_log a_buf wba]; rewrite ?Hacc; try assumption.
      + rewrite app_length, g_nid0. cbn [length]. lia.
      + rewrite g_calls0, map_app. f_equal. unfold call_of, en. cbn [map en_s]. destruct m; reflexivity.
      + rewrite pend_of_app, g_pend0. cbn [Nat.add]. rewrite g_calls0, map_length, g_nid0.
        unfold en. cbn [pend_of en_s]. destruct m; cbn [app]; rewrite ?app_nil_r; reflexivity.
      + apply Forall_app. split; [exact g_went0|]. constructor; [|constructor].
        split; [exact Hwf|]. unfold en. cbn [en_s en_e en_m]. destruct m; repeat split; try exact Hf; discriminate.
      + rewrite map_app, app_length, g_ids0. cbn [map length fst]. rewrite Nat.add_1_r, seq_S. reflexivity.
      + rewrite g_split0, app_assoc. reflexivity.
      + rewrite g_nid0, <- (app_nil_r (_ ++ DELIM)). apply (wire_write _ cp (fun _ => I) _ _ todo [(j, e)]), g_ab0.
      + intros en' j' Hin Hs Hd. apply in_app_or in Hin. destruct Hin as [Hin|[<-|[]]]; [exact (g_wait0 en' j' Hin Hs Hd)|].
        (* the new entry: its id is not among those of the processed calls *)
        exfalso. assert (Hj : In j' (map fst (acc ents))).
        { rewrite g_split0, map_app. apply in_or_app. left. apply (in_map fst _ _ Hd). }
        rewrite g_ids0 in Hj. apply in_seq in Hj. destruct m; inversion Hs; subst j'; unfold j in Hj; lia.
    - (* rejected by the send firewall: no bytes, no id *)
      set (en := {| en_e := e; en_m := m; en_s := Rej |}).
      assert (Hacc : acc (ents ++ [en]) = acc ents) by (rewrite acc_snoc; apply app_nil_r).
      exists (ents ++ [en]), todo. split; [|rewrite map_app; reflexivity].
      (* as above: g_calls, g_pend, g_went, g_wait *)
      constructor; cbn [a_nid a_calls a_pend bad b_buf wab b_log a_buf wba]; rewrite ?Hacc; try assumption.
      + rewrite g_calls0, map_app. reflexivity.
      + rewrite pend_of_app, g_pend0. cbn [pend_of en_s en app]. rewrite app_nil_r. reflexivity.
      + apply Forall_app. split; [exact g_went0|]. constructor; [|constructor]. split; [exact Hwf|exact Hf].
      + intros en' j' Hin Hs Hd. apply in_app_or in Hin. destruct Hin as [Hin|[<-|[]]]; [|discriminate Hs].
        apply (g_wait0 en' j' Hin Hs Hd).
  Qed.

  (* the replies to a batch [la] of calls that B has just processed are new on the wire to A *)
  Lemma NoDup_replies : forall done la lb R, NoDup (map fst (done ++ la ++ lb)) ->
    NoDup (map rid R) -> (forall x, In x R -> In x done) -> NoDup (map rid (R ++ newR la)).
  Proof.
    intros done la lb R Hnd HR Hin. rewrite !map_app in Hnd.
    apply NoDup_app_iff in Hnd. destruct Hnd as (_ & Hl & Hdis).
    apply NoDup_app_iff in Hl. destruct Hl as (Hla & _ & _).
    rewrite map_app. apply NoDup_app_iff. split; [exact HR|]. split; [apply NoDup_new, Hla|].
    intros j Hj Hj'. apply in_map_iff in Hj. destruct Hj as [x [<- Hx]].
    apply in_map_iff in Hj'. destruct Hj' as [y [Hy Hy']]. apply (proj1 (in_new la y)) in Hy'.
    apply (Hdis (rid x)); [apply in_map, Hin, Hx|].
    apply in_or_app. left. rewrite <- Hy. apply (in_map fst), Hy'.
  Qed.

  Lemma wf_acc : forall ents, Forall went ents -> Forall (fun je => wf_event (snd je)) (acc ents).
  Proof.
    intros ents H. apply Forall_forall. intros je Hin. apply in_flat_map in Hin.
    destruct Hin as [en [Hen Hje]]. rewrite Forall_forall in H. destruct (H en Hen) as [Hwf _].
    unfold acc1 in Hje. destruct (en_s en); cbn in Hje; try contradiction; destruct Hje as [<-|[]]; exact Hwf.
  Qed.

  Notation bread := (b_read excl dumps loads DELIM fw_recv handler b_chan).
  Notation aread := (a_read excl loads DELIM).

  Lemma gi_ab : forall ents done todo R s d rest, GI ents done todo R s -> wab s = d ++ rest ->
    exists done' todo' R',
      GI ents done' todo' R'
         (bread {| a_nid := a_nid s; a_issued := a_issued s; a_nores := a_nores s; a_pend := a_pend s;
                   a_calls := a_calls s; a_buf := a_buf s; b_buf := b_buf s; b_log := b_log s;
                   wab := rest; wba := wba s; bad := bad s |} d).
  Proof.
    intros ents done todo R s d rest G Hw. destruct G. rewrite Hw in g_ab0.
    destruct (wire_read _ cp _ _ _ _ g_ab0) as (la & lb & buf' & -> & Hfeed & Hinv).
    assert (Hwfla : Forall (fun je => wf_event (snd je)) la).
    { pose proof (wf_acc ents g_went0) as H. rewrite g_split0 in H.
      apply Forall_app in H. destruct H as [_ H]. apply Forall_app in H. exact (proj1 H). }
    assert (Hnd : NoDup (map fst (done ++ la ++ lb))).
    { rewrite <- g_split0, g_ids0. apply seq_NoDup. }
    unfold NodeProto.b_read. cbn [b_buf a_nid a_issued a_nores a_pend a_calls a_buf b_log wab wba bad].
    rewrite Hfeed, (b_packets_honest la Hwfla), !pick_frames.
    exists (done ++ la), lb, (R ++ newR la).
    (* fields not closed by an assumption: g_bad, g_split, g_log, g_ba, g_rnd, g_rin, g_wait *)
    constructor; cbn [a_nid a_calls a_pend bad b_buf wab b_log a_buf wba]; try assumption.
    - rewrite g_bad0. reflexivity.
    - rewrite g_split0, app_assoc. reflexivity.
    - rewrite flat_map_app, g_log0. reflexivity.
    - rewrite <- !frames_app, <- !map_app. apply (wire_write _ rp (fun _ => I)), g_ba0.
    - apply (NoDup_replies done la lb R Hnd g_rnd0 g_rin0).
    - intros x Hx. rewrite in_app_iff in *. rewrite in_new in Hx. destruct Hx as [Hx|Hx]; [left; exact (g_rin0 x Hx)|right; exact Hx].
    - intros en j Hen Hs Hd. rewrite in_app_iff in *. rewrite in_new.
      destruct Hd as [Hd|Hd]; [left; exact (g_wait0 en j Hen Hs Hd)|right; exact Hd].
  Qed.

  Lemma gi_ba : forall ents done todo R s d rest, GI ents done todo R s -> wba s = d ++ rest ->
    exists ents' R',
      GI ents' done todo R'
         (aread {| a_nid := a_nid s; a_issued := a_issued s; a_nores := a_nores s; a_pend := a_pend s;
                   a_calls := a_calls s; a_buf := a_buf s; b_buf := b_buf s; b_log := b_log s;
                   wab := wab s; wba := rest; bad := bad s |} d)
      /\ map sig ents' = map sig ents.
  Proof.
    intros ents done todo R s d rest G Hw. destruct G. rewrite Hw in g_ba0.
    destruct (wire_read _ rp _ _ _ _ g_ba0) as (ra & rb & buf' & -> & Hfeed & Hinv).
    assert (Hndacc : NoDup (map fst (acc ents))) by (rewrite g_ids0; apply seq_NoDup).
    assert (Hpay : forall x en, In x ra -> In en ents -> en_s en = Wait (rid x) -> en_e en = snd x).
    { intros x en Hx Hen Hs.
      pose proof (g_rin0 x (in_or_app _ _ _ (or_introl Hx))) as Hd.
      assert (E : (rid x, en_e en) = x).
      { apply (NoDup_map_eq _ _ fst (acc ents)); [exact Hndacc|apply (in_acc_wait ents en _ Hen Hs)| |reflexivity].
        rewrite g_split0. apply in_or_app. left. exact Hd. }
      rewrite <- E. reflexivity. }
    rewrite map_app in g_rnd0. apply NoDup_app_iff in g_rnd0. destruct g_rnd0 as (Hndra & Hndrb & _).
    unfold NodeProto.a_read. cbn [b_buf a_nid a_issued a_nores a_pend a_calls a_buf b_log wab wba bad].
    rewrite Hfeed, g_pend0, g_calls0.
    rewrite (a_batch ra (pend_of 0 ents) ents Hndra (NoDup_waits ents Hndacc)
               (fun x _ => eq_refl) Hpay).
    exists (marks ra ents), rb. split; [|apply sig_marks].
    (* fields not closed by an assumption: g_calls, g_pend, g_bad, g_went, g_rin, g_wait *)
    constructor; cbn [a_nid a_calls a_pend bad b_buf wab b_log a_buf wba]; rewrite ?acc_marks; try assumption.
    - reflexivity.
    - apply (filter_pend ents (marks ra ents) (evo_marks ra ents) 0 [] eq_refl).
    - rewrite g_bad0. reflexivity.
    - apply went_marks. exact g_went0.
    - intros x Hx. apply g_rin0. apply in_or_app. right. exact Hx.
    - intros en j Hen Hs Hd. destruct (in_marks_wait ra ents en j Hen Hs) as [Hen0 Hni].
      pose proof (g_wait0 en j Hen0 Hs Hd) as Hin. apply in_app_or in Hin.
      destruct Hin as [Hin|Hin]; [|exact Hin].
      exfalso. apply Hni. change j with (rid (j, en_e en)). apply in_map. exact Hin.
  Qed.

  Notation stp := (step excl dumps loads DELIM fw_send fw_recv handler b_chan).

  Definition honest_op (o : op) : Prop :=
    match o with OSend e _ => wf_event e | OInjAB _ | OInjBA _ => False | _ => True end.
  Definition sends_of (ops : list op) : list (event * smode) :=
    flat_map (fun o => match o with OSend e m => [(e, m)] | _ => [] end) ops.

  Definition reached (sg : list (event * smode)) (s : st) : Prop :=
    exists ents done todo R, GI ents done todo R s /\ map sig ents = sg.

  Lemma gi_delivers : forall sg s s', reached sg s ->
    delivers excl dumps loads DELIM fw_recv handler b_chan s s' -> reached sg s'.
  Proof.
    intros sg s s' (ents & done & todo & R & G & Hsg) [|d rest Hw|d rest Hw].
    - exists ents, done, todo, R. auto.
    - destruct (gi_ab ents done todo R s d rest G Hw) as (done' & todo' & R' & G').
      exists ents, done', todo', R'. auto.
    - destruct (gi_ba ents done todo R s d rest G Hw) as (ents' & R' & G' & Hsig).
      exists ents', done, todo, R'. rewrite Hsig. auto.
  Qed.

  Lemma gi_step : forall sg s o, reached sg s -> honest_op o -> reached (sg ++ sends_of [o]) (stp s o).
  Proof.
    intros sg s o H Ho.
    pose proof (step_cases excl dumps loads DELIM fw_send fw_recv handler b_chan s o) as Hd.
    destruct o as [e m|b|b|n|n| |].
    2, 3: destruct Ho.
    2-5: cbn [sends_of flat_map]; rewrite app_nil_r; exact (gi_delivers _ _ _ H Hd).
    destruct H as (ents & done & todo & R & G & <-).
    destruct (gi_send ents done todo R s e m G Ho) as (ents' & todo' & G' & Hs).
    exists ents', done, todo', R. auto.
  Qed.

  Lemma gi_run : forall ops sg s, reached sg s -> Forall honest_op ops ->
    reached (sg ++ sends_of ops) (fold_left stp ops s).
  Proof.
    induction ops as [|o ops IH]; intros sg s H Hh; [cbn; rewrite app_nil_r; exact H|].
    change (o :: ops) with ([o] ++ ops) at 1. unfold sends_of. rewrite flat_map_app, app_assoc.
    apply IH; [apply gi_step; [exact H|exact (Forall_inv Hh)]|exact (Forall_inv_tail Hh)].
  Qed.

  Lemma gi_init : reached [] st0.
  Proof.
    exists [], [], [], []. split; [|reflexivity].
    constructor; cbn; try reflexivity; try (left; auto; fail); try (constructor; fail).
    - intros x [].
    - intros en j [].
  Qed.

  (* what the caller's entry for a send must finally hold *)
  Definition exp1 (em : event * smode) : call :=
    let '(e, m) := em in
    if fw_send e then match m with MCall => final e | _ => call0 end else rej_call m.

  Lemma log_acc : forall ents, Forall went ents ->
    flat_map (fun je => logof (snd je)) (acc ents) =
    flat_map logof (filter fw_send (map fst (map sig ents))).
  Proof.
    induction ents as [|en r IH]; intros H; [reflexivity|]. inversion H as [|? ? Hen Hr]; subst.
    unfold acc. cbn [flat_map map]. fold (acc r). rewrite flat_map_app, (IH Hr).
    cbn [filter]. change (fst (sig en)) with (en_e en). destruct Hen as [_ Hen]. unfold acc1.
    destruct (en_s en); cbn [flat_map snd app]; [rewrite Hen; reflexivity|..].
    all: destruct Hen as [-> _]; cbn [flat_map]; rewrite app_nil_r; reflexivity.
  Qed.

  Theorem end_to_end : forall ops, Forall honest_op ops ->
    let s := exec excl dumps loads DELIM fw_send fw_recv handler b_chan ops in
    wab s = [] -> wba s = [] ->
    b_log s = flat_map logof (filter fw_send (map fst (sends_of ops)))
    /\ a_calls s = map exp1 (sends_of ops)
    /\ a_buf s = [] /\ b_buf s = [] /\ bad s = false.
  Proof.
    intros ops H s Hab Hba. subst s. unfold exec in *.
    destruct (gi_run ops [] st0 gi_init H) as (ents & done & todo & R & G & Hsig).
    cbn [app] in Hsig. destruct G. rewrite Hab in g_ab0. rewrite Hba in g_ba0.
    destruct (wire_end _ _ _ _ g_ab0) as [Hbb ->]. destruct (wire_end _ _ _ _ g_ba0) as [Hbuf ->].
    rewrite app_nil_r in g_split0.
    split; [|split; [|auto]].
    - rewrite g_log0, <- g_split0, <- Hsig. apply log_acc. exact g_went0.
    - rewrite g_calls0, <- Hsig, map_map. apply map_ext_in. intros en Hen.
      rewrite Forall_forall in g_went0. destruct (g_went0 en Hen) as [_ Hw].
      unfold call_of, exp1, sig. destruct (en_s en) eqn:E.
      + rewrite Hw. reflexivity.
      + destruct Hw as [-> Hm]. destruct (en_m en); [congruence|reflexivity|reflexivity].
      + destruct Hw as [-> ->]. exfalso. apply (g_wait0 en j Hen E).
        rewrite <- g_split0. apply (in_acc_wait ents en j Hen E).
      + destruct Hw as (-> & ->). reflexivity.
  Qed.

End E2E.
