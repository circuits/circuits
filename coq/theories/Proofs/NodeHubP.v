(* C19: several connections on one called side are independent copies of the single-connection model
   (Model/NodeProto.v, Section Hub), and the pre-fix behaviour (every Protocol answers) is not. *)
From Coq Require Import List ZArith Bool.
From Circ Require Import Model.NodeProto Proofs.NodeProtoP Proofs.NodeEndToEndP.
Import ListNotations.

Section HubP.
  Variable excl : list (list N).
  Variable dumps : json -> option (list N).
  Variable loads : list N -> option (option json).
  Variable D : list N.
  Variables fw_send fw_recv : event -> bool.
  Variable handler : event -> hres.
  Variable b_chan : nat -> json.
  Variable n : nat.

  Notation hstp := (hstep excl dumps loads D fw_send fw_recv handler b_chan n).
  Notation stp c := (step excl dumps loads D fw_send fw_recv handler (b_chan c)).

  Lemma hstep_own : forall legacy h c o, hstp legacy h (c, o) c = stp c (h c) o.
  Proof. intros. cbn [hstep]. rewrite Nat.eqb_refl. reflexivity. Qed.

  Lemma hstep_frame : forall h c o c', c' <> c -> hstp false h (c, o) c' = h c'.
  Proof.
    intros h c o c' H. cbn [hstep]. destruct (Nat.eqb c' c) eqn:E; [apply Nat.eqb_eq in E; contradiction|].
    reflexivity.
  Qed.

  Lemma ops_of_cons : forall c c0 o r,
    ops_of c ((c0, o) :: r) = if Nat.eqb c0 c then o :: ops_of c r else ops_of c r.
  Proof. intros. unfold ops_of. cbn [filter fst]. destruct (Nat.eqb c0 c); reflexivity. Qed.

  Lemma hub_proj : forall sched h c,
    fold_left (hstp false) sched h c = fold_left (stp c) (ops_of c sched) (h c).
  Proof.
    induction sched as [|[c0 o] r IH]; intros h c; [reflexivity|].
    cbn [fold_left]. rewrite IH, ops_of_cons.
    destruct (Nat.eqb c0 c) eqn:E.
    - apply Nat.eqb_eq in E. subst c0. cbn [fold_left]. rewrite hstep_own. reflexivity.
    - rewrite hstep_frame; [reflexivity|]. intros ->. rewrite Nat.eqb_refl in E. discriminate.
  Qed.

End HubP.

Lemma honest_ops_of : forall sched c, Forall (fun co => honest_op (snd co)) sched ->
  Forall honest_op (ops_of c sched).
Proof.
  intros sched c H. unfold ops_of. apply Forall_forall. intros o Ho.
  apply in_map_iff in Ho. destruct Ho as [co [<- Hin]]. apply filter_In in Hin.
  rewrite Forall_forall in H. apply H. exact (proj1 Hin).
Qed.

Module HubEx.
  Local Open Scope N_scope.
  Definition excl := Ex.excl.
  Definition ev (x : N) : event :=
    {| ename := [x]; eargs := []; ekwargs := []; esuccess := false; efailure := false; enotify := false;
       echannels := [JStr [42]]; eattrs := [] |}.
  Definition call_data (x : N) := event_data excl (ev x) (JInt 0%Z).
  Definition loaded (x : N) : event :=
    match load_event excl (call_data x) with Some (e, _) => e | None => ev x end.
  Definition reply_data (x : N) := value_data excl (JInt 0%Z) (JBool false) (JStr [x]) (loaded x).
  (* every connection's first call has id 0: the text of a packet depends on the event only *)
  Definition dumps (j : json) : option (list N) :=
    Some match j with
         | JObj o => match get k_name o with
                     | Some (JStr [x]) => [x]
                     | _ => match get k_value o with Some (JStr [x]) => [x + 100] | _ => [1] end
                     end
         | _ => [1]
         end.
  Definition loads (b : list N) : option (option json) :=
    match b with
    | [x] => if (97 <=? x) && (x <=? 99) then Some (Some (call_data x))
             else if (197 <=? x) && (x <=? 199) then Some (Some (reply_data (x - 100)))
             else Some None
    | _ => Some None
    end.
  Definition D : list N := [126; 126; 126].
  Definition handler (e : event) : hres := match ename e with [x] => HVal (JStr [x]) | _ => HNone end.
  Definition run (legacy : bool) (n : nat) (sched : list (nat * op)) : hub :=
    hrun excl dumps loads D (fun _ => true) (fun _ => true) handler (fun _ => JStr [110]) n legacy sched.

  (* two connections, a call with id 0 in flight on both (corpus/C19/result_to_caller_only.json) *)
  Definition two : list (nat * op) :=
    [(0, OSend (ev 97) MCall); (1, OSend (ev 98) MCall); (0, OAB 0); (1, OAB 0); (1, OBAP); (0, OBAP)]%nat.

  Lemma fixed_two : map c_val (a_calls (run false 2 two 0%nat)) = [JStr [97]]
                 /\ map c_val (a_calls (run false 2 two 1%nat)) = [JStr [98]].
  Proof. vm_compute. auto. Qed.

  (* before the fix: the answer to connection 0's call is also written on connection 1 and resumes the
     sender of connection 1's call (which asked for event 98) with the result of event 97 *)
  Lemma legacy_two : map c_val (a_calls (run true 2 two 1%nat)) = [JStr [97]]
                  /\ map c_fin (a_calls (run true 2 two 1%nat)) = [true]
                  /\ length (b_log (run true 2 two 1%nat)) = 1%nat.
  Proof. vm_compute. auto. Qed.

  (* three connections, equal ids in flight, deliveries interleaved: everybody gets the own result *)
  Definition three : list (nat * op) :=
    [(2, OSend (ev 99) MCall); (0, OSend (ev 97) MCall); (1, OSend (ev 98) MCall);
     (1, OAB 1); (0, OAB 0); (2, OABP); (1, OAB 0); (0, OBA 2); (2, OBAP); (1, OBAP); (0, OBA 0)]%nat.
End HubEx.
