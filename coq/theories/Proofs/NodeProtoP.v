(* C19, Model/NodeProto.v: the framing of add_buffer for every cut of an honest stream into reads (Section FramingP),
   dump/load of events and what hostile metadata cannot do, the per-packet behaviour of the two parties, and the
   id bookkeeping of the caller under every schedule. *)
From Coq Require Import List ZArith Bool Lia.
From Circ Require Import Lib.ListFacts Lib.ByteStr Model.NodeProto.
Import ListNotations.

Lemma escape_no_tilde : forall s, ~ In TILDE (escape s).
Proof.
  induction s as [|c t IH]; simpl; [intros []|].
  destruct (N.eqb c TILDE) eqn:E.
  - intros H. unfold TILDE in H. repeat (destruct H as [H|H]; [discriminate H|]). exact (IH H).
  - simpl. intros [H|H]; [|exact (IH H)]. subst c. rewrite N.eqb_refl in E. discriminate.
Qed.

Lemma pieces_skip : forall d a x, pieces d (length a) (a ++ x) = pieces d 0 x.
Proof. intros d a x. induction a as [|c a IH]; simpl; [reflexivity|exact IH]. Qed.

Lemma pieces_nonempty : forall d k s, pieces d k s <> [].
Proof.
  intros d k s. revert k. induction s as [|c s IH]; intros k; [discriminate|].
  cbn [pieces]. destruct k as [|k]; [|apply IH].
  destruct (prefixb d (c :: s)); [discriminate|].
  destruct (pieces d 0 s); discriminate.
Qed.

Lemma pieces_clean : forall d0 dr e x, ~ In d0 e ->
  pieces (d0 :: dr) 0 (e ++ x) =
  match pieces (d0 :: dr) 0 x with h :: r => (e ++ h) :: r | [] => [] end.
Proof.
  intros d0 dr e x. destruct (pieces (d0 :: dr) 0 x) as [|h r] eqn:Hx.
  { exfalso. exact (pieces_nonempty _ _ _ Hx). }
  induction e as [|c e IH]; intros Hn.
  - simpl app. exact Hx.
  - assert (Hc : N.eqb d0 c = false).
    { apply N.eqb_neq. intros ->. apply Hn. left. reflexivity. }
    assert (He : ~ In d0 e) by (intros H; apply Hn; right; exact H).
    change ((c :: e) ++ x) with (c :: (e ++ x)).
    cbn [pieces]. cbn [prefixb]. rewrite Hc. cbn [andb].
    rewrite (IH He). reflexivity.
Qed.

Lemma pieces_delim : forall d0 dr x,
  pieces (d0 :: dr) 0 ((d0 :: dr) ++ x) = [] :: pieces (d0 :: dr) 0 x.
Proof.
  intros d0 dr x. change ((d0 :: dr) ++ x) with (d0 :: (dr ++ x)).
  cbn [pieces].
  change (prefixb (d0 :: dr) (d0 :: dr ++ x)) with (prefixb (d0 :: dr) ((d0 :: dr) ++ x)).
  rewrite prefixb_app.
  replace (length (d0 :: dr) - 1) with (length dr) by (simpl; lia).
  rewrite pieces_skip. reflexivity.
Qed.

Lemma pieces_short : forall d s, length s < length d -> pieces d 0 s = [s].
Proof.
  intros d s. induction s as [|c s IH]; intros H; [reflexivity|].
  cbn [pieces]. destruct (prefixb d (c :: s)) eqn:E; [apply prefixb_length in E; lia|].
  rewrite IH by (simpl in H; lia). reflexivity.
Qed.

(* the two forms of input on which [split] is needed below: a delimiter-free text followed by less than
   a delimiter, and a delimiter-free text followed by a whole delimiter *)
Lemma split_last : forall d0 dr e l, ~ In d0 e -> length l < length (d0 :: dr) ->
  split (d0 :: dr) (e ++ l) = [e ++ l].
Proof.
  intros d0 dr e l He Hl. unfold split.
  rewrite (pieces_clean d0 dr e l He), (pieces_short _ l Hl). reflexivity.
Qed.

Lemma split_frame : forall d0 dr e m, ~ In d0 e ->
  split (d0 :: dr) (e ++ (d0 :: dr) ++ m) = e :: split (d0 :: dr) m.
Proof.
  intros d0 dr e m He. unfold split.
  rewrite (pieces_clean d0 dr e _ He), pieces_delim, app_nil_r. reflexivity.
Qed.

Lemma frames_cons : forall P D enc p ps, frames P D enc (p :: ps) = enc p ++ D ++ frames P D enc ps.
Proof. intros. unfold frames. simpl. rewrite <- app_assoc. reflexivity. Qed.

Lemma frames_app : forall P D enc a b, frames P D enc (a ++ b) = frames P D enc a ++ frames P D enc b.
Proof. intros. unfold frames. rewrite map_app, concat_app. reflexivity. Qed.

Section FramingP.
  Variable P : Type.
  Variable parse : list N -> option P.
  Variable enc : P -> list N.
  Variables (d0 : N) (dr : list N).
  Let D := d0 :: dr.

  Variable ok : P -> Prop.                   (* the packets honest peers send (JSON objects) *)
  Hypothesis Hrt : forall p, ok p -> parse (enc p) = Some p.
  Hypothesis Hclean : forall p, ok p -> ~ In d0 (enc p).
  Hypothesis Hpre : forall p q r, ok p -> enc p = q ++ r -> r <> [] -> parse q = None.
  Hypothesis Hext : forall p t t', ok p -> D = t ++ t' -> t <> [] -> t' <> [] -> parse (enc p ++ t) = None.
  Hypothesis Hdel : forall t t', D = t ++ t' -> t' <> [] -> parse t = None.

  Notation proc := (proc P parse).
  Notation feed := (feed P parse D).
  Notation run := (run P parse D).
  Notation frames := (frames P D enc).

  Definition good (e : list N) : Prop := e = [] \/ exists p, ok p /\ e = enc p.

  (* [buf]: the buffer of add_buffer; [rest]: the bytes of the stream not yet read; [exp]: the packets
     still to come out.  Between reads the buffer holds less than the first outstanding text [e] and
     its delimiter ([e] = [] when that text has been processed already and its delimiter is awaited). *)
  Definition Inv (buf rest : list N) (exp : list P) : Prop :=
    (buf = [] /\ rest = [] /\ exp = []) \/
    (exists e pend, good e /\ Forall ok pend /\ buf ++ rest = e ++ D ++ frames pend /\
                    exp = opt_list (parse e) ++ pend /\ length buf < length e + length D).

  Lemma Inv_right : forall buf rest e pend exp, good e -> Forall ok pend -> buf ++ rest = e ++ D ++ frames pend ->
    exp = opt_list (parse e) ++ pend -> length buf < length e + length D -> Inv buf rest exp.
  Proof. intros. right. exists e, pend. auto. Qed.

  Lemma parse_nil : parse [] = None.
  Proof. apply (Hdel [] D); [reflexivity|discriminate]. Qed.

  Lemma good_clean : forall e, good e -> ~ In d0 e.
  Proof. intros e [->|[p [Hok ->]]]; [intros []|apply Hclean; exact Hok]. Qed.

  Lemma good_enc : forall p, ok p -> good (enc p).
  Proof. intros p Hp. right. exists p. auto. Qed.

  Lemma Inv_delim : forall pend, Forall ok pend -> Inv [] (D ++ frames pend) pend.
  Proof.
    intros pend Hok. apply (Inv_right _ _ [] pend); [left; reflexivity|exact Hok|reflexivity| |simpl; lia].
    rewrite parse_nil. reflexivity.
  Qed.

  Lemma Inv_boundary : forall pend, Forall ok pend -> Inv [] (frames pend) pend.
  Proof.
    intros [|p pend] Hok; [left; auto|].
    apply (Inv_right _ _ (enc p) pend);
      [apply good_enc, (Forall_inv Hok)|exact (Forall_inv_tail Hok)|apply frames_cons| |simpl; lia].
    rewrite (Hrt p (Forall_inv Hok)). reflexivity.
  Qed.

  Lemma proc_cons : forall x ps, ps <> [] ->
    proc (x :: ps) = (opt_list (parse x) ++ fst (proc ps), snd (proc ps)).
  Proof.
    intros x ps H. destruct ps as [|y ps]; [contradiction|].
    change (proc (x :: y :: ps)) with (let '(o, b) := proc (y :: ps) in (opt_list (parse x) ++ o, b)).
    destruct (proc (y :: ps)); reflexivity.
  Qed.

  (* add_buffer on [u] (buffer ++ data) emits a prefix of [exp] and leaves the invariant for the
     bytes [rest'] that follow *)
  Definition Reads (u : list N) (exp : list P) (rest' : list N) : Prop :=
    exists out buf' exp', proc (split D u) = (out, buf') /\ exp = out ++ exp' /\ Inv buf' rest' exp'.

  (* [Reads] with the expectation written as in [Inv] *)
  Definition Post (e : list N) (pend : list P) (u rest' : list N) : Prop :=
    exists out buf' exp', proc (split D u) = (out, buf') /\
                          opt_list (parse e) ++ pend = out ++ exp' /\ Inv buf' rest' exp'.

  (* [u] ends before the end of the delimiter that follows [e] and does not parse: it stays in the buffer *)
  Lemma Post_keep : forall e pend u x, good e -> Forall ok pend -> u ++ x = e ++ D -> x <> [] ->
    split D u = [u] -> parse u = None -> Post e pend u (x ++ frames pend).
  Proof.
    intros e pend u x Hg Hok Hux Hx Hs Hn. exists [], u, (opt_list (parse e) ++ pend).
    rewrite Hs. cbn [NodeProto.proc]. rewrite Hn. split; [reflexivity|split; [reflexivity|]].
    apply (Inv_right _ _ e pend); [exact Hg|exact Hok| |reflexivity|].
    - rewrite app_assoc, Hux, <- app_assoc. reflexivity.
    - destruct x as [|x0 x]; [contradiction|]. apply (f_equal (@length N)) in Hux.
      rewrite !app_length in Hux. change (length (x0 :: x)) with (S (length x)) in Hux. lia.
  Qed.

  Lemma cut_in_text : forall e pend u l, good e -> Forall ok pend -> l <> [] -> e = u ++ l ->
    Post e pend u (l ++ D ++ frames pend).
  Proof.
    intros e pend u l Hg Hok Hl He. pose proof (good_clean e Hg) as Hce.
    rewrite app_assoc. apply Post_keep; [exact Hg|exact Hok|rewrite app_assoc, He; reflexivity| | |].
    - destruct l; [contradiction|simpl; discriminate].
    - rewrite <- (app_nil_r u). apply split_last; [|simpl; lia].
      intros Hi. apply Hce. rewrite He. apply in_or_app. left. exact Hi.
    - destruct Hg as [->|[p [Hp ->]]]; [|apply (Hpre p u l Hp He Hl)].
      symmetry in He. apply app_eq_nil in He. destruct (Hl (proj2 He)).
  Qed.

  Lemma cut_in_delim : forall e pend l m, good e -> Forall ok pend -> m <> [] -> D = l ++ m ->
    Post e pend (e ++ l) (m ++ frames pend).
  Proof.
    intros e pend l m Hg Hok Hm HD.
    assert (Hs : split D (e ++ l) = [e ++ l]).
    { apply split_last; [exact (good_clean e Hg)|]. fold D. rewrite HD, app_length.
      destruct m; [contradiction|simpl; lia]. }
    assert (Hux : (e ++ l) ++ m = e ++ D) by (rewrite HD, app_assoc; reflexivity).
    destruct l as [|l0 l]; [destruct Hg as [->|[p [Hp ->]]]|].
    - apply Post_keep; [left; reflexivity|assumption..|apply parse_nil].
    - (* exactly the text of p: it is processed *)
      exists [p], [], pend. rewrite Hs, app_nil_r. cbn [NodeProto.proc]. rewrite (Hrt p Hp).
      split; [reflexivity|split; [reflexivity|]]. simpl in HD. rewrite <- HD. apply Inv_delim, Hok.
    - apply Post_keep; [exact Hg|assumption..|].
      destruct Hg as [->|[p [Hp ->]]]; [apply (Hdel _ m HD Hm)|].
      apply (Hext p _ m Hp HD); [discriminate|exact Hm].
  Qed.

  Lemma cut_after_delim : forall e exp0 m rest', good e -> Reads m exp0 rest' ->
    Reads (e ++ D ++ m) (opt_list (parse e) ++ exp0) rest'.
  Proof.
    intros e exp0 m rest' Hg (out & buf' & exp' & Hp & He & Hi).
    exists (opt_list (parse e) ++ out), buf', exp'.
    split; [|split; [rewrite He, app_assoc; reflexivity|exact Hi]].
    unfold D. rewrite (split_frame d0 dr e m (good_clean e Hg)). fold D.
    rewrite proc_cons by apply pieces_nonempty. rewrite Hp. reflexivity.
  Qed.

  (* [G] below with the fact about the frames behind [e] as a premise: [Reads_frames] gives that fact, and its
     induction step is this lemma for the first frame *)
  Lemma G_step : forall pend, Forall ok pend ->
    (forall m rest', m ++ rest' = frames pend -> Reads m pend rest') ->
    forall e u rest', good e -> u ++ rest' = e ++ D ++ frames pend -> Post e pend u rest'.
  Proof.
    intros pend Hok Htail e u rest' Hg H.
    destruct (app_cut _ _ _ _ _ H) as [(l & Hl & He & ->)|(l & -> & H2)].
    { apply cut_in_text; assumption. }
    symmetry in H2. destruct (app_cut _ _ _ _ _ H2) as [(m & Hm & HD & ->)|(m & -> & Hm)].
    - apply cut_in_delim; assumption.
    - apply (cut_after_delim e pend m rest' Hg). apply Htail. symmetry. exact Hm.
  Qed.

  Lemma Reads_frames : forall pend, Forall ok pend ->
    forall m rest', m ++ rest' = frames pend -> Reads m pend rest'.
  Proof.
    induction 1 as [|p pend Hp Hok IH]; intros m rest' H.
    - apply app_eq_nil in H. destruct H as [-> ->]. exists [], [], [].
      unfold split. simpl. rewrite parse_nil. split; [reflexivity|split; [reflexivity|left; auto]].
    - rewrite frames_cons in H.
      pose proof (G_step pend Hok IH (enc p) m rest' (good_enc p Hp) H) as HP.
      unfold Post in HP. rewrite (Hrt p Hp) in HP. exact HP.
  Qed.

  (* what one call of add_buffer does when buffer ++ data = u is a prefix of an honest stream that
     starts with [e], the delimiter and complete frames *)
  Lemma G : forall pend e u rest', good e -> Forall ok pend -> u ++ rest' = e ++ D ++ frames pend ->
    Post e pend u rest'.
  Proof. intros pend e u rest' Hg Hok. apply (G_step pend Hok (Reads_frames pend Hok)). exact Hg. Qed.

  Lemma step_inv : forall buf d rest' exp, Inv buf (d ++ rest') exp ->
    exists out buf' exp', feed buf d = (out, buf') /\ exp = out ++ exp' /\ Inv buf' rest' exp'.
  Proof.
    intros buf d rest' exp [(-> & Hr & ->)|(e & pend & Hg & Hok & Hs & -> & _)].
    - apply (Reads_frames [] (Forall_nil ok)). exact Hr.
    - rewrite app_assoc in Hs. exact (G pend e (buf ++ d) rest' Hg Hok Hs).
  Qed.

  Lemma Inv_end : forall buf exp, Inv buf [] exp -> buf = [] /\ exp = [].
  Proof.
    intros buf exp [(-> & _ & ->)|(e & pend & _ & _ & Hs & _ & Hl)]; [auto|].
    rewrite app_nil_r in Hs. rewrite Hs, !app_length in Hl. lia.
  Qed.

  Lemma Inv_extend : forall buf rest exp ps, Forall ok ps -> Inv buf rest exp ->
    Inv buf (rest ++ frames ps) (exp ++ ps).
  Proof.
    intros buf rest exp ps Hps [(-> & -> & ->)|(e & pend & Hg & Hok & Hs & He & Hl)].
    - apply Inv_boundary. exact Hps.
    - apply (Inv_right _ _ e (pend ++ ps)); [exact Hg|apply Forall_app; split; assumption| | |exact Hl].
      + rewrite app_assoc, Hs, frames_app, <- !app_assoc. reflexivity.
      + rewrite He, app_assoc. reflexivity.
  Qed.

  Lemma Inv_ok : forall buf rest exp, Inv buf rest exp -> Forall ok exp.
  Proof.
    intros buf rest exp [(_ & _ & ->)|(e & pend & Hg & Hok & _ & -> & _)]; [constructor|].
    apply Forall_app. split; [|exact Hok].
    destruct Hg as [->|[p [Hp ->]]]; [rewrite parse_nil; constructor|].
    rewrite (Hrt p Hp). repeat constructor. exact Hp.
  Qed.

  Lemma run_inv : forall cs buf exp, Inv buf (concat cs) exp -> run buf cs = (exp, []).
  Proof.
    induction cs as [|c cs IH]; intros buf exp H.
    - simpl in *. destruct (Inv_end _ _ H) as [-> ->]. reflexivity.
    - simpl concat in H. destruct (step_inv buf c (concat cs) exp H) as (out & buf' & exp' & Hf & He & Hi).
      cbn [NodeProto.run]. rewrite Hf. rewrite (IH buf' exp' Hi). rewrite He. reflexivity.
  Qed.

  Theorem framing : forall ps cs, Forall ok ps -> concat cs = frames ps -> run [] cs = (ps, []).
  Proof. intros ps cs Hok H. apply run_inv. rewrite H. apply Inv_boundary. exact Hok. Qed.
End FramingP.


Lemma get_set_same : forall (k : list N) (v : json) l, get k (set_kv k v l) = Some v.
Proof.
  intros k v l. induction l as [|[k' v'] l IH]; simpl.
  - rewrite str_eqb_refl. reflexivity.
  - destruct (str_eqb k k') eqn:E; simpl.
    + rewrite str_eqb_refl. reflexivity.
    + destruct (str_ltb k k'); simpl; [rewrite str_eqb_refl; reflexivity|]. rewrite E. exact IH.
Qed.

Lemma get_set_other : forall (k k1 : list N) (v : json) l, k <> k1 -> get k (set_kv k1 v l) = get k l.
Proof.
  intros k k1 v l Hn. induction l as [|[k' v'] l IH]; simpl.
  - rewrite str_eqb_neq by exact Hn. reflexivity.
  - destruct (str_eqb k1 k') eqn:E; simpl.
    + apply str_eqb_eq in E. subst k'. rewrite str_eqb_neq by exact Hn. reflexivity.
    + destruct (str_ltb k1 k'); simpl.
      * rewrite str_eqb_neq by exact Hn. reflexivity.
      * destruct (str_eqb k k'); [reflexivity|exact IH].
Qed.

Lemma get_filter : forall (f : list N -> bool) (k : list N) (l : list (list N * json)),
  get k (filter (fun p => f (fst p)) l) = if f k then get k l else None.
Proof.
  intros f k l. induction l as [|[k' v'] l IH]; simpl; [destruct (f k); reflexivity|].
  destruct (f k') eqn:Ef; simpl.
  - destruct (str_eqb k k') eqn:E; [|exact IH].
    apply str_eqb_eq in E. subst k'. rewrite Ef. reflexivity.
  - destruct (str_eqb k k') eqn:E; [|exact IH].
    apply str_eqb_eq in E. subst k'. rewrite Ef in IH |- *. exact IH.
Qed.

Lemma get_notin : forall (k : list N) (l : list (list N * json)), ~ In k (map fst l) -> get k l = None.
Proof.
  intros k l. induction l as [|[k2 v2] l IH]; simpl; intros Hni; [reflexivity|].
  destruct (str_eqb k k2) eqn:E2.
  - apply str_eqb_eq in E2. subst. exfalso. apply Hni. left. reflexivity.
  - apply IH. intros H. apply Hni. right. exact H.
Qed.


Lemma NoDup_map_filter : forall (A B : Type) (g : A -> B) (f : A -> bool) l,
  NoDup (map g l) -> NoDup (map g (filter f l)).
Proof.
  intros A B g f l. induction l as [|p l IH]; simpl; intros H; [constructor|].
  inversion H as [|? ? Hni Hnd]; subst.
  destruct (f p); simpl; [|apply IH; exact Hnd].
  constructor; [|apply IH; exact Hnd].
  intros Hi. apply Hni, (incl_map g (incl_filter f l)), Hi.
Qed.

Section MetaP.
  Variable excl : list (list N).

  Lemma apply_meta_blocked : forall k meta attrs, allowed excl k = false ->
    get k (apply_meta excl meta attrs) = get k attrs.
  Proof.
    intros k meta. induction meta as [|[k1 v1] meta IH]; intros attrs Hk; simpl; [reflexivity|].
    rewrite IH by exact Hk. destruct (allowed excl k1) eqn:E; [|reflexivity].
    apply get_set_other. intros ->. rewrite Hk in E. discriminate.
  Qed.

  Lemma apply_meta_get : forall k meta attrs, NoDup (map fst meta) -> allowed excl k = true ->
    get k (apply_meta excl meta attrs) = match get k meta with Some v => Some v | None => get k attrs end.
  Proof.
    intros k meta. induction meta as [|[k1 v1] meta IH]; intros attrs Hnd Hk; simpl; [reflexivity|].
    inversion Hnd as [|? ? Hni Hnd']; subst.
    rewrite IH by assumption.
    destruct (str_eqb k k1) eqn:E.
    - apply str_eqb_eq in E. subst k1. rewrite Hk.
      rewrite (get_notin k meta Hni). apply get_set_same.
    - destruct (get k meta); [reflexivity|].
      destruct (allowed excl k1); [|reflexivity].
      apply get_set_other. intros ->. rewrite str_eqb_refl in E. discriminate.
  Qed.

  Lemma blocked_of_excl : forall k, mem_str k excl = true -> allowed excl k = false.
  Proof. intros k H. unfold allowed. rewrite H. apply andb_false_r. Qed.

  (* splits on every scrutinee of a [match] in H and drops the branches in which H is absurd: what remains
     is the one path on which load_event / load_value succeeds *)
  Ltac crack H :=
    repeat match type of H with
           | context [match ?x with _ => _ end] => destruct x eqn:?; try discriminate H
           end.

  (* the one way in which load_event succeeds: the flags are Python's bool() of whatever JSON value was sent,
     the attributes are those apply_meta lets through, the channels are hashable *)
  Lemma load_event_inv : forall data e id, load_event excl data = Some (e, id) ->
    exists o s f n meta, data = JObj o /\ get k_success o = Some s /\ get k_failure o = Some f /\
      get k_notify o = Some n /\ esuccess e = truthy s /\ efailure e = truthy f /\ enotify e = truthy n /\
      eattrs e = apply_meta excl meta [] /\ forallb hashable (echannels e) = true.
  Proof.
    intros data e id H. unfold load_event in H. crack H.
    inversion H; subst; clear H. cbn [esuccess efailure enotify eattrs echannels].
    eexists _, _, _, _, _. repeat split; eassumption || reflexivity.
  Qed.

  Theorem load_value_safe : forall o v id er meta, load_value excl o = LvOk v id er meta ->
    forall k, allowed excl k = false -> get k meta = None.
  Proof.
    intros o v id er meta H k Hk. unfold load_value in H. crack H.
    inversion H; subst; clear H.
    rewrite (get_filter (allowed excl)). rewrite Hk. reflexivity.
  Qed.

  Definition wf_event (e : event) : Prop :=
    existsb (N.eqb 0) (ename e) = false /\ existsb surrogate (ename e) = false /\
    mem_str k__name (map fst (ekwargs e)) = false /\ mem_str k_cls (map fst (ekwargs e)) = false /\
    mem_str k_self (map fst (ekwargs e)) = false /\
    forallb hashable (echannels e) = true.

  Theorem serial : forall e id, wf_event e ->
    load_event excl (event_data excl e id) =
    Some ({| ename := ename e; eargs := eargs e; ekwargs := ekwargs e; esuccess := esuccess e;
             efailure := efailure e; enotify := enotify e; echannels := echannels e;
             eattrs := apply_meta excl (dump_meta_ev excl e) [] |}, id).
  Proof.
    intros e id (Hn & Hsu & H1 & H2 & H3 & Hh). unfold load_event, event_data.
    simpl get.
    cbn [iter_json as_dict truthy]. rewrite H1, H2, H3, Hn, Hsu, Hh. reflexivity.
  Qed.

  Variable dumps : json -> option (list N).
  Variable loads : list N -> option (option json).
  Variable D : list N.
  Variables fw_send fw_recv : event -> bool.
  Variable handler : event -> hres.
  Variable b_chan : json.

  Notation b_packet := (b_packet excl dumps D fw_recv handler b_chan).
  Notation a_send := (a_send excl dumps D fw_send).

  Definition dispatched (r : list event * list (nat * list N) * bool * bool) : list event :=
    let '(l, _, _, _) := r in l.

  (* the event B fires for a received call [e]: success set, default channel filled in *)
  Definition accepted (e : event) : event :=
    {| ename := ename e; eargs := eargs e; ekwargs := ekwargs e; esuccess := true;
       efailure := efailure e; enotify := enotify e;
       echannels := match echannels e with [] => [b_chan] | l => l end; eattrs := eattrs e |}.

  Lemma dispatched_b_packet : forall j,
    dispatched (b_packet j) =
    match load_event excl j with
    | Some (e, _) =>
        if is_miss j || match is_value j with Some _ => true | None => false end || negb (fw_recv e) then []
        else match handler (accepted e) with HNone => [] | _ => [accepted e] end
    | None => []
    end.
  Proof.
    intros j. unfold NodeProto.b_packet.
    destruct (is_miss j); [destruct (load_event excl j) as [[e id]|]; reflexivity|].
    destruct (is_value j) as [o|];
      [destruct (load_value excl o); destruct (load_event excl j) as [[e i]|]; reflexivity|].
    destruct (load_event excl j) as [[e id]|]; [|reflexivity]. cbn [orb].
    destruct (fw_recv e); cbn [negb]; [|destruct (packet dumps D _); reflexivity].
    cbv zeta. fold (accepted e).
    destruct (no_reply id); [|destruct (packet dumps D _)]; cbn [dispatched];
      destruct (handler (accepted e)); reflexivity.
  Qed.

  Lemma a_packet_value : forall pend calls id v er e,
    a_packet excl pend calls (value_data excl (JInt id) er v e) =
    (match zget id pend with
     | Some i => upd i (fun c => set_value c v er (filter (fun p => allowed excl (fst p)) (dump_meta excl e))) calls
     | None => calls
     end, false, false).
  Proof.
    intros pend calls id v er e. unfold a_packet, value_data.
    change (is_miss (JObj _)) with false. unfold is_value. change (get k_value _) with (Some v).
    unfold load_value. change (get k_meta _) with (Some (JObj (dump_meta excl e))).
    change (get k_value _) with (Some v). change (get k_id _) with (Some (JInt id)).
    change (get k_errors _) with (Some er). cbn [hashable id_key].
    destruct (zget id pend); reflexivity.
  Qed.

  Notation step := (step excl dumps loads D fw_send fw_recv handler b_chan).

  Lemma take_split : forall n (l : list N), fst (take n l) ++ snd (take n l) = l.
  Proof. intros n l. unfold take. destruct n; cbn [fst snd]; [apply app_nil_r|apply firstn_skipn]. Qed.

  Lemma take_packet_split : forall l, fst (take_packet D l) ++ snd (take_packet D l) = l.
  Proof.
    intros l. unfold take_packet. destruct (split D l) as [|h [|h2 t]]; cbn [fst snd];
      try apply app_nil_r. apply firstn_skipn.
  Qed.

  (* a delivery step does nothing, or takes a first part [d] off one wire and hands it to the reader *)
  Inductive delivers (s : st) : st -> Prop :=
  | dl_none : delivers s s
  | dl_ab : forall d rest, wab s = d ++ rest ->
      delivers s (b_read excl dumps loads D fw_recv handler b_chan
                    {| a_nid := a_nid s; a_issued := a_issued s; a_nores := a_nores s; a_pend := a_pend s;
                       a_calls := a_calls s; a_buf := a_buf s; b_buf := b_buf s; b_log := b_log s;
                       wab := rest; wba := wba s; bad := bad s |} d)
  | dl_ba : forall d rest, wba s = d ++ rest ->
      delivers s (a_read excl loads D
                    {| a_nid := a_nid s; a_issued := a_issued s; a_nores := a_nores s; a_pend := a_pend s;
                       a_calls := a_calls s; a_buf := a_buf s; b_buf := b_buf s; b_log := b_log s;
                       wab := wab s; wba := rest; bad := bad s |} d).

  Lemma step_cases : forall s o,
    match o with
    | OSend _ _ | OInjAB _ | OInjBA _ => True
    | _ => delivers s (step s o)
    end.
  Proof.
    intros s o. destruct o as [e m|b|b|n|n| |]; cbn [NodeProto.step]; try exact I.
    - pose proof (take_split n (wab s)) as H.
      destruct (take n (wab s)) as [[|c d] rest]; [apply dl_none|apply dl_ab, eq_sym, H].
    - pose proof (take_split n (wba s)) as H.
      destruct (take n (wba s)) as [[|c d] rest]; [apply dl_none|apply dl_ba, eq_sym, H].
    - pose proof (take_packet_split (wab s)) as H.
      destruct (take_packet D (wab s)) as [[|c d] rest]; [apply dl_none|apply dl_ab, eq_sym, H].
    - pose proof (take_packet_split (wba s)) as H.
      destruct (take_packet D (wba s)) as [[|c d] rest]; [apply dl_none|apply dl_ba, eq_sym, H].
  Qed.

  (* the caller's counter, the ids handed to the peer (with or without result), those of sends without result, and the
     table of waiting calls: no id is reused; the ids of the waiting calls are among the issued ones, pairwise distinct,
     and disjoint from the ids of sends without result *)
  Definition ids_ok (nid : Z) (issued nores : list Z) (pend : list (Z * nat)) : Prop :=
    NoDup issued /\ (forall x, In x issued -> (x < nid)%Z) /\ NoDup (map fst pend) /\
    (forall x, In x (map fst pend) -> In x issued /\ ~ In x nores) /\
    (forall x, In x nores -> In x issued).
  Definition ids_inv (s : st) : Prop := ids_ok (a_nid s) (a_issued s) (a_nores s) (a_pend s).

  (* a read at A: finished calls leave the table *)
  Lemma ids_ok_filter : forall f n i r p, ids_ok n i r p -> ids_ok n i r (filter f p).
  Proof.
    intros f n i r p (H1 & H2 & H3 & H4 & H5).
    split; [exact H1|]. split; [exact H2|]. split; [apply NoDup_map_filter, H3|]. split; [|exact H5].
    intros x Hx. apply (H4 x), (incl_map fst (incl_filter f p)), Hx.
  Qed.

  (* an accepted send, with or without result: the counter is above every id issued so far, hence fresh for all
     three lists *)
  Lemma ids_ok_issue : forall n i r p k r' p', ids_ok n i r p ->
    (p' = p ++ [(n, k)] /\ r' = r) \/ (p' = p /\ r' = r ++ [n]) -> ids_ok (n + 1) (i ++ [n]) r' p'.
  Proof.
    intros n i r p k r' p' (H1 & H2 & H3 & H4 & H5) Hpr.
    assert (Hfresh : ~ In n i) by (intros Hx; exact (Z.lt_irrefl _ (H2 _ Hx))).
    split; [apply NoDup_snoc; auto|].
    split; [intros x Hx; apply in_snoc in Hx; destruct Hx as [Hx| ->]; [specialize (H2 _ Hx)|]; lia|].
    destruct Hpr as [[-> ->]|[-> ->]].
    - rewrite map_app. cbn [map fst]. split; [apply NoDup_snoc; [exact H3|]; intros Hx; apply Hfresh, (H4 _ Hx)|].
      split; intros x Hx; rewrite in_snoc.
      + apply in_snoc in Hx. destruct Hx as [Hx| ->]; [destruct (H4 _ Hx); auto|].
        split; [auto|]. intros Hx. apply Hfresh, (H5 _ Hx).
      + left. apply (H5 _ Hx).
    - split; [exact H3|]. split; intros x Hx.
      + destruct (H4 _ Hx) as [Ha Hb]. rewrite !in_snoc. split; [auto|]. intros [Hc| ->]; auto.
      + rewrite in_snoc in *. destruct Hx as [Hx| ->]; auto.
  Qed.

  Lemma send_ids : forall s e m, ids_inv s -> ids_inv (a_send s e m).
  Proof.
    intros s e m H. unfold NodeProto.a_send.
    destruct (fw_send e); [|exact H]. destruct (packet dumps D _); [|exact H].
    apply (ids_ok_issue _ _ _ _ (length (a_calls s)) _ _ H). destruct m; [left|right|right]; split; reflexivity.
  Qed.

  Lemma delivers_ids : forall s s', delivers s s' -> ids_inv s -> ids_inv s'.
  Proof.
    intros s s' [|d rest _|d rest _] H; [exact H| |].
    - unfold b_read. cbn [b_buf]. destruct (feed json _ D _ _) as [js buf].
      destruct (b_packets _ _ _ _ _ _ js) as [[[l o] ab] bd]. exact H.
    - unfold a_read. cbn [a_buf a_pend a_calls]. destruct (feed json _ D _ _) as [js buf].
      destruct (a_packets _ _ _ js) as [[calls ab] bd]. apply ids_ok_filter, H.
  Qed.

  Lemma step_ids : forall s o, ids_inv s -> ids_inv (step s o).
  Proof.
    intros s o H. pose proof (step_cases s o) as Hd.
    destruct o as [e m|b|b|n|n| |]; try exact (delivers_ids _ _ Hd H); [apply send_ids, H|exact H..].
  Qed.

  Lemma exec_ids : forall ops, ids_inv (exec excl dumps loads D fw_send fw_recv handler b_chan ops).
  Proof.
    intros ops. unfold exec.
    assert (H : forall s, ids_inv s -> ids_inv (fold_left step ops s)).
    { induction ops as [|o ops IH]; intros s Hs; [exact Hs|]. simpl. apply IH, step_ids, Hs. }
    apply H. split; [constructor|]. split; [intros x []|]. split; [constructor|]. split; intros x [].
  Qed.

  Lemma zget_notin : forall x l, ~ In x (map fst l) -> zget x l = None.
  Proof.
    intros x l. induction l as [|[k v] l IH]; simpl; intros H; [reflexivity|].
    destruct (Z.eqb x k) eqn:E; [apply Z.eqb_eq in E; subst; exfalso; apply H; left; reflexivity|].
    apply IH. intros Hi. apply H. right. exact Hi.
  Qed.

End MetaP.

(* a toy codec satisfying the framing premises *)
Module Toy.
  Local Open Scope N_scope.
  Definition enc (b : bool) : list N := if b then [49] else [48; 48].
  Definition parse (s : list N) : option bool :=
    match s with [49] => Some true | [48; 48] => Some false | _ => None end.
  Definition d0 : N := 126.
  Definition dr : list N := [126; 126].

  Lemma Hrt : forall p, parse (enc p) = Some p. Proof. destruct p; reflexivity. Qed.
  Lemma Hclean : forall p, ~ In d0 (enc p).
  Proof. destruct p; simpl; unfold d0; intros H; repeat (destruct H as [H|H]; [discriminate H|]); exact H. Qed.
  Lemma Hpre : forall p q r, enc p = q ++ r -> r <> [] -> parse q = None.
  Proof.
    intros p q r H Hr. destruct p; simpl in H; destruct q as [|a [|b [|c q]]]; simpl in H;
      try reflexivity; inversion H; subst; try reflexivity; try congruence;
      try (destruct q; discriminate).
  Qed.
  Lemma Hext : forall p t t', d0 :: dr = t ++ t' -> t <> [] -> t' <> [] -> parse (enc p ++ t) = None.
  Proof.
    intros p t t' H Ht Ht'. destruct t as [|a t]; [congruence|]. inversion H; subst.
    destruct p; simpl; [reflexivity|]. destruct t; reflexivity.
  Qed.
  Lemma Hdel : forall t t', d0 :: dr = t ++ t' -> t' <> [] -> parse t = None.
  Proof.
    intros t t' H Ht'. destruct t as [|a [|b [|c [|x t]]]]; try reflexivity; simpl in H; inversion H; subst;
      try congruence; try (destruct t; discriminate); try reflexivity.
  Qed.
End Toy.

Module Ex.
  Local Open Scope N_scope.
  Definition excl : list (list N) := dispatcher_attrs ++ [k_name; k_args; k_value].
  Definition ev (name : list N) : event :=
    {| ename := name; eargs := [JInt 7%Z]; ekwargs := [(k_value, JInt 1%Z)]; esuccess := false;
       efailure := false; enotify := false; echannels := [JStr [42]]; eattrs := [([116], JInt 3%Z)] |}.
  Definition e0 := ev [101; 48].
  Definition call_data := event_data excl e0 (JInt 0%Z).
  Definition loaded : event := match load_event excl call_data with Some (e, _) => e | None => e0 end.
  Definition result : json := JArr [JStr [111; 107]].
  Definition reply_data := value_data excl (JInt 0%Z) (JBool false) result loaded.
  Definition is_call (j : json) : bool :=
    match j with JObj o => match get k_name o with Some _ => true | None => false end | _ => false end.
  Definition dumps (j : json) : option (list N) := Some (if is_call j then [65] else [66]).
  Definition loads (b : list N) : option (option json) :=
    match b with [65] => Some (Some call_data) | [66] => Some (Some reply_data) | _ => Some None end.
  Definition D : list N := [126; 126; 126].
  Definition final (h : event -> hres) (cut : nat) : st :=
    exec excl dumps loads D (fun _ => true) (fun _ => true) h (JStr [110]) 
         [OSend e0 MCall; OAB cut; OAB 0%nat; OBA cut; OBA 0%nat].

  Lemma roundtrip : forall cut, In cut [0; 1; 2; 3]%nat ->
    map c_val (a_calls (final (fun _ => HVal result) cut)) = [result]
    /\ map c_fin (a_calls (final (fun _ => HVal result) cut)) = [true]
    /\ length (b_log (final (fun _ => HVal result) cut)) = 1%nat.
  Proof. intros cut H. simpl in H. repeat (destruct H as [<-|H]; [vm_compute; auto|]). contradiction. Qed.

  (* the handler raises on the peer: the call is dispatched once and the error flag comes back *)
  Definition reply_err := value_data excl (JInt 0%Z) (JBool true) JERR loaded.
  Definition loads_err (b : list N) : option (option json) :=
    match b with [65] => Some (Some call_data) | [66] => Some (Some reply_err) | _ => Some None end.
  Definition final_err (late : bool) (cut : nat) : st :=
    exec excl dumps loads_err D (fun _ => true) (fun _ => true) (fun _ => HRaise late) (JStr [110])
         [OSend e0 MCall; OAB cut; OAB 0%nat; OBA cut; OBA 0%nat].

  (* a send without result: the peer runs the event once and answers; the answer is ignored, nobody is
     resumed, the id stays used up; a following call gets the next id *)
  Definition final_nores (m : smode) : st :=
    exec excl dumps loads D (fun _ => true) (fun _ => true) (fun _ => HVal result) (JStr [110])
         [OSend e0 m; OABP; OBAP; OSend e0 MCall].

  Lemma e0_wf : wf_event e0 /\ NoDup (map fst (eattrs e0)).
  Proof. repeat split; try reflexivity. repeat constructor. intros []. Qed.
End Ex.
