(* Proofs about the poller model (Model/Poller.v).
   The invariant [Inv] says that the kernel's interest table and _map mirror the two lists.  An API call on o is a
   BasePoller method, which changes o's roles and nothing else ([only_o]) and so breaks the mirror at o only, followed by
   _updateRegistration, which rewrites o's slot from o's roles ([tables]) and restores it ([MInv_update], stated from the
   state before the method); _disconnect in an iteration is the same with [forget] for the second half ([Inv_forget]).
   What an iteration emits is read off the mirror ([poll_events_inv], [poll_events_live]).  Select and Poll/EPoll are
   compared one descriptor at a time: a step other than an iteration acts on a descriptor's roles by a function of the
   step alone ([mask_step]), an iteration of Poll/EPoll keeps a descriptor as it is or drops it with a _disconnect
   ([processes_keep]), and what the two sides emit in one iteration is related by [agree_events]. *)
From Coq Require Import List Arith Bool.
From Circ Require Import Lib.ListFacts Lib.ListMem Model.Poller.
Import ListNotations.

Lemma mem_In : forall x l, mem x l = true <-> In x l.
Proof. intros. apply existsb_eqb_In. Qed.

(* Model/Poller.v's [upd] is on option-valued maps only: as a constant it is not convertible with the one of
   Lib/FunUpd.v, and [rewrite] with the lemmas there finds no instance of it *)
Lemma upd_same : forall A (m : nat -> option A) k v, upd m k v k = v.
Proof. intros. unfold upd. rewrite Nat.eqb_refl. reflexivity. Qed.

Lemma upd_other : forall A (m : nat -> option A) k v j, j <> k -> upd m k v j = m j.
Proof. intros. unfold upd. destruct (Nat.eqb_spec j k); [contradiction | reflexivity]. Qed.

Lemma upd_ext : forall A (m m' : nat -> option A) k v, (forall j, m j = m' j) -> forall j, upd m k v j = upd m' k v j.
Proof. intros A m m' k v H j. unfold upd. destruct (j =? k); [reflexivity | apply H]. Qed.

Lemma remove1_absent : forall x l, ~ In x l -> remove1 x l = l.
Proof.
  induction l as [|z t IH]; simpl; intros H; [reflexivity|].
  destruct (Nat.eqb_spec x z).
  - subst. exfalso. apply H. left. reflexivity.
  - f_equal. apply IH. intro. apply H. right. assumption.
Qed.

Lemma mem_remove1_neq : forall x y l, x <> y -> mem x (remove1 y l) = mem x l.
Proof. intros x y l Hn. apply existsb_eqb_ext. split; [apply In_remove1 | apply In_remove1_neq; exact Hn]. Qed.

Lemma mem_app_one : forall x y l, mem x (l ++ [y]) = mem x l || (x =? y).
Proof. intros. unfold mem. rewrite existsb_app. simpl. rewrite orb_false_r. reflexivity. Qed.

Lemma mem_remove1 : forall x y l, NoDup l -> mem x (remove1 y l) = mem x l && negb (x =? y).
Proof.
  intros x y l Hn. destruct (Nat.eqb_spec x y) as [->|Hne]; simpl.
  - rewrite andb_false_r. apply existsb_eqb_notIn, remove1_notIn, Hn.
  - rewrite andb_true_r. apply mem_remove1_neq. exact Hne.
Qed.

Definition reading (s : state) (o : nat) : Prop := In o (rd s).
Definition writing (s : state) (o : nat) : Prop := In o (wr s).
Definition registered (s : state) (o : nat) : Prop := In o (rd s) \/ In o (wr s).

(* environment assumption for an iteration: poll/epoll report every number of the interest table at most once
   (in any order) *)
Definition order_ok (s : state) (order : list nat) : Prop :=
  NoDup order /\ forall f, kreg s f <> None -> In f order.

(* API precondition P1: a role is added only when it is not registered already
   (every caller in circuits guards with isReading / isWriting) *)
Definition pre (s : state) (x : op) : Prop :=
  match x with
  | AddR _ o => ~ In o (rd s)
  | AddW _ o => ~ In o (wr s)
  | Tick _ order => order_ok s order
  | _ => True
  end.

Inductive reach (k : kind) : state -> Prop :=
| reach_init : reach k init
| reach_step : forall s x s' e, reach k s -> pre s x -> step k s x = Ok s' e -> reach k s'.

Record WInv (s : state) : Prop := {
  w_inj : forall o f, fds s o = Some f <-> holder s f = Some o;
  w_born : forall o f, fds s o = Some f -> born s o = Some f;
  w_reg_born : forall o, registered s o -> born s o <> None;
  w_nd_r : NoDup (rd s);
  w_nd_w : NoDup (wr s);
  w_tg : forall o, tg s o <> None -> registered s o
}.

Definition mask (s : state) (o : nat) : bool * bool := (mem o (rd s), mem o (wr s)).

Record MInv (s : state) : Prop := {
  m_born : forall f o, pmap s f = Some o -> born s o = Some f;
  m_mirror : forall o f, fds s o = Some f -> registered s o -> pmap s f = Some o /\ kreg s f = Some (mask s o);
  (* a kernel entry whose _map object still has that number carries exactly that object's interest *)
  m_exact : forall f o m, pmap s f = Some o -> fds s o = Some f -> kreg s f = Some m -> m = mask s o /\ registered s o
}.

(* epoll only: the kernel drops closed descriptors, so every entry is live *)
Definition EInv (s : state) : Prop :=
  forall f m, kreg s f = Some m -> exists o, pmap s f = Some o /\ fds s o = Some f.

Definition Inv (k : kind) (s : state) : Prop :=
  WInv s /\ (k <> KSelect -> MInv s) /\ (k = KEPoll -> EInv s).

Definition reg (m : bool * bool) : bool := fst m || snd m.

Lemma registered_mask : forall s o, registered s o <-> reg (mask s o) = true.
Proof.
  intros s o. unfold registered, reg, mask. simpl. rewrite orb_true_iff, !mem_In. reflexivity.
Qed.

Lemma registered_dec : forall s o, registered s o \/ ~ registered s o.
Proof.
  intros s o. destruct (reg (mask s o)) eqn:E.
  - left. apply registered_mask. exact E.
  - right. intro Hr. apply registered_mask in Hr. congruence.
Qed.

Lemma unregistered_mask : forall s o, ~ registered s o -> mask s o = (false, false).
Proof. intros s o Hn. unfold mask. f_equal; apply existsb_eqb_notIn; intro Hi; apply Hn; [left | right]; exact Hi. Qed.

Lemma mask_eq : forall s1 s2 o,
  mask s1 o = mask s2 o <-> (In o (rd s1) <-> In o (rd s2)) /\ (In o (wr s1) <-> In o (wr s2)).
Proof.
  intros s1 s2 o. unfold mask. split.
  - intros H. injection H as Er Ew. rewrite <- !mem_In, Er, Ew. tauto.
  - intros [A B]. f_equal; apply existsb_eqb_ext; assumption.
Qed.

Definition only_o (o : nat) (s s1 : state) : Prop :=
  fds s1 = fds s /\ holder s1 = holder s /\ born s1 = born s /\ pmap s1 = pmap s /\ kreg s1 = kreg s /\
  forall o', o' <> o -> mask s1 o' = mask s o' /\ tg s1 o' = tg s o'.

Lemma only_o_refl : forall o s, only_o o s s.
Proof. intros o s. unfold only_o. repeat split; reflexivity. Qed.

Lemma only_o_reg : forall o s0 s o', only_o o s0 s -> o' <> o -> (registered s o' <-> registered s0 o').
Proof. intros o s0 s o' (_ & _ & _ & _ & _ & Ho) Hn. rewrite !registered_mask, (proj1 (Ho o' Hn)). reflexivity. Qed.

(* the BasePoller half of an API call: the object it is on and the state before _updateRegistration ([step] goes on with [api]) *)
Definition base (s : state) (x : op) : option (nat * state) :=
  match x with
  | AddR c o => Some (o, b_addR s c o)
  | AddW c o => Some (o, b_addW s c o)
  | RemR o => Some (o, b_remR s o)
  | RemW o => Some (o, b_remW s o)
  | Discard o => Some (o, b_discard s o)
  | _ => None
  end.

(* with this the five BasePoller methods are all of the form set_tg (set_wr (set_rd s _) _) _,
   and the fields of their results are found by [simpl] *)
Lemma drop_target_set : forall s o,
  drop_target s o = set_tg s (if mem o (rd s) || mem o (wr s) then tg s else upd (tg s) o None).
Proof. intros s o. unfold drop_target. destruct (mem o (rd s) || mem o (wr s)); [destruct s|]; reflexivity. Qed.

Lemma base_only_o : forall s x o s1, base s x = Some (o, s1) -> only_o o s s1.
Proof.
  intros s x o s1 H. destruct x; try discriminate; injection H as -> <-;
    unfold b_remR, b_remW; rewrite ?drop_target_set; repeat (split; [reflexivity|]); intros o' Hn; unfold mask; simpl.
  1,2: rewrite mem_app_one, (proj2 (Nat.eqb_neq o' o) Hn), orb_false_r, upd_other by exact Hn; split; reflexivity.
  1,2: rewrite mem_remove1_neq by exact Hn; split; [reflexivity|];
       destruct (_ || _); [reflexivity | apply upd_other; exact Hn].
  rewrite !mem_remove1_neq, upd_other by exact Hn. split; reflexivity.
Qed.

Lemma b_discard_gone : forall s o, WInv s -> ~ registered (b_discard s o) o.
Proof.
  intros s o HW [Hi|Hi]; simpl in Hi;
    [apply (remove1_notIn o _ (w_nd_r _ HW)) in Hi | apply (remove1_notIn o _ (w_nd_w _ HW)) in Hi]; exact Hi.
Qed.

(* P1 is what keeps the lists duplicate-free *)
Lemma WInv_base : forall s x o s1, WInv s -> pre s x -> base s x = Some (o, s1) -> born s o <> None -> WInv s1.
Proof.
  intros s x o s1 [Wi Wb Wr N1 N2 Wt] Hp Hb Hbo.
  pose proof (base_only_o _ _ _ _ Hb) as Ho. pose proof (fun o' => only_o_reg _ _ _ o' Ho) as Hreg.
  destruct Ho as (E1 & E2 & E3 & _ & _ & Ho).
  assert (Hop : NoDup (rd s1) /\ NoDup (wr s1) /\ (tg s1 o <> None -> registered s1 o)).
  { destruct x; try discriminate; injection Hb as -> <-;
      unfold b_remR, b_remW, registered; rewrite ?drop_target_set; simpl in *.
    - split; [apply NoDup_snoc; assumption | split; [exact N2|]].
      intros _. left. apply in_app_iff. right. left. reflexivity.
    - split; [exact N1 | split; [apply NoDup_snoc; assumption|]].
      intros _. right. apply in_app_iff. right. left. reflexivity.
    - split; [apply NoDup_remove1; exact N1 | split; [exact N2|]].
      rewrite <- !mem_In, <- orb_true_iff. destruct (_ || _); [reflexivity | rewrite upd_same; congruence].
    - split; [exact N1 | split; [apply NoDup_remove1; exact N2|]].
      rewrite <- !mem_In, <- orb_true_iff. destruct (_ || _); [reflexivity | rewrite upd_same; congruence].
    - split; [apply NoDup_remove1; exact N1 | split; [apply NoDup_remove1; exact N2|]].
      rewrite upd_same. congruence. }
  split; rewrite ?E1, ?E2, ?E3; try assumption; try apply Hop.
  - intros o' Hr. destruct (Nat.eq_dec o' o) as [->|Hn]; [exact Hbo | apply Wr; apply Hreg; assumption].
  - intros o' Ht. destruct (Nat.eq_dec o' o) as [->|Hn]; [apply Hop; exact Ht|].
    apply Hreg; [exact Hn|]. apply Wt. destruct (Ho o' Hn) as [_ <-]. exact Ht.
Qed.

(* the rest of the state after _updateRegistration(o): as it was, but that o's target goes with o's last role
   (the discard of its else-branch) *)
Record api_frame (s : state) (o : nat) (s' : state) : Prop := {
  a_fds : fds s' = fds s;
  a_holder : holder s' = holder s;
  a_born : born s' = born s;
  a_rd : rd s' = rd s;
  a_wr : wr s' = wr s;
  a_tg : forall o', tg s' o' = tg s o' \/ (o' = o /\ ~ registered s o /\ tg s' o' = None)
}.

(* the two tables after _updateRegistration(o): o's slot is rewritten from o's roles, _map entries naming o
   may go, nothing else moves *)
Record tables (s : state) (o : nat) (s' : state) : Prop := {
  t_open : registered s o -> fds s o <> None;
  t_kreg_o : forall f, fds s o = Some f -> kreg s' f = if reg (mask s o) then Some (mask s o) else None;
  t_kreg : forall j, fds s o <> Some j -> kreg s' j = kreg s j;
  t_pmap_o : forall f, fds s o = Some f -> registered s o -> pmap s' f = Some o;
  t_pmap_sub : forall j o', pmap s' j = Some o' -> pmap s j = Some o' \/ (o' = o /\ fds s o = Some j);
  t_pmap : forall j o', o' <> o -> fds s o <> Some j -> pmap s j = Some o' -> pmap s' j = Some o'
}.

Lemma drop_obj_some : forall m o j o', drop_obj m o j = Some o' <-> m j = Some o' /\ o' <> o.
Proof.
  intros m o j o'. unfold drop_obj. destruct (m j) as [x|]; [|split; [discriminate | intros [H _]; discriminate]].
  destruct (Nat.eqb_spec x o); split; try discriminate.
  - intros [H Hn]. congruence.
  - intros H. injection H as <-. auto.
  - intros [H _]. exact H.
Qed.

Lemma unregister_set : forall s o,
  unregister s o = set_kreg s (match fds s o with Some f => upd (kreg s) f None | None => kreg s end).
Proof. intros s o. unfold unregister. destruct (fds s o); [|destruct s]; reflexivity. Qed.

Lemma update_reg_spec : forall k s o s', update_reg k s o = Some s' -> api_frame s o s' /\ tables s o s'.
Proof.
  intros k s o s' H. unfold update_reg in H. rewrite unregister_set in H. simpl in H.
  change (mem o (rd s) || mem o (wr s)) with (reg (mask s o)) in H.
  destruct (reg (mask s o)) eqn:Er.
  - (* a role is left: o's slot is written *)
    destruct (fds s o) as [f|] eqn:Ef; [|discriminate]. injection H as <-.
    split; split; simpl; try reflexivity.
    + intros o'. left. reflexivity.
    + intros _. rewrite Ef. discriminate.
    + intros f' E. rewrite Ef in E. injection E as <-. rewrite !upd_same, Er. reflexivity.
    + intros j Hn. rewrite Ef in Hn. rewrite !upd_other by congruence. reflexivity.
    + intros f' E _. rewrite Ef in E. injection E as <-. apply upd_same.
    + intros j o' E. unfold upd in E.
      destruct (Nat.eqb_spec j f) as [->|Hn]; [right; injection E as <-; split; [reflexivity | exact Ef] | left; exact E].
    + intros j o' _ Hn E. rewrite Ef in Hn. rewrite upd_other by congruence. exact E.
  - (* none is left: the slot is cleared, and so is part of _map *)
    assert (Hr : ~ registered s o) by (rewrite registered_mask, Er; discriminate).
    assert (Nr : ~ In o (rd s)) by (intro; apply Hr; left; assumption).
    assert (Nw : ~ In o (wr s)) by (intro; apply Hr; right; assumption).
    assert (HP : exists P, s' = set_pmap (b_discard (unregister s o) o) P /\
                 (forall j o', P j = Some o' -> pmap s j = Some o') /\
                 (forall j o', o' <> o -> fds s o <> Some j -> pmap s j = Some o' -> P j = Some o')).
    { rewrite unregister_set. destruct (fds s o) as [f|] eqn:Ef; destruct k; injection H as <-;
        eexists; (split; [reflexivity|]); simpl.
      1,3,4,6: split; intros j o'; rewrite drop_obj_some; tauto.
      - split; intros j o'; unfold upd; destruct (Nat.eqb_spec j f) as [->|]; congruence.
      - split; auto. }
    destruct HP as (P & -> & Psub & Pkeep). rewrite unregister_set.
    split; split; simpl; rewrite ?remove1_absent by assumption; try reflexivity.
    + intros o'. unfold upd. destruct (Nat.eqb_spec o' o); [right; auto | left; reflexivity].
    + intros; contradiction.
    + intros f E. rewrite E, Er. apply upd_same.
    + intros j Hn. destruct (fds s o) as [f|]; [apply upd_other; congruence | reflexivity].
    + intros; contradiction.
    + intros j o' E. left. apply Psub. exact E.
    + exact Pkeep.
Qed.

Lemma api_spec : forall k s o s', api k s o = Some s' -> api_frame s o s' /\ (k <> KSelect -> tables s o s').
Proof.
  intros k s o s' H. destruct k; simpl in H; try (destruct (update_reg_spec _ _ _ _ H); split; auto).
  injection H as <-. split; [split; try reflexivity; left; reflexivity | congruence].
Qed.

Lemma step_tick : forall k s st order s' e, step k s (Tick st order) = Ok s' e <-> tick k s st order = (s', e).
Proof. intros. simpl. destruct (tick k s st order). split; intros H; inversion H; reflexivity. Qed.

Lemma lift_ok : forall o s e, lift o = Ok s e -> o = Some s /\ e = [].
Proof. intros [x|] s e H; simpl in H; inversion H; auto. Qed.

(* the states after Open o f and Close o, as [step] builds them *)
Definition opened (s : state) (o f : nat) : state :=
  {| fds := upd (fds s) o (Some f); holder := upd (holder s) f (Some o); born := upd (born s) o (Some f);
     rd := rd s; wr := wr s; tg := tg s; pmap := pmap s; kreg := kreg s |}.
Definition closed_at (k : kind) (s : state) (o f : nat) : state :=
  {| fds := upd (fds s) o None; holder := upd (holder s) f None; born := born s;
     rd := rd s; wr := wr s; tg := tg s; pmap := pmap s;
     kreg := match k with KEPoll => upd (kreg s) f None | _ => kreg s end |}.

(* what a step that returns has done; the proofs about steps open [step] through this *)
Inductive step_is (k : kind) (s : state) : op -> state -> list ev -> Prop :=
| si_api : forall x o s1 s', base s x = Some (o, s1) -> born s o <> None -> api_frame s1 o s' ->
    (k <> KSelect -> tables s1 o s') -> step_is k s x s' []
| si_open : forall o f, born s o = None -> holder s f = None -> step_is k s (Open o f) (opened s o f) []
| si_close : forall o f, fds s o = Some f -> step_is k s (Close o) (closed_at k s o f) []
| si_tick : forall st order s' e, tick k s st order = (s', e) -> step_is k s (Tick st order) s' e.

Lemma step_effect : forall k s x s' e, step k s x = Ok s' e -> step_is k s x s' e.
Proof.
  intros k s x s' e H. destruct (base s x) as [[o s1]|] eqn:Eb.
  - assert (E : step k s x = match born s o with None => Invalid | Some _ => lift (api k s1 o) end)
      by (destruct x; try discriminate; injection Eb as -> <-; reflexivity).
    rewrite E in H. destruct (born s o) eqn:Ebo; [|discriminate]. apply lift_ok in H. destruct H as [Ha ->].
    destruct (api_spec _ _ _ _ Ha). eapply si_api; [exact Eb | congruence | assumption | assumption].
  - destruct x; try discriminate.
    + simpl in H. destruct (born s o) eqn:Eo; [discriminate|]. destruct (holder s f) eqn:Eh; [discriminate|].
      injection H as <- <-. apply si_open; assumption.
    + simpl in H. destruct (fds s o) as [f|] eqn:Ef; [|discriminate]. injection H as <- <-. apply si_close. exact Ef.
    + apply si_tick. apply step_tick. exact H.
Qed.

Lemma WInv_update : forall s o s', WInv s -> api_frame s o s' -> WInv s'.
Proof.
  intros s o s' [Wi Wb Wr N1 N2 Wt] [Af Ah Ab Ar Aw At].
  split; unfold registered in *; rewrite ?Af, ?Ah, ?Ab, ?Ar, ?Aw; try assumption.
  intros o' Ht. apply Wt. destruct (At o') as [E|(_ & _ & E)]; congruence.
Qed.

(* The repair: the mirror held in s0, before the BasePoller method changed o's roles; _updateRegistration(o) restores it.
   Away from o nothing has moved since s0: another object's number is not o's, and its _map entry does not name o. *)
Lemma MInv_update : forall s0 o s s', WInv s0 -> MInv s0 -> only_o o s0 s -> api_frame s o s' -> tables s o s' -> MInv s'.
Proof.
  intros s0 o s s' HW [Mb Mm Me] Ho [Af _ Ab Ar Aw _] [_ Tko Tk Tpo Tps Tp].
  pose proof (fun o' => only_o_reg _ _ _ o' Ho) as Hr0. destruct Ho as (E1 & _ & E3 & E4 & E5 & Ho).
  rewrite E1 in *. rewrite E4 in *. rewrite E5 in *.
  assert (Hmask : forall o', mask s' o' = mask s o') by (intros; unfold mask; rewrite Ar, Aw; reflexivity).
  assert (Hreg : forall o', registered s' o' <-> registered s o') by (intros; rewrite !registered_mask, Hmask; reflexivity).
  assert (Hslot : forall o' f, o' <> o -> fds s0 o' = Some f -> fds s0 o <> Some f).
  { intros o' f Hn E E'. apply (w_inj _ HW) in E. apply (w_inj _ HW) in E'. congruence. }
  split.
  - intros f o' E. rewrite Ab, E3. destruct (Tps f o' E) as [E'|[-> E']]; [eapply Mb; exact E' | apply (w_born _ HW); exact E'].
  - intros o' f. rewrite Af, Hreg, Hmask. intros E Hr. destruct (Nat.eq_dec o' o) as [->|Hn].
    + split; [apply Tpo; assumption|]. rewrite (Tko f E), (proj1 (registered_mask s o) Hr). reflexivity.
    + rewrite (proj1 (Ho o' Hn)). destruct (Mm o' f E (proj1 (Hr0 o' Hn) Hr)) as [Xp Xk]. pose proof (Hslot o' f Hn E) as Hs.
      split; [apply Tp; assumption | rewrite Tk by exact Hs; exact Xk].
  - intros f o' m. rewrite Af, Hreg, Hmask. intros Ep E Ek. destruct (Nat.eq_dec o' o) as [->|Hn].
    + rewrite (Tko f E) in Ek. destruct (reg (mask s o)) eqn:Er; [|discriminate]. injection Ek as <-.
      split; [reflexivity | apply registered_mask; exact Er].
    + pose proof (Hslot o' f Hn E) as Hs. rewrite Tk in Ek by exact Hs.
      destruct (Tps f o' Ep) as [Ep'|[-> _]]; [|contradiction]. rewrite (proj1 (Ho o' Hn)), (Hr0 o' Hn). eapply Me; eassumption.
Qed.

Lemma EInv_update : forall s0 o s s', EInv s0 -> only_o o s0 s -> api_frame s o s' -> tables s o s' -> EInv s'.
Proof.
  intros s0 o s s' He (E1 & _ & _ & E4 & E5 & _) [Af _ _ _ _ _] [_ Tko Tk Tpo Tps Tp] f m Ek. rewrite Af.
  rewrite E1 in *. rewrite E4 in *. rewrite E5 in *.
  assert (Hd : fds s0 o = Some f \/ fds s0 o <> Some f).
  { destruct (fds s0 o) as [fo|]; [destruct (Nat.eq_dec fo f); [left | right]; congruence | right; discriminate]. }
  destruct Hd as [E|Hn].
  - rewrite (Tko f E) in Ek. destruct (reg (mask s o)) eqn:Er; [|discriminate].
    exists o. split; [apply Tpo; [exact E | apply registered_mask; exact Er] | exact E].
  - rewrite Tk in Ek by exact Hn. destruct (He f m Ek) as (o' & Ep & Ef). exists o'. split; [|exact Ef].
    apply Tp; [intros ->; contradiction | exact Hn | exact Ep].
Qed.

Lemma Inv_api : forall k s x o s1 s', Inv k s -> pre s x -> base s x = Some (o, s1) -> born s o <> None ->
  api_frame s1 o s' -> (k <> KSelect -> tables s1 o s') -> Inv k s'.
Proof.
  intros k s x o s1 s' (HW & HM & HE) Hp Hb Hbo Ha Ht. pose proof (base_only_o _ _ _ _ Hb) as Ho. split; [|split].
  - eapply WInv_update; [eapply WInv_base; eassumption | exact Ha].
  - intros Hk. eapply MInv_update; [exact HW | apply HM; exact Hk | exact Ho | exact Ha | apply Ht; exact Hk].
  - intros Hk. eapply EInv_update; [apply HE; exact Hk | exact Ho | exact Ha | apply Ht; subst; discriminate].
Qed.

Lemma Inv_open : forall k s o f, Inv k s -> born s o = None -> holder s f = None -> Inv k (opened s o f).
Proof.
  intros k s o f (HW & HM & HE) Eb Eh. destruct HW as [Wi Wb Wr Wn1 Wn2 Wt].
  assert (Hfo : fds s o = None).
  { destruct (fds s o) eqn:E; [|reflexivity]. apply Wb in E. congruence. }
  split; [|split].
  - split; simpl; try assumption.
    + intros o' f'. unfold upd. destruct (Nat.eqb_spec o' o); destruct (Nat.eqb_spec f' f); subst.
      * split; reflexivity.
      * split; intro H; [inversion H; congruence|]. apply Wi in H. congruence.
      * split; intro H; [|inversion H; congruence]. apply Wi in H. congruence.
      * apply Wi.
    + intros o' f'. unfold upd. destruct (Nat.eqb_spec o' o); [auto | apply Wb].
    + intros o' Hr. unfold upd. destruct (Nat.eqb_spec o' o); [discriminate | apply Wr; exact Hr].
  - intros Hk. destruct (HM Hk) as [Mb Mm Me]. split; simpl.
    + intros f' o' Hp. unfold upd. destruct (Nat.eqb_spec o' o); [subst; apply Mb in Hp; congruence | apply Mb; exact Hp].
    + intros o' f' Hfd Hr. unfold upd in Hfd. destruct (Nat.eqb_spec o' o).
      * subst. exfalso. apply (Wr o); [exact Hr | exact Eb].
      * apply Mm; assumption.
    + intros f' o' m Hp Hfd Hkr. unfold upd in Hfd. destruct (Nat.eqb_spec o' o).
      * subst. apply Mb in Hp. congruence.
      * eapply Me; eassumption.
  - intros Hk f' m Hkr. simpl in *. destruct (HE Hk f' m Hkr) as (o' & Hp & Hfd).
    exists o'. split; [exact Hp|]. unfold upd. destruct (Nat.eqb_spec o' o); [subst; congruence | exact Hfd].
Qed.

Lemma Inv_close : forall k s o f, Inv k s -> fds s o = Some f -> Inv k (closed_at k s o f).
Proof.
  intros k s o f (HW & HM & HE) Ef. destruct HW as [Wi Wb Wr Wn1 Wn2 Wt].
  assert (Hinj : forall o' f', fds s o' = Some f' -> o' <> o -> f' <> f).
  { intros o' f' H1 H2 ->. apply Wi in H1. apply Wi in Ef. congruence. }
  split; [|split].
  - split; simpl; try assumption.
    + intros o' f'. unfold upd. destruct (Nat.eqb_spec o' o); destruct (Nat.eqb_spec f' f); subst.
      * split; discriminate.
      * split; [discriminate|]. intro H. apply Wi in H. congruence.
      * split; [|discriminate]. intro H. exfalso. eapply Hinj; eauto.
      * apply Wi.
    + intros o' f'. unfold upd. destruct (Nat.eqb_spec o' o); [discriminate | apply Wb].
  - intros Hk. destruct (HM Hk) as [Mb Mm Me]. split; simpl.
    + exact Mb.
    + intros o' f' Hfd Hr. unfold upd in Hfd. destruct (Nat.eqb_spec o' o); [discriminate|].
      destruct (Mm o' f' Hfd Hr) as [A B]. split; [exact A|].
      destruct k; try exact B. rewrite upd_other; [exact B | eapply Hinj; eauto].
    + intros f' o' m Hp Hfd Hkr. unfold upd in Hfd. destruct (Nat.eqb_spec o' o); [discriminate|].
      eapply Me; try eassumption.
      destruct k; try exact Hkr. unfold upd in Hkr. destruct (Nat.eqb_spec f' f); [discriminate | exact Hkr].
  - intros Hk. subst k. intros f' m Hkr. simpl in Hkr. unfold upd in Hkr. destruct (Nat.eqb_spec f' f); [discriminate|].
    simpl.
    destruct (HE eq_refl f' m Hkr) as (o' & Hp & Hfd). exists o'. split; [exact Hp|].
    unfold upd. destruct (Nat.eqb_spec o' o); [subst; congruence | exact Hfd].
Qed.

Lemma process_cases : forall k s f r s' e, process k s (f, r) = (s', e) ->
  (s' = s /\ forall x, In x e -> exists o c, x = ERead o c \/ x = EWrite o c) \/
  (exists o, pmap s f = Some o /\ ~ registered s o /\ s' = forget s f /\ e = []) \/
  (exists o, pmap s f = Some o /\ s' = b_discard (forget s f) o /\ e = [EDisc o (target s o)]).
Proof.
  intros k s f r s' e H. unfold process in H.
  destruct (pmap s f) as [o|] eqn:Ep.
  - match type of H with (if ?c then _ else _) = _ => destruct c eqn:Est end.
    + destruct (mem o (rd s) || mem o (wr s)) eqn:Em; inversion H; subst; clear H.
      * right. right. exists o. auto.
      * right. left. exists o. repeat split; try reflexivity.
        intro Hr. apply registered_mask in Hr. unfold reg, mask in Hr. simpl in Hr. congruence.
    + match type of H with (if ?c then _ else _) = _ => destruct c eqn:Eh end; inversion H; subst; clear H.
      * right. right. exists o. auto.
      * left. split; [reflexivity|]. intros x Hx. apply in_app_iff in Hx.
        destruct Hx as [Hx|Hx]; [destruct (r_in r) | destruct (r_out r)]; simpl in Hx; try contradiction;
          destruct Hx as [Hx|[]]; subst; eauto.
  - inversion H; subst. left. split; [reflexivity|]. intros x [].
Qed.

(* _disconnect, second half: the entry of f, which named o, goes; o has no role left in s (s is s0, or s0 after discard(o)) *)
Lemma Inv_forget : forall k s0 s f o, k <> KSelect -> Inv k s0 -> WInv s -> only_o o s0 s ->
  pmap s0 f = Some o -> ~ registered s o -> Inv k (forget s f).
Proof.
  intros k s0 s f o Hk (_ & HM & HE) HW Ho Hp Hn. destruct (HM Hk) as [Mb Mm Me].
  pose proof (fun o' => only_o_reg _ _ _ o' Ho) as Hr0. destruct Ho as (E1 & _ & E3 & E4 & E5 & Ho).
  split; [|split].
  - destruct HW. split; assumption.
  - intros _. split; simpl; rewrite ?E1, ?E3, ?E4, ?E5.
    + intros f' o' H. unfold upd in H. destruct (Nat.eqb_spec f' f); [discriminate | eapply Mb; exact H].
    + intros o' f' Hfd Hr. change (registered s o') in Hr. change (mask (forget s f) o') with (mask s o').
      assert (Hno : o' <> o) by (intros ->; contradiction).
      destruct (Mm o' f' Hfd (proj1 (Hr0 o' Hno) Hr)) as [A B].
      assert (f' <> f) by (intros ->; congruence).
      rewrite !upd_other, (proj1 (Ho o' Hno)) by assumption. split; assumption.
    + intros f' o' m H1 H2 H3. unfold upd in H1, H3. destruct (Nat.eqb_spec f' f) as [|Hf]; [discriminate|].
      assert (Hno : o' <> o) by (intros ->; apply Hf; apply Mb in H1; apply Mb in Hp; congruence).
      change (m = mask s o' /\ registered s o'). rewrite (proj1 (Ho o' Hno)), (Hr0 o' Hno). apply (Me f'); assumption.
  - intros Hk' f' m H. simpl in H. rewrite E5 in H. unfold upd in H. destruct (Nat.eqb_spec f' f); [discriminate|].
    destruct (HE Hk' f' m H) as (o' & A & B). exists o'. simpl. rewrite E4, E1, upd_other by assumption. split; assumption.
Qed.

Lemma Inv_process : forall k s fr s' e, k <> KSelect -> Inv k s -> process k s fr = (s', e) -> Inv k s'.
Proof.
  intros k s [f r] s' e Hk HI H. pose proof HI as (HW & HM & _).
  destruct (process_cases _ _ _ _ _ _ H) as [[-> _]|[(o & Hp & Hn & -> & _)|(o & Hp & -> & _)]].
  - exact HI.
  - exact (Inv_forget k s s f o Hk HI HW (only_o_refl o s) Hp Hn).
  - (* _disconnect: discard(o) as in the API, then the same *)
    change (b_discard (forget s f) o) with (forget (b_discard s o) f).
    apply (Inv_forget k s _ f o Hk HI); [|apply (base_only_o s (Discard o)); reflexivity | exact Hp | apply b_discard_gone; exact HW].
    apply (WInv_base s (Discard o) o); [exact HW | exact I | reflexivity|].
    rewrite (m_born _ (HM Hk) _ _ Hp). discriminate.
Qed.

(* from here on a step of [processes] is analysed through the lemmas on [process], not by unfolding it *)
#[local] Arguments process : simpl never.

Lemma Inv_processes : forall k l s s' e, k <> KSelect -> Inv k s -> processes k s l = (s', e) -> Inv k s'.
Proof.
  induction l as [|fr t IH]; simpl; intros s s' e Hk HI H.
  - inversion H; subst. exact HI.
  - destruct (process k s fr) as [s1 e1] eqn:E1. destruct (processes k s1 t) as [s2 e2] eqn:E2.
    inversion H; subst. eapply IH; [exact Hk | eapply Inv_process; eassumption | exact E2].
Qed.

Lemma WInv_preen : forall s, WInv s -> WInv (preen s).
Proof.
  intros s [Wi Wb Wr Wn1 Wn2 Wt]. split; simpl; try assumption.
  - intros o [H|H]; apply filter_In in H; destruct H as [H _]; apply Wr; [left|right]; exact H.
  - apply NoDup_filter. exact Wn1.
  - apply NoDup_filter. exact Wn2.
  - intros o Ht. destruct (closed s o) eqn:Ec; simpl in Ht.
    + destruct (mem o (rd s) || mem o (wr s)) eqn:Em; [congruence|].
      apply Wt in Ht. apply registered_mask in Ht. unfold reg, mask in Ht. simpl in Ht. congruence.
    + apply Wt in Ht. destruct Ht as [H|H]; [left|right]; simpl; apply filter_In; (split; [exact H | rewrite Ec; reflexivity]).
Qed.

Lemma Inv_tick : forall k s st order s' e, Inv k s -> tick k s st order = (s', e) -> Inv k s'.
Proof.
  intros k s st order s' e HI H. destruct k; simpl in H.
  - unfold select_tick in H. destruct HI as (HW & _ & _).
    destruct (existsb (closed s) (rd s) || existsb (closed s) (wr s)); inversion H; subst.
    + split; [apply WInv_preen; exact HW | split; intros; congruence].
    + split; [exact HW | split; intros; congruence].
  - eapply Inv_processes; [discriminate | exact HI | exact H].
  - eapply Inv_processes; [discriminate | exact HI | exact H].
Qed.

Lemma Inv_init : forall k, Inv k init.
Proof.
  intros k. split; [|split].
  - split; simpl.
    + intros o f; split; discriminate.
    + intros; discriminate.
    + intros o [[]|[]].
    + constructor.
    + constructor.
    + intros o H. congruence.
  - intros _. split; simpl; intros; discriminate.
  - intros _ f m H. discriminate.
Qed.

Lemma Inv_step : forall k s x s' e, Inv k s -> pre s x -> step k s x = Ok s' e -> Inv k s'.
Proof.
  intros k s x s' e HI Hpre H.
  destruct (step_effect _ _ _ _ _ H) as [x o s1 s' Eb Hbo Ha Ht|o f Eb Eh|o f Ef|st order s' e Et].
  - eapply Inv_api; eassumption.
  - apply Inv_open; assumption.
  - apply Inv_close; assumption.
  - eapply Inv_tick; eassumption.
Qed.

Theorem reach_Inv : forall k s, reach k s -> Inv k s.
Proof.
  intros k s H. induction H as [|s x s' e _ IH Hp Hs]; [apply Inv_init | eapply Inv_step; eassumption].
Qed.

Definition clean (s : state) : Prop := existsb (closed s) (rd s) || existsb (closed s) (wr s) = false.

Lemma filter_ready : forall s st w l o, In o (filter (sel_ready s st w) l) <->
  In o l /\ exists f, fds s o = Some f /\ (if w then sw (st f) else sr (st f)) = true.
Proof.
  intros s st w l o. rewrite filter_In. unfold sel_ready. destruct (fds s o) as [f|].
  - split; intros [Hi H]; (split; [exact Hi|]); [exists f; auto | destruct H as (f' & E & H); injection E as <-; exact H].
  - split; intros [Hi H]; [discriminate | destruct H as (f' & E & _); discriminate].
Qed.

Lemma select_events : forall s st x, In x (snd (select_tick s st)) <->
  clean s /\ match x with
             | ERead o c => In o (rd s) /\ (exists f, fds s o = Some f /\ sr (st f) = true) /\ c = target s o
             | EWrite o c => In o (wr s) /\ (exists f, fds s o = Some f /\ sw (st f) = true) /\ c = target s o
             | EDisc _ _ => False
             end.
Proof.
  intros s st x. unfold select_tick, clean.
  destruct (existsb (closed s) (rd s) || existsb (closed s) (wr s)); simpl.
  - split; [intros [] | intros [H _]; discriminate].
  - rewrite in_app_iff, !in_map_iff. split.
    + intros [(o & <- & Hf)|(o & <- & Hf)]; apply filter_ready in Hf; tauto.
    + intros [_ H]. destruct x as [o c|o c|o c]; [right | left | destruct H]; destruct H as (Hi & Hr & ->);
        exists o; (split; [reflexivity | apply filter_ready; tauto]).
Qed.

Lemma select_read : forall s st o c,
  In (ERead o c) (snd (select_tick s st)) <->
  clean s /\ In o (rd s) /\ (exists f, fds s o = Some f /\ sr (st f) = true) /\ c = target s o.
Proof. intros s st o c. apply (select_events s st (ERead o c)). Qed.

Lemma select_write : forall s st o c,
  In (EWrite o c) (snd (select_tick s st)) <->
  clean s /\ In o (wr s) /\ (exists f, fds s o = Some f /\ sw (st f) = true) /\ c = target s o.
Proof. intros s st o c. apply (select_events s st (EWrite o c)). Qed.

Lemma select_no_disc : forall s st o c, ~ In (EDisc o c) (snd (select_tick s st)).
Proof. intros s st o c H. apply select_events in H. apply H. Qed.

Lemma clean_open : forall s o, clean s -> registered s o -> fds s o <> None.
Proof.
  intros s o Hc Hr Hf. unfold clean in Hc. apply orb_false_iff in Hc. destruct Hc as [C1 C2].
  assert (Hcl : closed s o = true) by (unfold closed; rewrite Hf; reflexivity).
  destruct Hr as [Hr|Hr].
  - assert (existsb (closed s) (rd s) = true) by (apply existsb_exists; eauto). congruence.
  - assert (existsb (closed s) (wr s) = true) by (apply existsb_exists; eauto). congruence.
Qed.

Lemma allopen_clean : forall s, (forall o, registered s o -> fds s o <> None) -> clean s.
Proof.
  intros s H. unfold clean. apply orb_false_iff. split; apply not_true_is_false; intro E;
    apply existsb_exists in E; destruct E as (o & Hi & Hc); unfold closed in Hc;
    destruct (fds s o) eqn:Ef; try discriminate; [apply (H o (or_introl Hi)) | apply (H o (or_intror Hi))]; exact Ef.
Qed.

Lemma select_tick_clean : forall s st, clean s -> fst (select_tick s st) = s.
Proof. intros s st H. unfold select_tick, clean in *. rewrite H. reflexivity. Qed.

Lemma scan1_spec : forall s st f x, In x (scan1 s st f) ->
  fst x = f /\ exists mi mo, kreg s f = Some (mi, mo) /\
  ((holder s f = None /\ r_nval (snd x) = true /\ r_in (snd x) = false /\ r_out (snd x) = false) \/
   (holder s f <> None /\ snd x = {| r_in := mi && pin (st f); r_out := mo && pout (st f);
                                     r_hup := phup (st f); r_err := perr (st f); r_nval := false |})).
Proof.
  intros s st f x H. unfold scan1 in H. destruct (kreg s f) as [[mi mo]|] eqn:Ek; [|destruct H].
  destruct (holder s f) eqn:Eh.
  - match type of H with In _ (if ?c then _ else _) => destruct c end; [|destruct H].
    destruct H as [<-|[]]. simpl. split; [reflexivity|]. exists mi, mo. split; [reflexivity|]. right. split; [congruence | reflexivity].
  - destruct H as [<-|[]]. simpl. split; [reflexivity|]. exists mi, mo. split; [reflexivity|]. left. auto.
Qed.

Lemma scan_in_order : forall s st order x, In x (scan s st order) -> In (fst x) order /\ In x (scan1 s st (fst x)).
Proof.
  intros s st order x H. unfold scan in H. apply in_flat_map in H. destruct H as (f & Hf & Hx).
  destruct (scan1_spec _ _ _ _ Hx) as [E _]. rewrite E. split; assumption.
Qed.

Lemma scan_nodup : forall s st order, NoDup order -> NoDup (map fst (scan s st order)).
Proof.
  intros s st order. induction order as [|f t IH]; intros H; simpl; [constructor|].
  inversion H as [|? ? Hn Ht]; subst. rewrite map_app.
  assert (Hrest : forall g, In g (map fst (flat_map (scan1 s st) t)) -> In g t).
  { intros g Hg. apply in_map_iff in Hg. destruct Hg as (x & <- & Hx). apply (scan_in_order s st t x). exact Hx. }
  unfold scan1 at 1. destruct (kreg s f) as [[mi mo]|]; simpl; [|apply IH; exact Ht].
  destruct (holder s f).
  - match goal with |- NoDup (map fst (if ?c then _ else _) ++ _) => destruct c end; simpl; [|apply IH; exact Ht].
    constructor; [intro Hi; apply Hn; apply Hrest; exact Hi | apply IH; exact Ht].
  - simpl. constructor; [intro Hi; apply Hn; apply Hrest; exact Hi | apply IH; exact Ht].
Qed.

(* the two tests of [process], named so that [process_events] can be stated: (Poll) the reported number f is no
   longer o's descriptor; the flags are a hang-up of this poller's _disconnected_flag with no input beside it *)
Definition stale (k : kind) (s : state) (o f : nat) : bool :=
  match k, fds s o with
  | KPoll, Some f' => negb (Nat.eqb f' f)
  | KPoll, None => true
  | _, _ => false
  end.

Definition hangs (k : kind) (r : revents) : bool :=
  (r_hup r || r_err r || (is_poll k && r_nval r)) && negb (r_in r).

Definition hang_only (s : state) (st : nat -> status) (o f : nat) : bool :=
  (phup (st f) || perr (st f)) && negb (mem o (rd s) && pin (st f)).

Definition ev_obj (e : ev) : nat := match e with ERead o _ | EWrite o _ | EDisc o _ => o end.

(* what _process emits for an entry that passes the staleness test *)
Definition evs_of (k : kind) (o c : nat) (r : revents) : list ev :=
  if hangs k r then [EDisc o c]
  else (if r_in r then [ERead o c] else []) ++ (if r_out r then [EWrite o c] else []).

Lemma process_events : forall k s f r, snd (process k s (f, r)) =
  match pmap s f with
  | None => []
  | Some o => if stale k s o f then (if reg (mask s o) then [EDisc o (target s o)] else [])
              else evs_of k o (target s o) r
  end.
Proof.
  intros k s f r. unfold process. destruct (pmap s f) as [o|]; [|reflexivity].
  change (match k with KPoll => match fds s o with Some f' => negb (Nat.eqb f' f) | None => true end | _ => false end) with (stale k s o f).
  change ((r_hup r || r_err r || is_poll k && r_nval r) && negb (r_in r)) with (hangs k r).
  unfold evs_of, reg, mask. simpl.
  destruct (stale k s o f); [destruct (mem o (rd s) || mem o (wr s)) | destruct (hangs k r)]; reflexivity.
Qed.

Lemma process_frame : forall k s f0 r0 s1 e1 f r, k <> KSelect -> Inv k s ->
  process k s (f0, r0) = (s1, e1) -> f <> f0 -> snd (process k s1 (f, r)) = snd (process k s (f, r)).
Proof.
  intros k s f0 r0 s1 e1 f r Hk (HW & HM & _) H Hn. destruct (HM Hk) as [Mb _ _].
  destruct (process_cases _ _ _ _ _ _ H) as [[-> _]|[(o0 & Hp & _ & -> & _)|(o0 & Hp & -> & _)]].
  - reflexivity.
  - rewrite !process_events. simpl. rewrite upd_other by assumption. reflexivity.
  - rewrite !process_events. simpl. rewrite upd_other by assumption.
    destruct (pmap s f) as [o|] eqn:Epf; [|reflexivity].
    assert (o <> o0) by (intro; subst; apply Mb in Hp; apply Mb in Epf; congruence).
    unfold reg, mask, target. simpl. rewrite !mem_remove1_neq, upd_other by assumption. reflexivity.
Qed.

Lemma processes_events : forall k l s x, k <> KSelect -> Inv k s -> NoDup (map fst l) ->
  (In x (snd (processes k s l)) <-> exists fr, In fr l /\ In x (snd (process k s fr))).
Proof.
  induction l as [|[f0 r0] t IH]; intros s x Hk HI Hnd; simpl.
  - split; [intros [] | intros (fr & [] & _)].
  - destruct (process k s (f0, r0)) as [s1 e1] eqn:E1. destruct (processes k s1 t) as [s2 e2] eqn:E2. simpl.
    inversion Hnd as [|? ? Hnot Hnd']; subst.
    assert (HI1 : Inv k s1) by (eapply Inv_process; eassumption).
    pose proof (IH s1 x Hk HI1 Hnd') as IH1. rewrite E2 in IH1. simpl in IH1.
    assert (Hfr : forall fr, In fr t -> snd (process k s1 fr) = snd (process k s fr)).
    { intros [f r] Hin. eapply process_frame; try eassumption.
      intro; subst. apply Hnot. apply in_map_iff. exists (f0, r). split; [reflexivity | exact Hin]. }
    rewrite in_app_iff, IH1. split.
    + intros [H|(fr & Hin & H)].
      * exists (f0, r0). split; [left; reflexivity | rewrite E1; exact H].
      * exists fr. split; [right; exact Hin | rewrite <- Hfr by exact Hin; exact H].
    + intros (fr & [<-|Hin] & H).
      * left. rewrite E1 in H. exact H.
      * right. exists fr. split; [exact Hin | rewrite Hfr by exact Hin; exact H].
Qed.

Lemma evs_of_read : forall k o c r o' c', In (ERead o' c') (evs_of k o c r) <-> o' = o /\ c' = c /\ r_in r = true.
Proof.
  intros k o c r o' c'. unfold evs_of, hangs.
  destruct (r_hup r || r_err r || _), (r_in r), (r_out r); simpl; intuition congruence.
Qed.

Lemma evs_of_write : forall k o c r o' c',
  In (EWrite o' c') (evs_of k o c r) <-> o' = o /\ c' = c /\ r_out r = true /\ hangs k r = false.
Proof.
  intros k o c r o' c'. unfold evs_of. destruct (hangs k r); [|destruct (r_in r), (r_out r)]; simpl; intuition congruence.
Qed.

Lemma evs_of_disc : forall k o c r o' c', In (EDisc o' c') (evs_of k o c r) <-> o' = o /\ c' = c /\ hangs k r = true.
Proof.
  intros k o c r o' c'. unfold evs_of. destruct (hangs k r); [|destruct (r_in r), (r_out r)]; simpl; intuition congruence.
Qed.

Lemma evs_of_obj : forall k o c r x, In x (evs_of k o c r) -> ev_obj x = o.
Proof.
  intros k o c r x. unfold evs_of. destruct (hangs k r), (r_in r), (r_out r); simpl; intuition (subst; reflexivity).
Qed.

(* the test of [scan1]: the kernel reports a number only with some requested or hang-up flag set *)
Definition nonzero (r : revents) : bool := r_in r || r_out r || r_hup r || r_err r.

Lemma evs_of_nonzero : forall k o c r x, In x (evs_of k o c r) -> r_nval r = false -> nonzero r = true.
Proof.
  intros k o c r x H Hnv. unfold evs_of, hangs in H. rewrite Hnv, andb_false_r, orb_false_r in H. unfold nonzero.
  destruct (r_in r), (r_out r), (r_hup r), (r_err r); simpl in *; try reflexivity; contradiction.
Qed.

(* what the kernel reports for the number of an open descriptor with these roles *)
Definition rev_of (s : state) (st : nat -> status) (o f : nat) : revents :=
  {| r_in := mem o (rd s) && pin (st f); r_out := mem o (wr s) && pout (st f);
     r_hup := phup (st f); r_err := perr (st f); r_nval := false |}.

Lemma hangs_rev_of : forall k s st o f, hangs k (rev_of s st o f) = hang_only s st o f.
Proof. intros. unfold hangs, hang_only. simpl. rewrite andb_false_r, orb_false_r. reflexivity. Qed.

Lemma reported_open : forall k s f o m, k <> KSelect -> Inv k s ->
  pmap s f = Some o -> kreg s f = Some m -> stale k s o f = false -> fds s o = Some f.
Proof.
  intros k s f o m Hk (HW & HM & HE) Hp Hkr Hs. destruct k; [congruence | |].
  - unfold stale in Hs. destruct (fds s o) as [f'|]; [|discriminate].
    apply negb_false_iff in Hs. apply Nat.eqb_eq in Hs. subst. reflexivity.
  - destruct (HE eq_refl f m Hkr) as (o' & Hp' & Hf). congruence.
Qed.

Lemma stale_closed : forall k s f o, k <> KSelect -> Inv k s -> pmap s f = Some o -> stale k s o f = true -> fds s o = None.
Proof.
  intros k s f o Hk (HW & HM & _) Hp Hs. destruct (HM Hk) as [Mb _ _].
  unfold stale in Hs. destruct k; try discriminate. destruct (fds s o) as [f'|] eqn:Ef; [|reflexivity].
  apply (w_born _ HW) in Ef. apply Mb in Hp. rewrite Hp in Ef. inversion Ef; subst. rewrite Nat.eqb_refl in Hs. discriminate.
Qed.

Lemma scan_spec : forall k s st order f r o, k <> KSelect -> Inv k s -> In (f, r) (scan s st order) ->
  pmap s f = Some o -> stale k s o f = false -> fds s o = Some f /\ registered s o /\ r = rev_of s st o f.
Proof.
  intros k s st order f r o Hk HI Hin Hp Hs. pose proof HI as (HW & HM & _).
  apply scan_in_order in Hin. destruct Hin as [_ Hin].
  destruct (scan1_spec _ _ _ _ Hin) as (_ & mi & mo & Hkr & Hcase). simpl in *.
  pose proof (reported_open _ _ _ _ _ Hk HI Hp Hkr Hs) as Hfd.
  destruct (m_exact _ (HM Hk) f o _ Hp Hfd Hkr) as [Hm Hr]. unfold mask in Hm. injection Hm as -> ->.
  split; [exact Hfd | split; [exact Hr|]].
  destruct Hcase as [(Hh & _)|(_ & ->)]; [|reflexivity].
  apply (w_inj _ HW) in Hfd. congruence.
Qed.

Lemma scan_live : forall k s st order o f, k <> KSelect -> Inv k s -> order_ok s order ->
  fds s o = Some f -> registered s o -> nonzero (rev_of s st o f) = true ->
  In (f, rev_of s st o f) (scan s st order) /\ pmap s f = Some o /\ stale k s o f = false.
Proof.
  intros k s st order o f Hk (HW & HM & _) [_ Hcov] Hfd Hr Hnz.
  destruct (m_mirror _ (HM Hk) o f Hfd Hr) as [Hp Hkr]. split; [|split; [exact Hp|]].
  - unfold scan. apply in_flat_map. exists f. split; [apply Hcov; congruence|].
    unfold scan1. rewrite Hkr. unfold mask. rewrite (proj1 (w_inj _ HW o f) Hfd).
    change (In (f, rev_of s st o f) (if nonzero (rev_of s st o f) then [(f, rev_of s st o f)] else [])).
    rewrite Hnz. left. reflexivity.
  - unfold stale. rewrite Hfd. destruct k; try reflexivity. rewrite Nat.eqb_refl. reflexivity.
Qed.

Lemma tick_poll : forall k s st order, k <> KSelect -> tick k s st order = processes k s (scan s st order).
Proof. intros k s st order Hk. destruct k; [congruence | reflexivity | reflexivity]. Qed.

(* Everything an iteration of Poll / EPoll emits: for each open registered descriptor what _process makes of
   its readiness, and (Poll) a _disconnect for a registered descriptor that was closed. *)
Theorem poll_events_inv : forall k s st order x, k <> KSelect -> Inv k s -> order_ok s order ->
  In x (snd (tick k s st order)) ->
  (exists o f, fds s o = Some f /\ registered s o /\ In x (evs_of k o (target s o) (rev_of s st o f))) \/
  (exists o, registered s o /\ fds s o = None /\ x = EDisc o (target s o)).
Proof.
  intros k s st order x Hk HI [Hnd _]. rewrite tick_poll by exact Hk.
  rewrite processes_events; [| exact Hk | exact HI | apply scan_nodup; exact Hnd].
  intros ([f r] & Hin & Hev). rewrite process_events in Hev. destruct (pmap s f) as [o|] eqn:Hp; [|destruct Hev].
  destruct (stale k s o f) eqn:Hs.
  - right. exists o. destruct (reg (mask s o)) eqn:Er; [|destruct Hev]. destruct Hev as [<-|[]].
    split; [apply registered_mask; exact Er | split; [eapply stale_closed; eassumption | reflexivity]].
  - left. destruct (scan_spec _ _ _ _ _ _ _ Hk HI Hin Hp Hs) as (Hfd & Hr & ->). exists o, f. auto.
Qed.

Theorem poll_events_live : forall k s st order o f x, k <> KSelect -> Inv k s -> order_ok s order ->
  fds s o = Some f -> registered s o ->
  In x (evs_of k o (target s o) (rev_of s st o f)) -> In x (snd (tick k s st order)).
Proof.
  intros k s st order o f x Hk HI Hord Hfd Hr Hx.
  assert (Hnz : nonzero (rev_of s st o f) = true) by (eapply evs_of_nonzero; [exact Hx | reflexivity]).
  destruct (scan_live _ _ st _ _ _ Hk HI Hord Hfd Hr Hnz) as (Hin & Hp & Hs). destruct Hord as [Hnd _].
  rewrite tick_poll by exact Hk. rewrite processes_events; [| exact Hk | exact HI | apply scan_nodup; exact Hnd].
  exists (f, rev_of s st o f). split; [exact Hin|]. rewrite process_events, Hp, Hs. exact Hx.
Qed.

Theorem poll_read : forall k s st order o c, k <> KSelect -> Inv k s -> order_ok s order ->
  (In (ERead o c) (snd (tick k s st order)) <->
   In o (rd s) /\ (exists f, fds s o = Some f /\ pin (st f) = true) /\ c = target s o).
Proof.
  intros k s st order o c Hk HI Hord. split.
  - intros H. destruct (poll_events_inv _ _ _ _ _ Hk HI Hord H) as [(o' & f & Hfd & Hr & Hx)|(o' & _ & _ & E)]; [|discriminate].
    apply evs_of_read in Hx. destruct Hx as (-> & -> & Hi). simpl in Hi. apply andb_true_iff in Hi. destruct Hi as [Hm Hp].
    split; [apply mem_In; exact Hm | split; [exists f; auto | reflexivity]].
  - intros (Hi & (f & Hfd & Hp) & ->). apply (poll_events_live _ _ _ _ o f _ Hk HI Hord Hfd (or_introl Hi)).
    apply evs_of_read. split; [reflexivity | split; [reflexivity|]]. simpl. apply mem_In in Hi. rewrite Hi, Hp. reflexivity.
Qed.

Theorem poll_write : forall k s st order o c, k <> KSelect -> Inv k s -> order_ok s order ->
  (In (EWrite o c) (snd (tick k s st order)) <->
   In o (wr s) /\ (exists f, fds s o = Some f /\ pout (st f) = true /\ hang_only s st o f = false) /\ c = target s o).
Proof.
  intros k s st order o c Hk HI Hord. split.
  - intros H. destruct (poll_events_inv _ _ _ _ _ Hk HI Hord H) as [(o' & f & Hfd & Hr & Hx)|(o' & _ & _ & E)]; [|discriminate].
    apply evs_of_write in Hx. destruct Hx as (-> & -> & Ho & Hh). rewrite hangs_rev_of in Hh.
    simpl in Ho. apply andb_true_iff in Ho. destruct Ho as [Hm Hp].
    split; [apply mem_In; exact Hm | split; [exists f; auto | reflexivity]].
  - intros (Hi & (f & Hfd & Hp & Hh) & ->). apply (poll_events_live _ _ _ _ o f _ Hk HI Hord Hfd (or_intror Hi)).
    apply evs_of_write. rewrite hangs_rev_of. split; [reflexivity | split; [reflexivity | split; [|exact Hh]]].
    simpl. apply mem_In in Hi. rewrite Hi, Hp. reflexivity.
Qed.

Theorem poll_disc : forall k s st order o c, k <> KSelect -> Inv k s -> order_ok s order ->
  In (EDisc o c) (snd (tick k s st order)) ->
  registered s o /\ c = target s o /\
  (fds s o = None \/ exists f, fds s o = Some f /\ hang_only s st o f = true).
Proof.
  intros k s st order o c Hk HI Hord H.
  destruct (poll_events_inv _ _ _ _ _ Hk HI Hord H) as [(o' & f & Hfd & Hr & Hx)|(o' & Hr & Hfd & E)].
  - apply evs_of_disc in Hx. destruct Hx as (-> & -> & Hh). rewrite hangs_rev_of in Hh.
    split; [exact Hr | split; [reflexivity | right; exists f; auto]].
  - injection E as -> ->. auto.
Qed.

Lemma poll_disc_complete : forall k s st order o f, k <> KSelect -> Inv k s -> order_ok s order ->
  registered s o -> fds s o = Some f -> hang_only s st o f = true ->
  In (EDisc o (target s o)) (snd (tick k s st order)).
Proof.
  intros k s st order o f Hk HI Hord Hr Hfd Hh. apply (poll_events_live _ _ _ _ o f _ Hk HI Hord Hfd Hr).
  apply evs_of_disc. rewrite hangs_rev_of. auto.
Qed.

(* how the descriptor table evolves: the same for every poller *)
Definition world_after (x : op) (s s' : state) : Prop :=
  match x with
  | Open o f => born s o = None /\ fds s' = upd (fds s) o (Some f) /\ holder s' = upd (holder s) f (Some o) /\
                born s' = upd (born s) o (Some f)
  | Close o => exists f, fds s o = Some f /\ fds s' = upd (fds s) o None /\ holder s' = upd (holder s) f None /\ born s' = born s
  | _ => fds s' = fds s /\ holder s' = holder s /\ born s' = born s
  end.

Definition shrinks (s s' : state) : Prop :=
  (forall o, In o (rd s') -> In o (rd s)) /\ (forall o, In o (wr s') -> In o (wr s)) /\
  fds s' = fds s /\ holder s' = holder s /\ born s' = born s.

Lemma process_shrinks : forall k s fr s' e, process k s fr = (s', e) -> shrinks s s'.
Proof.
  intros k s [f r] s' e H. unfold shrinks.
  destruct (process_cases _ _ _ _ _ _ H) as [[-> _]|[(o0 & _ & _ & -> & _)|(o0 & _ & -> & _)]]; simpl; auto.
  repeat split; try reflexivity; intros o; apply In_remove1.
Qed.

Lemma processes_shrinks : forall k l s s' e, processes k s l = (s', e) -> shrinks s s'.
Proof.
  induction l as [|fr t IH]; intros s s' e H; simpl in H.
  - injection H as <- _. unfold shrinks. repeat split; auto.
  - destruct (process k s fr) as [s1 e1] eqn:E1. destruct (processes k s1 t) as [s2 e2] eqn:E2. injection H as <- _.
    destruct (process_shrinks _ _ _ _ _ E1) as (A1 & B1 & C1 & D1 & F1). destruct (IH _ _ _ E2) as (A & B & C & D & F).
    unfold shrinks. rewrite C, D, F. repeat split; auto.
Qed.

Lemma tick_shrinks : forall k s st order s' e, tick k s st order = (s', e) -> shrinks s s'.
Proof.
  intros k s st order s' e H. destruct k; simpl in H; try (eapply processes_shrinks; exact H).
  unfold select_tick in H. destruct (existsb (closed s) (rd s) || existsb (closed s) (wr s));
    injection H as <- _; unfold shrinks; simpl; repeat split; auto.
  all: intros o Hi; apply filter_In in Hi; tauto.
Qed.

Theorem step_lists : forall k s x s' e, step k s x = Ok s' e ->
  match x with
  | AddR c o => rd s' = rd s ++ [o] /\ wr s' = wr s
  | AddW c o => rd s' = rd s /\ wr s' = wr s ++ [o]
  | RemR o => rd s' = remove1 o (rd s) /\ wr s' = wr s
  | RemW o => rd s' = rd s /\ wr s' = remove1 o (wr s)
  | Discard o => rd s' = remove1 o (rd s) /\ wr s' = remove1 o (wr s)
  | Open _ _ | Close _ => rd s' = rd s /\ wr s' = wr s
  | Tick _ _ => (forall o, In o (rd s') -> In o (rd s)) /\ (forall o, In o (wr s') -> In o (wr s))
  end.
Proof.
  intros k s x s' e H. destruct (step_effect _ _ _ _ _ H) as [x o s1 s' Eb _ [_ _ _ Ar Aw _] _| | |st order s' e Et]; simpl; auto.
  - rewrite Ar, Aw. destruct x; try discriminate; injection Eb as -> <-;
      unfold b_remR, b_remW; rewrite ?drop_target_set; simpl; auto.
  - destruct (tick_shrinks _ _ _ _ _ _ Et) as (A & B & _). auto.
Qed.

Lemma step_world : forall k s x s' e, step k s x = Ok s' e -> world_after x s s'.
Proof.
  intros k s x s' e H. destruct (step_effect _ _ _ _ _ H) as [x o s1 s' Eb _ [Af Ah Ab _ _ _] _|o f Eb _|o f Ef|st order s' e Et]; simpl.
  - destruct (base_only_o _ _ _ _ Eb) as (E1 & E2 & E3 & _). rewrite E1 in Af. rewrite E2 in Ah. rewrite E3 in Ab.
    destruct x; try discriminate; simpl; auto.
  - auto.
  - exists f. auto.
  - destruct (tick_shrinks _ _ _ _ _ _ Et) as (_ & _ & A). exact A.
Qed.

Lemma world_after_closed : forall x s s' o, world_after x s s' -> fds s o = None -> born s o <> None ->
  fds s' o = None /\ born s' o <> None.
Proof.
  intros x s s' o W Hf Hb. destruct x; simpl in W; try (destruct W as (-> & _ & ->); auto).
  - destruct W as (Hn & -> & _ & ->). rewrite !upd_other by (intros ->; contradiction). auto.
  - destruct W as (f & _ & -> & _ & ->). split; [|exact Hb]. unfold upd. destruct (o =? o0); [reflexivity | exact Hf].
Qed.

Lemma world_after_open : forall x s s' o, world_after x s s' -> fds s o <> None -> x <> Close o -> fds s' o <> None.
Proof.
  intros x s s' o W Hf Hx. destruct x; simpl in W; try (destruct W as (-> & _); exact Hf).
  - destruct W as (_ & -> & _). unfold upd. destruct (o =? o0); [discriminate | exact Hf].
  - destruct W as (f & _ & -> & _). rewrite upd_other; [exact Hf | intros ->; apply Hx; reflexivity].
Qed.

(* the target of a freshly registered descriptor is the registering component's channel, and it is kept
   as long as the descriptor stays registered in some role *)
Theorem step_target : forall k s x s' e, step k s x = Ok s' e ->
  match x with
  | AddR c o | AddW c o => tg s' o = Some c /\ forall o', o' <> o -> tg s' o' = tg s o'
  | RemR o => (In o (wr s) -> tg s' o = tg s o) /\ forall o', o' <> o -> tg s' o' = tg s o'
  | RemW o => (In o (rd s) -> tg s' o = tg s o) /\ forall o', o' <> o -> tg s' o' = tg s o'
  | Discard o => forall o', o' <> o -> tg s' o' = tg s o'
  | Open _ _ | Close _ => tg s' = tg s
  | Tick _ _ => True
  end.
Proof.
  intros k s x s' e H.
  destruct (step_effect _ _ _ _ _ H) as [x o s1 s' Eb _ [_ _ _ _ _ At] _| | |]; simpl; trivial.
  pose proof (base_only_o _ _ _ _ Eb) as (_ & _ & _ & _ & _ & Ho).
  assert (Hoth : forall o', o' <> o -> tg s' o' = tg s o').
  { intros o' Hn. destruct (At o') as [->|[-> _]]; [exact (proj2 (Ho o' Hn)) | contradiction]. }
  assert (Hkeep : registered s1 o -> tg s' o = tg s1 o).
  { intros Hr. destruct (At o) as [E|(_ & Hn & _)]; [exact E | contradiction]. }
  destruct x; try discriminate; injection Eb as -> <-; try (split; [|exact Hoth]); try exact Hoth;
    revert Hkeep; unfold b_remR, b_remW, registered; rewrite ?drop_target_set; simpl; intros Hkeep.
  - rewrite Hkeep; [apply upd_same | left; apply in_app_iff; right; left; reflexivity].
  - rewrite Hkeep; [apply upd_same | right; apply in_app_iff; right; left; reflexivity].
  - intros Hw. rewrite Hkeep by (right; exact Hw). apply mem_In in Hw. rewrite Hw, orb_true_r. reflexivity.
  - intros Hr. rewrite Hkeep by (left; exact Hr). apply mem_In in Hr. rewrite Hr. reflexivity.
Qed.

Definition quiet (x : op) : Prop := match x with Tick _ _ => False | _ => True end.

Definition mask_step (x : op) (o : nat) (m : bool * bool) : bool * bool :=
  match x with
  | AddR _ o' => (fst m || (o =? o'), snd m)
  | AddW _ o' => (fst m, snd m || (o =? o'))
  | RemR o' => (fst m && negb (o =? o'), snd m)
  | RemW o' => (fst m, snd m && negb (o =? o'))
  | Discard o' => (fst m && negb (o =? o'), snd m && negb (o =? o'))
  | _ => m
  end.

Definition tg_step (x : op) (o : nat) (t : option nat) : option nat :=
  match x with AddR c o' | AddW c o' => if o =? o' then Some c else t | _ => t end.

Lemma step_mask : forall k s x s' e o, WInv s -> quiet x -> step k s x = Ok s' e ->
  mask s' o = mask_step x o (mask s o).
Proof.
  intros k s x s' e o HW Hq H. pose proof (step_lists _ _ _ _ _ H) as L.
  destruct x; try contradiction; destruct L as [A B]; unfold mask; rewrite A, B; simpl;
    rewrite ?mem_app_one, ?(mem_remove1 _ _ _ (w_nd_r _ HW)), ?(mem_remove1 _ _ _ (w_nd_w _ HW)); reflexivity.
Qed.

Lemma step_tg : forall k s x s' e o, WInv s -> quiet x -> step k s x = Ok s' e -> registered s' o ->
  tg s' o = tg_step x o (tg s o).
Proof.
  intros k s x s' e o HW Hq H Hr. pose proof (step_target _ _ _ _ _ H) as T.
  apply registered_mask in Hr. rewrite (step_mask _ _ _ _ _ o HW Hq H) in Hr. unfold reg, mask in Hr.
  destruct x; simpl in *; try contradiction.
  - rewrite T. reflexivity.
  - rewrite T. reflexivity.
  - destruct T as [Ta Tb]. destruct (Nat.eqb_spec o o0) as [->|Hn]; [exact Ta | apply Tb; exact Hn].
  - destruct T as [Ta Tb]. destruct (Nat.eqb_spec o o0) as [->|Hn]; [exact Ta | apply Tb; exact Hn].
  - destruct T as [Ta Tb]. destruct (Nat.eq_dec o o0) as [->|Hn]; [|apply Tb; exact Hn].
    rewrite Nat.eqb_refl, andb_false_r in Hr. apply Ta. apply mem_In. exact Hr.
  - destruct T as [Ta Tb]. destruct (Nat.eq_dec o o0) as [->|Hn]; [|apply Tb; exact Hn].
    rewrite Nat.eqb_refl, andb_false_r, orb_false_r in Hr. apply Ta. apply mem_In. exact Hr.
  - destruct (Nat.eq_dec o o0) as [->|Hn]; [|apply T; exact Hn].
    rewrite Nat.eqb_refl, !andb_false_r in Hr. discriminate.
Qed.

Definition is_rw (e : ev) : Prop := match e with EDisc _ _ => False | _ => True end.
Definition adds (o : nat) (x : op) : Prop := match x with AddR _ o' | AddW _ o' => o' = o | _ => False end.

Fixpoint run_pre (k : kind) (s : state) (h : list op) : Prop :=
  match h with
  | [] => True
  | x :: t => pre s x /\ match step k s x with Ok s' _ => run_pre k s' t | _ => True end
  end.

Lemma select_event_registered : forall s st e, In e (snd (select_tick s st)) ->
  registered s (ev_obj e) /\ fds s (ev_obj e) <> None.
Proof.
  intros s st e Hin. apply select_events in Hin. destruct Hin as [_ H].
  destruct e as [o c|o c|o c]; [| |destruct H]; destruct H as (Hi & (f & Hf & _) & _); simpl;
    (split; [|congruence]); [left | right]; exact Hi.
Qed.

Lemma tick_event_registered : forall k s st order e, Inv k s -> order_ok s order ->
  In e (snd (tick k s st order)) -> registered s (ev_obj e) /\ (is_rw e -> fds s (ev_obj e) <> None).
Proof.
  intros k s st order e HI Hord Hin.
  assert (Hk : k = KSelect \/ k <> KSelect) by (destruct k; [left; reflexivity | right; discriminate | right; discriminate]).
  destruct Hk as [->|Hk].
  - destruct (select_event_registered _ _ _ Hin). auto.
  - destruct (poll_events_inv _ _ _ _ _ Hk HI Hord Hin) as [(o & f & Hfd & Hr & Hx)|(o & Hr & _ & ->)].
    + rewrite (evs_of_obj _ _ _ _ _ Hx). split; [exact Hr | intros _; congruence].
    + split; [exact Hr | intros []].
Qed.

Lemma step_reg_cases : forall k s x s' e o, step k s x = Ok s' e -> registered s' o -> registered s o \/ adds o x.
Proof.
  intros k s x s' e o H Hr. pose proof (step_lists _ _ _ _ _ H) as L. unfold registered in *.
  destruct x; simpl; destruct L as [A B]; try (rewrite A, B in Hr).
  - left. exact Hr.
  - left. exact Hr.
  - rewrite in_app_iff in Hr. simpl in Hr. tauto.
  - rewrite in_app_iff in Hr. simpl in Hr. tauto.
  - destruct Hr as [Hr|Hr]; [apply In_remove1 in Hr|]; tauto.
  - destruct Hr as [Hr|Hr]; [|apply In_remove1 in Hr]; tauto.
  - destruct Hr as [Hr|Hr]; apply In_remove1 in Hr; tauto.
  - left. destruct Hr as [Hr|Hr]; [left; apply A | right; apply B]; exact Hr.
Qed.

Lemma tg_step_adds : forall x o t t', adds o x -> tg_step x o t = tg_step x o t'.
Proof. intros x o t t' Ha. destruct x; simpl in *; try contradiction; subst; rewrite Nat.eqb_refl; reflexivity. Qed.

(* a property of states that the steps of a history preserve and that keeps an event out of the next iteration
   keeps it out of the whole trace *)
Lemma trace_never : forall k (Q : state -> Prop) (ok : op -> Prop) (bad : ev -> Prop),
  (forall s x s' e, Q s -> ok x -> step k s x = Ok s' e -> Q s') ->
  (forall s st order e, Inv k s -> Q s -> order_ok s order -> In e (snd (tick k s st order)) -> ~ bad e) ->
  forall h s tr oc sf, reach k s -> run_pre k s h -> run k s h = (tr, oc, sf) -> Q s -> (forall x, In x h -> ok x) ->
  forall s' evs e, In (s', evs) tr -> In e evs -> ~ bad e.
Proof.
  intros k Q ok bad Hstep Htick.
  induction h as [|x t IH]; intros s tr oc sf Hre Hpre Hrun HQ Hok s' evs e Hin He; simpl in Hrun.
  - injection Hrun as <- _ _. destruct Hin.
  - destruct Hpre as [Hp Hpre].
    destruct (step k s x) as [s1 e1| |] eqn:Es; try (injection Hrun as <- _ _; destruct Hin).
    destruct (run k s1 t) as [[tr1 oc1] sf1] eqn:Er. injection Hrun as <- _ _.
    assert (Hin1 : In (s', evs) tr1 -> ~ bad e).
    { intros Hin1. eapply (IH s1); [eapply reach_step; eassumption | exact Hpre | exact Er | | | exact Hin1 | exact He].
      - eapply Hstep; [exact HQ | apply Hok; left; reflexivity | exact Es].
      - intros y Hy. apply Hok. right. exact Hy. }
    destruct x; try (apply Hin1; exact Hin). destruct Hin as [E|Hin]; [|apply Hin1; exact Hin].
    injection E as <- <-. apply step_tick in Es.
    eapply Htick; [apply reach_Inv; exact Hre | exact HQ | exact Hp | rewrite Es; exact He].
Qed.

Definition wfeq (s1 s2 : state) : Prop :=
  (forall o, fds s1 o = fds s2 o) /\ (forall f, holder s1 f = holder s2 f) /\ (forall o, born s1 o = born s2 o).

Lemma wfeq_step : forall x s1 s1' s2 s2', wfeq s1 s2 -> world_after x s1 s1' -> world_after x s2 s2' -> wfeq s1' s2'.
Proof.
  intros x s1 s1' s2 s2' (F & H & B) W1 W2. unfold wfeq.
  destruct x; simpl in W1, W2;
    try (destruct W1 as (A1 & A2 & A3); destruct W2 as (B1 & B2 & B3); rewrite A1, A2, A3, B1, B2, B3; auto).
  - destruct W1 as (_ & A1 & A2 & A3). destruct W2 as (_ & B1 & B2 & B3). rewrite A1, A2, A3, B1, B2, B3.
    repeat split; intros j; apply upd_ext; assumption.
  - destruct W1 as (f1 & E1 & A1 & A2 & A3). destruct W2 as (f2 & E2 & B1 & B2 & B3).
    assert (f1 = f2) as <- by (rewrite F in E1; congruence). rewrite A1, A2, A3, B1, B2, B3.
    repeat split; intros j; try apply upd_ext; auto.
Qed.

Lemma process_keep : forall k s fr s' e o, Inv k s -> process k s fr = (s', e) ->
  ((forall c, ~ In (EDisc o c) e) /\ mask s' o = mask s o /\ tg s' o = tg s o) \/
  ((exists c, In (EDisc o c) e) /\ ~ registered s' o).
Proof.
  intros k s [f r] s' e o (HW & _) H.
  destruct (process_cases _ _ _ _ _ _ H) as [[-> Hx]|[(o0 & _ & _ & -> & ->)|(o0 & _ & -> & ->)]].
  - left. split; [|split; reflexivity]. intros c Hc. destruct (Hx _ Hc) as (o1 & c1 & [E|E]); discriminate.
  - left. split; [intros c []|split; reflexivity].
  - destruct (Nat.eq_dec o o0) as [->|Hn].
    + right. split; [eexists; left; reflexivity | apply (b_discard_gone (forget s f)); destruct HW; split; assumption].
    + left. split; [intros c [E|[]]; congruence|].
      destruct (base_only_o s (Discard o0) _ _ eq_refl) as (_ & _ & _ & _ & _ & Ho). exact (Ho o Hn).
Qed.

Lemma processes_keep : forall k l s s' e o, k <> KSelect -> Inv k s -> processes k s l = (s', e) ->
  ((forall c, ~ In (EDisc o c) e) /\ mask s' o = mask s o /\ tg s' o = tg s o) \/
  ((exists c, In (EDisc o c) e) /\ ~ registered s' o).
Proof.
  induction l as [|fr t IH]; intros s s' e o Hk HI H; simpl in H.
  - injection H as <- <-. left. split; [intros c []|split; reflexivity].
  - destruct (process k s fr) as [s1 e1] eqn:E1. destruct (processes k s1 t) as [s2 e2] eqn:E2. injection H as <- <-.
    destruct (IH _ _ _ o Hk (Inv_process _ _ _ _ _ Hk HI E1) E2) as [(N2 & M2 & T2)|((c & Hc) & G2)].
    + destruct (process_keep _ _ _ _ _ o HI E1) as [(N1 & M1 & T1)|((c & Hc) & G1)].
      * left. split; [|split; congruence]. intros c Hc. apply in_app_iff in Hc. destruct Hc; [eapply N1 | eapply N2]; eassumption.
      * right. split; [exists c; apply in_app_iff; left; exact Hc|]. rewrite registered_mask, M2, <- registered_mask. exact G1.
    + right. split; [exists c; apply in_app_iff; right; exact Hc | exact G2].
Qed.

Lemma add_open : forall k s x s' e o, k <> KSelect -> adds o x -> step k s x = Ok s' e -> fds s o <> None.
Proof.
  intros k s x s' e o Hk Hadd H. destruct (step_effect _ _ _ _ _ H) as [x o' s1 s' Eb _ _ Ht| | |]; try contradiction.
  destruct x; try contradiction; simpl in Hadd; subst o0; injection Eb as <- <-;
    apply (t_open _ _ _ (Ht Hk)); [left | right]; simpl; apply in_app_iff; right; left; reflexivity.
Qed.

(* the relation between Select (s1) and Poll / EPoll (s2) after the same history: same descriptor table;
   Poll/EPoll's registrations are a subset of Select's; on that subset roles and targets coincide.
   The difference ([dropped]) consists of descriptors that Poll/EPoll have hung up on. *)
Record Rel (s1 s2 : state) : Prop := {
  r_world : wfeq s1 s2;
  r_sub_r : forall o, In o (rd s2) -> In o (rd s1);
  r_sub_w : forall o, In o (wr s2) -> In o (wr s1);
  r_same : forall o, registered s2 o ->
           (In o (rd s1) -> In o (rd s2)) /\ (In o (wr s1) -> In o (wr s2)) /\ tg s1 o = tg s2 o;
  r_open : forall o, registered s1 o -> fds s1 o <> None
}.

Definition dropped (s1 s2 : state) (o : nat) : Prop := registered s1 o /\ ~ registered s2 o.
Definition consistent (x : status) : Prop := sr x = pin x /\ sw x = pout x.

(* joint precondition of a step applied to the three pollers: the API precondition for each; a descriptor that
   Poll/EPoll have hung up on is discarded before it is registered again; descriptors are discarded before they
   are closed; select and poll see the same readable / writable bits *)
Definition joint_pre (s1 s2 : state) (x : op) : Prop :=
  pre s1 x /\ pre s2 x /\
  match x with
  | AddR _ o | AddW _ o => ~ dropped s1 s2 o
  | Close o => ~ registered s1 o
  | Tick st _ => forall f, consistent (st f)
  | _ => True
  end.

Lemma Rel_select_tick : forall s1 s2 st order s1' e1, Rel s1 s2 ->
  step KSelect s1 (Tick st order) = Ok s1' e1 -> s1' = s1.
Proof.
  intros s1 s2 st order s1' e1 HR H. simpl in H.
  rewrite <- (select_tick_clean s1 st (allopen_clean _ (r_open _ _ HR))). destruct (select_tick s1 st). inversion H; reflexivity.
Qed.

Lemma Rel_masks : forall s1 s2, Rel s1 s2 <->
  wfeq s1 s2 /\ (forall o, registered s2 o -> mask s1 o = mask s2 o /\ tg s1 o = tg s2 o) /\
  (forall o, registered s1 o -> fds s1 o <> None).
Proof.
  intros s1 s2. split.
  - intros [Rw Rr Rwr Rs Ro]. split; [exact Rw | split; [|exact Ro]]. intros o Hr.
    destruct (Rs o Hr) as (Sa & Sb & Sc). split; [|exact Sc]. apply mask_eq. split; split; auto.
  - intros (Rw & Rs & Ro).
    assert (Hm : forall o, registered s2 o -> (In o (rd s1) <-> In o (rd s2)) /\ (In o (wr s1) <-> In o (wr s2))).
    { intros o Hr. apply mask_eq. apply Rs. exact Hr. }
    split; try assumption.
    + intros o Hi. apply (Hm o (or_introl Hi)). exact Hi.
    + intros o Hi. apply (Hm o (or_intror Hi)). exact Hi.
    + intros o Hr. destruct (Hm o Hr) as [A B]. split; [apply A | split; [apply B | apply Rs; exact Hr]].
Qed.

Lemma joint_pre_adds : forall s1 s2 x o, joint_pre s1 s2 x -> adds o x -> ~ dropped s1 s2 o.
Proof. intros s1 s2 x o (_ & _ & Hj) Ha. destruct x; simpl in Ha; try contradiction; subst; exact Hj. Qed.

(* Both sides apply the same function to a descriptor's roles, so equal roles stay equal; a descriptor in the
   difference is not added, so Poll/EPoll do not get it back. *)
Lemma joint_step_masks : forall k s1 s2 x s1' e1 s2' e2 o,
  Rel s1 s2 -> WInv s1 -> WInv s2 -> joint_pre s1 s2 x -> quiet x ->
  step KSelect s1 x = Ok s1' e1 -> step k s2 x = Ok s2' e2 ->
  mask s1' o = mask s2' o \/ (dropped s1 s2 o /\ ~ registered s2' o).
Proof.
  intros k s1 s2 x s1' e1 s2' e2 o HR HW1 HW2 Hj Hq H1 H2. apply Rel_masks in HR. destruct HR as (_ & Rs & _).
  rewrite (step_mask _ _ _ _ _ o HW1 Hq H1), (step_mask _ _ _ _ _ o HW2 Hq H2).
  destruct (registered_dec s2 o) as [Hr2|Hr2]; [left; destruct (Rs o Hr2) as [-> _]; reflexivity|].
  destruct (registered_dec s1 o) as [Hr1|Hr1].
  - right. split; [split; assumption|]. intros Hr'.
    destruct (step_reg_cases _ _ _ _ _ o H2 Hr') as [Hr|Ha]; [contradiction|].
    apply (joint_pre_adds _ _ _ _ Hj Ha). split; assumption.
  - left. rewrite !unregistered_mask by assumption. reflexivity.
Qed.

Lemma Rel_step : forall k s1 s2 x s1' e1 s2' e2, k <> KSelect ->
  Rel s1 s2 -> Inv KSelect s1 -> Inv k s2 -> joint_pre s1 s2 x ->
  step KSelect s1 x = Ok s1' e1 -> step k s2 x = Ok s2' e2 -> Rel s1' s2'.
Proof.
  intros k s1 s2 x s1' e1 s2' e2 Hk HR (HW1 & _) HI2 Hj H1 H2. pose proof HI2 as (HW2 & _).
  pose proof (step_world _ _ _ _ _ H1) as W1. pose proof (step_world _ _ _ _ _ H2) as W2.
  assert (Hquiet : quiet x -> Rel s1' s2').
  { intros Hq. pose proof (fun o => joint_step_masks _ _ _ _ _ _ _ _ o HR HW1 HW2 Hj Hq H1 H2) as Hm.
    apply Rel_masks in HR. destruct HR as (Rw & Rs & Ro). apply Rel_masks.
    split; [eapply wfeq_step; eassumption | split].
    - intros o Hr'. destruct (Hm o) as [Hm'|[_ Hn]]; [|contradiction]. split; [exact Hm'|].
      assert (Hr1' : registered s1' o) by (apply registered_mask; rewrite Hm'; apply registered_mask; exact Hr').
      rewrite (step_tg _ _ _ _ _ o HW1 Hq H1 Hr1'), (step_tg _ _ _ _ _ o HW2 Hq H2 Hr').
      destruct (step_reg_cases _ _ _ _ _ o H2 Hr') as [Hr|Ha].
      + destruct (Rs o Hr) as [_ ->]. reflexivity.
      + apply tg_step_adds. exact Ha.
    - intros o Hr'.
      assert (Hx : x <> Close o /\ fds s1 o <> None).
      { destruct (step_reg_cases _ _ _ _ _ o H1 Hr') as [Hr|Ha].
        - split; [|apply Ro; exact Hr]. intros ->. destruct Hj as (_ & _ & Hj). apply Hj. exact Hr.
        - split; [intros ->; exact Ha|]. destruct Rw as (F & _). rewrite F. eapply add_open; eassumption. }
      eapply world_after_open; [exact W1 | apply Hx | apply Hx]. }
  destruct x as [| | | | | | |st order]; try (apply Hquiet; exact I).
  rewrite (Rel_select_tick _ _ _ _ _ _ HR H1) in *. apply Rel_masks in HR. destruct HR as (Rw & Rs & Ro).
  apply Rel_masks. split; [eapply wfeq_step; eassumption | split; [|exact Ro]].
  apply step_tick in H2. rewrite tick_poll in H2 by exact Hk. intros o Hr'.
  destruct (processes_keep _ _ _ _ _ o Hk HI2 H2) as [(_ & Hm & Ht)|(_ & Hn)]; [|contradiction].
  rewrite Hm, Ht. apply Rs. apply registered_mask. rewrite <- Hm. apply registered_mask. exact Hr'.
Qed.

Inductive joint (k : kind) : list op -> state -> state -> Prop :=
| joint_nil : joint k [] init init
| joint_snoc : forall h s1 s2 x s1' e1 s2' e2, joint k h s1 s2 -> joint_pre s1 s2 x ->
    step KSelect s1 x = Ok s1' e1 -> step k s2 x = Ok s2' e2 -> joint k (h ++ [x]) s1' s2'.

Lemma Rel_init : Rel init init.
Proof.
  split; simpl; try tauto; try (repeat split; reflexivity); try (intros o [[]|[]]).
Qed.

Theorem agree_history : forall k h s1 s2, k <> KSelect -> joint k h s1 s2 ->
  Rel s1 s2 /\ reach KSelect s1 /\ reach k s2.
Proof.
  intros k h s1 s2 Hk H. induction H as [|h s1 s2 x s1' e1 s2' e2 _ IH Hj H1 H2].
  - split; [apply Rel_init | split; apply reach_init].
  - destruct IH as (HR & R1 & R2). pose proof Hj as (P1 & P2 & _). split; [|split].
    + eapply Rel_step; try eassumption; apply reach_Inv; assumption.
    + eapply reach_step; eassumption.
    + eapply reach_step; eassumption.
Qed.

(* What one iteration emits for Select (s1) and for Poll / EPoll (s2) when s2's registrations are among s1's with
   the same roles and targets and no registered descriptor is closed: the reads coincide on s2's registrations, and
   so do the writes except on a hang-up, which Poll / EPoll answer with _disconnect. *)
Theorem agree_events : forall k s1 s2 st order, k <> KSelect ->
  (forall o, fds s1 o = fds s2 o) ->
  (forall o, registered s2 o -> mask s1 o = mask s2 o /\ tg s1 o = tg s2 o) ->
  (forall o, registered s1 o -> fds s1 o <> None) ->
  Inv k s2 -> order_ok s2 order -> (forall o f, registered s2 o -> fds s2 o = Some f -> consistent (st f)) ->
  let e1 := snd (tick KSelect s1 st order) in
  let e2 := snd (tick k s2 st order) in
  let s2' := fst (tick k s2 st order) in
  (forall o c, In (ERead o c) e2 <-> In (ERead o c) e1 /\ registered s2 o) /\
  (forall o c, In (EWrite o c) e2 <->
               In (EWrite o c) e1 /\ registered s2 o /\ forall f, fds s2 o = Some f -> hang_only s2 st o f = false) /\
  (forall o c, In (EDisc o c) e2 <->
               registered s2 o /\ c = target s2 o /\ exists f, fds s2 o = Some f /\ hang_only s2 st o f = true) /\
  (forall o c, ~ In (EDisc o c) e1) /\
  fst (tick KSelect s1 st order) = s1 /\
  (forall o, registered s2 o -> (~ registered s2' o <-> exists c, In (EDisc o c) e2)).
Proof.
  intros k s1 s2 st order Hk F Rs Ro HI2 Hord Hcons e1 e2 s2'.
  assert (Hcl : clean s1) by (apply allopen_clean; exact Ro).
  assert (T : forall o, registered s2 o ->
              (In o (rd s1) <-> In o (rd s2)) /\ (In o (wr s1) <-> In o (wr s2)) /\ target s1 o = target s2 o).
  { intros o Hr. destruct (Rs o Hr) as [Hm Ht]. apply mask_eq in Hm. unfold target. rewrite Ht. tauto. }
  split; [|split; [|split; [|split; [|split]]]].
  - intros o c. unfold e1, e2. simpl tick at 2. rewrite select_read, (poll_read k s2 st order o c Hk HI2 Hord). split.
    + intros (Hi & (f & Hf & Hpin) & ->). assert (Hr : registered s2 o) by (left; exact Hi).
      destruct (T o Hr) as (Tr & _ & Tt). destruct (Hcons o f Hr Hf) as [E _].
      split; [|exact Hr]. split; [exact Hcl|]. split; [apply Tr; exact Hi|].
      split; [exists f; rewrite F; split; [exact Hf | congruence] | symmetry; exact Tt].
    + intros ((_ & Hi & (f & Hf & Hs) & ->) & Hr). destruct (T o Hr) as (Tr & _ & Tt).
      rewrite F in Hf. destruct (Hcons o f Hr Hf) as [E _].
      split; [apply Tr; exact Hi|]. split; [exists f; split; [exact Hf | congruence] | exact Tt].
  - intros o c. unfold e1, e2. simpl tick at 2. rewrite select_write, (poll_write k s2 st order o c Hk HI2 Hord). split.
    + intros (Hi & (f & Hf & Hpout & Hh) & ->). assert (Hr : registered s2 o) by (right; exact Hi).
      destruct (T o Hr) as (_ & Tw & Tt). destruct (Hcons o f Hr Hf) as [_ E].
      split; [|split; [exact Hr | intros f' Hf'; rewrite Hf in Hf'; inversion Hf'; subst; exact Hh]].
      split; [exact Hcl|]. split; [apply Tw; exact Hi|].
      split; [exists f; rewrite F; split; [exact Hf | congruence] | symmetry; exact Tt].
    + intros ((_ & Hi & (f & Hf & Hs) & ->) & Hr & Hh). destruct (T o Hr) as (_ & Tw & Tt).
      rewrite F in Hf. destruct (Hcons o f Hr Hf) as [_ E].
      split; [apply Tw; exact Hi|]. split; [|exact Tt].
      exists f. split; [exact Hf|]. split; [congruence | apply Hh; exact Hf].
  - intros o c. unfold e2. split.
    + intros H. apply (poll_disc k s2 st order o c Hk HI2 Hord) in H. destruct H as (Hr & Hc & [Hn|Hx]); [|auto].
      (* not closed: Select has it too, and there every registered descriptor is open *)
      destruct (Rs o Hr) as [Hm _]. destruct (Ro o); [|rewrite F; exact Hn].
      apply registered_mask. rewrite Hm. apply registered_mask. exact Hr.
    + intros (Hr & -> & f & Hf & Hh). eapply poll_disc_complete; eassumption.
  - intros o c. unfold e1. simpl. apply select_no_disc.
  - simpl. apply select_tick_clean. exact Hcl.
  - intros o Hr. unfold s2', e2. destruct (tick k s2 st order) as [sx ex] eqn:Et. simpl.
    rewrite tick_poll in Et by exact Hk.
    destruct (processes_keep _ _ _ _ _ o Hk HI2 Et) as [(Hno & Hm & _)|(Hc & Hg)].
    + split; [|intros (c & Hc); destruct (Hno c Hc)].
      intros Hn. exfalso. apply Hn. apply registered_mask. rewrite Hm. apply registered_mask. exact Hr.
    + split; [intros _; exact Hc | intros _; exact Hg].
Qed.

Definition plain (x : status) : Prop := phup x = false /\ perr x = false /\ sr x = pin x /\ sw x = pout x.

Lemma plain_no_hang : forall s st o f, plain (st f) -> hang_only s st o f = false.
Proof. intros s st o f (E1 & E2 & _). unfold hang_only. rewrite E1, E2. reflexivity. Qed.

(* the case of equal registrations and no hang-up *)
Theorem agree_tick : forall k s1 s2 st order e,
  k <> KSelect -> Inv k s2 -> order_ok s2 order ->
  (forall o, In o (rd s1) <-> In o (rd s2)) -> (forall o, In o (wr s1) <-> In o (wr s2)) ->
  (forall o, tg s1 o = tg s2 o) -> (forall o, fds s1 o = fds s2 o) ->
  clean s1 -> (forall o f, registered s1 o -> fds s1 o = Some f -> plain (st f)) ->
  (In e (snd (tick KSelect s1 st order)) <-> In e (snd (tick k s2 st order))).
Proof.
  intros k s1 s2 st order e Hk HI2 Hord Hrd Hwr Htg Hfd Hclean Hplain.
  assert (Hreg : forall o, registered s1 o <-> registered s2 o) by (intros o; unfold registered; rewrite Hrd, Hwr; reflexivity).
  assert (Hpl : forall o f, registered s2 o -> fds s2 o = Some f -> plain (st f)).
  { intros o f Hr Hf. apply (Hplain o f); [apply Hreg; exact Hr | rewrite Hfd; exact Hf]. }
  destruct (agree_events k s1 s2 st order Hk Hfd) as (Hr & Hw & Hd & Hn & _); try assumption.
  - intros o _. split; [apply mask_eq; split; [apply Hrd | apply Hwr] | apply Htg].
  - intros o. apply clean_open. exact Hclean.
  - intros o f Hr2 Hf. exact (proj2 (proj2 (Hpl o f Hr2 Hf))).
  - assert (Hobj : In e (snd (tick KSelect s1 st order)) -> registered s2 (ev_obj e)).
    { intros H. apply Hreg. apply (select_event_registered _ _ _ H). }
    destruct e as [o c|o c|o c].
    + rewrite Hr. split; [intros H; split; [exact H | exact (Hobj H)] | tauto].
    + rewrite Hw. split; [|tauto]. intros H. split; [exact H | split; [exact (Hobj H)|]].
      intros f Hf. apply plain_no_hang. exact (Hpl o f (Hobj H) Hf).
    + split; [intros H; destruct (Hn _ _ H)|]. intros H. apply Hd in H. destruct H as (Hr2 & _ & f & Hf & Hh).
      rewrite plain_no_hang in Hh by exact (Hpl o f Hr2 Hf). discriminate.
Qed.

Theorem dropped_step : forall k s1 s2 x s1' e1 s2' e2 o, k <> KSelect ->
  Rel s1 s2 -> Inv KSelect s1 -> Inv k s2 -> joint_pre s1 s2 x ->
  step KSelect s1 x = Ok s1' e1 -> step k s2 x = Ok s2' e2 ->
  match x with
  | Discard o' => dropped s1' s2' o <-> dropped s1 s2 o /\ o <> o'
  | Tick _ _ => dropped s1' s2' o <-> dropped s1 s2 o \/ exists c, In (EDisc o c) e2
  | _ => dropped s1' s2' o -> dropped s1 s2 o
  end.
Proof.
  intros k s1 s2 x s1' e1 s2' e2 o Hk HR HI1 HI2 Hj H1 H2.
  pose proof HI1 as (HW1 & _). pose proof HI2 as (HW2 & _).
  assert (Hquiet : quiet x -> dropped s1' s2' o -> dropped s1 s2 o).
  { intros Hq [Hr1' Hn2']. destruct (joint_step_masks _ _ _ _ _ _ _ _ o HR HW1 HW2 Hj Hq H1 H2) as [Hm|[Hd _]]; [|exact Hd].
    exfalso. apply Hn2'. apply registered_mask. rewrite <- Hm. apply registered_mask. exact Hr1'. }
  destruct x as [| | | | | |o'|st order]; try (apply Hquiet; exact I).
  - unfold dropped at 1. rewrite !registered_mask, (step_mask _ _ (Discard o') _ _ o HW1 I H1), (step_mask _ _ (Discard o') _ _ o HW2 I H2).
    unfold mask_step, reg. simpl. destruct (Nat.eqb_spec o o') as [->|Hne]; simpl.
    + rewrite !andb_false_r. simpl. split; [intros [Hx _]; discriminate | intros [_ Hx]; contradiction].
    + rewrite !andb_true_r. unfold dropped. rewrite !registered_mask. unfold reg, mask. simpl. tauto.
  - rewrite (Rel_select_tick _ _ _ _ _ _ HR H1) in *. destruct Hj as (_ & P2 & _).
    apply step_tick in H2. pose proof H2 as Et. rewrite tick_poll in H2 by exact Hk. unfold dropped.
    destruct (processes_keep _ _ _ _ _ o Hk HI2 H2) as [(Hno & Hm & _)|((c & Hc) & Hg)].
    + rewrite (registered_mask s2' o), Hm, <- registered_mask. split; [auto|].
      intros [Hd|(c & Hc)]; [exact Hd | destruct (Hno c Hc)].
    + split; [intros _; right; exists c; exact Hc|]. intros _. split; [|exact Hg].
      assert (Hin : In (EDisc o c) (snd (tick k s2 st order))) by (rewrite Et; exact Hc).
      destruct (tick_event_registered _ _ _ _ _ HI2 P2 Hin) as [Hr _]. simpl in Hr.
      destruct HR as [_ Rr Rwr _ _]. destruct Hr as [Hr|Hr]; [left; apply Rr | right; apply Rwr]; exact Hr.
Qed.

Theorem synced_equal : forall s1 s2, Rel s1 s2 -> WInv s1 -> WInv s2 -> (forall o, ~ dropped s1 s2 o) ->
  (forall o, In o (rd s1) <-> In o (rd s2)) /\ (forall o, In o (wr s1) <-> In o (wr s2)) /\
  (forall o, tg s1 o = tg s2 o) /\ (forall o, fds s1 o = fds s2 o).
Proof.
  intros s1 s2 [Rw Rr Rwr Rs Ro] W1 W2 Hnd.
  assert (Hreg : forall o, registered s1 o -> registered s2 o).
  { intros o Hr. destruct (registered_dec s2 o) as [H|H]; [exact H | exfalso; apply (Hnd o); split; assumption]. }
  split; [|split; [|split]].
  - intros o. split; [|apply Rr]. intros Hi. apply (Rs o (Hreg o (or_introl Hi))). exact Hi.
  - intros o. split; [|apply Rwr]. intros Hi. apply (Rs o (Hreg o (or_intror Hi))). exact Hi.
  - intros o. destruct (registered_dec s2 o) as [H|H]; [apply (Rs o H)|].
    destruct (tg s1 o) eqn:E1.
    + exfalso. apply H. apply Hreg. apply (w_tg _ W1). congruence.
    + destruct (tg s2 o) eqn:E2; [|reflexivity]. exfalso. apply H. apply (w_tg _ W2). congruence.
  - destruct Rw as (F & _). exact F.
Qed.

(* readable form of the hang-up difference: everything Poll/EPoll report, Select reports too; what Select reports
   in addition concerns only descriptors that Poll/EPoll are hanging up on in this very iteration (they emit
   _disconnect and drop the registration) or have hung up on before (the difference) *)
Theorem hangup_difference : forall k h s1 s2 st order o c, k <> KSelect -> joint k h s1 s2 ->
  order_ok s2 order -> (forall f, consistent (st f)) ->
  let e1 := snd (tick KSelect s1 st order) in
  let e2 := snd (tick k s2 st order) in
  let s2' := fst (tick k s2 st order) in
  (In (ERead o c) e2 -> In (ERead o c) e1) /\ (In (EWrite o c) e2 -> In (EWrite o c) e1) /\
  (In (ERead o c) e1 -> In (ERead o c) e2 \/ dropped s1 s2 o) /\
  (In (EWrite o c) e1 -> In (EWrite o c) e2 \/ dropped s1 s2 o \/
                         ((exists c', In (EDisc o c') e2) /\ ~ registered s2' o)).
Proof.
  intros k h s1 s2 st order o c Hk Hj Hord Hc e1 e2 s2'.
  destruct (agree_history _ _ _ _ Hk Hj) as (HR & _ & R2). apply Rel_masks in HR. destruct HR as ((F & _) & Rs & Ro).
  destruct (agree_events k s1 s2 st order Hk F Rs Ro (reach_Inv _ _ R2) Hord (fun _ f _ _ => Hc f))
    as (Hr & Hw & Hd & _ & _ & Hg).
  fold e1 in Hr, Hw. fold e2 in Hr, Hw, Hd, Hg. fold s2' in Hg.
  assert (Hreg1 : forall x, In x e1 -> registered s1 (ev_obj x)) by (intros x Hx; apply (select_event_registered _ _ _ Hx)).
  split; [|split; [|split]].
  - intros H. apply Hr in H. tauto.
  - intros H. apply Hw in H. tauto.
  - intros H. destruct (registered_dec s2 o) as [H2|H2].
    + left. apply Hr. split; assumption.
    + right. split; [apply (Hreg1 _ H) | exact H2].
  - intros H. destruct (registered_dec s2 o) as [H2|H2]; [|right; left; split; [apply (Hreg1 _ H) | exact H2]].
    destruct (fds s2 o) as [f|] eqn:Ef.
    + destruct (hang_only s2 st o f) eqn:Eh.
      * right. right.
        assert (Hx : In (EDisc o (target s2 o)) e2) by (apply Hd; split; [exact H2 | split; [reflexivity | exists f; auto]]).
        split; [eexists; exact Hx | apply (Hg o H2); eexists; exact Hx].
      * left. apply Hw. split; [exact H|]. split; [exact H2|]. intros f' Hf'. rewrite Ef in Hf'. injection Hf' as <-. exact Eh.
    + left. apply Hw. split; [exact H|]. split; [exact H2|]. intros f' Hf'. rewrite Ef in Hf'. discriminate.
Qed.
