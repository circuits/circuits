(* Proofs about Model/Ranges.v: get_ranges never raises and returns only slices inside the
   file; the Range arm of serve_file sends exactly those bytes.
   The loop over the specs in closed form (sem_loop_spec, dedup_spec); every header value is ignored or read that way
   (get_ranges_reading), hence get_ranges_sound and, for the Range arm, serve_range_sound; a header spelled by the
   grammar is read exactly as its specs say (range_multi_exact). *)
From Coq Require Import List ZArith Bool Lia ZifyBool.
From Circ Require Import Lib.ListFacts Lib.ByteStr Model.StaticPath Model.Ranges Proofs.StaticPathP.
Import ListNotations.
Open Scope Z_scope.

Definition ok (cl : Z) (p : Z * Z) : Prop := 0 <= fst p /\ fst p < snd p /\ snd p <= cl.

Lemma fold_digits_nonneg : forall s acc, 0 <= acc -> all_digits s = true ->
  0 <= fold_left (fun a c => 10 * a + (Z.of_N c - 48)) s acc.
Proof.
  unfold all_digits.
  induction s as [|c s IH]; intros acc Ha Hd; cbn [fold_left forallb] in *; [assumption|].
  apply andb_true_iff in Hd as [Hc Hs]. apply IH; [|assumption].
  unfold is_digit in Hc. lia.
Qed.

Lemma int_of_nonneg : forall s z, int_of s = Some z -> 0 <= z.
Proof.
  intros s z H. unfold int_of in H. destruct s as [|c s]; [discriminate|].
  destruct (all_digits (c :: s)) eqn:Hd; [|discriminate].
  apply (fold_digits_nonneg _ 0) in Hd; [congruence|lia].
Qed.

(* on digit strings int() fails on the empty one only *)
Lemma int_of_digits : forall s, all_digits s = true ->
  if isnil s then int_of s = None else exists z, int_of s = Some z.
Proof.
  intros s Hd. destruct s as [|c s]; [reflexivity|].
  unfold int_of. rewrite Hd. simpl. eauto.
Qed.

Lemma parse_spec_digits : forall b s e, parse_spec b = Some (s, e) ->
  all_digits s = true /\ all_digits e = true.
Proof.
  intros b s e H. unfold parse_spec in H.
  destruct (partition_at DASH (strip_ws b)) as [[l r]|]; [|discriminate].
  destruct (all_digits l && all_digits r) eqn:E; [|discriminate].
  injection H as <- <-. apply andb_true_iff in E. assumption.
Qed.

(* a byte-range-spec as it may be spelled: ws* digits* '-' digits* ws* *)
Record tspec := { w1 : str; sd : str; ed : str; w2 : str }.
Definition wf_tspec (t : tspec) : Prop :=
  forallb is_ws (w1 t) = true /\ all_digits (sd t) = true /\ all_digits (ed t) = true /\ forallb is_ws (w2 t) = true.
Definition render (t : tspec) : str := w1 t ++ (sd t ++ DASH :: ed t) ++ w2 t.

Fixpoint join_comma (l : list str) : str :=
  match l with
  | [] => []
  | [a] => a
  | a :: r => a ++ COMMA :: join_comma r
  end.

(* what RFC 7233 makes of one spec against a file of cl bytes *)
Inductive verdict := VSkip | VInvalid | VSlice (p : Z * Z).
Definition classify (cl : Z) (t : tspec) : verdict :=
  match int_of (sd t), int_of (ed t) with
  | Some a, Some b => if a >=? cl then VSkip                      (* unsatisfiable *)
                      else if b <? a then VInvalid                 (* last < first *)
                      else VSlice (a, Z.min b (cl - 1) + 1)
  | Some a, None => if a >=? cl then VSkip else VSlice (a, cl)
  | None, Some n => if (n =? 0) || (cl =? 0) then VSkip else VSlice (Z.max (cl - n) 0, cl)
  | None, None => VInvalid                                        (* "-" *)
  end.

Fixpoint sem_loop (cl : Z) (ts : list tspec) (acc : list (Z * Z)) : ranges :=
  match ts with
  | [] => RList acc
  | t :: r => match classify cl t with
              | VSkip => sem_loop cl r acc
              | VInvalid => RIgnore
              | VSlice p => sem_loop cl r (add_unique p acc)
              end
  end.

(* the "Issue #59" rejection of wildly different range lengths *)
Definition finish (r : ranges) : ranges :=
  match r with
  | RList l => if (1 <? Z.of_nat (length l)) && too_spread (map (fun x => snd x - fst x) l) then RUnsat else RList l
  | r => r
  end.

(* One turn of the loop of get_ranges on a spec the pattern accepts: both groups are digit
   strings, so neither int() can raise, and the arms are those of classify. *)
Lemma ranges_loop_cons : forall cl b rest acc t, parse_spec b = Some (sd t, ed t) ->
  ranges_loop cl (b :: rest) acc =
  match classify cl t with
  | VSkip => ranges_loop cl rest acc
  | VInvalid => RIgnore
  | VSlice p => ranges_loop cl rest (add_unique p acc)
  end.
Proof.
  intros cl b rest acc t Hp. destruct (parse_spec_digits _ _ _ Hp) as [Hs He].
  apply int_of_digits in Hs, He. simpl. rewrite Hp. unfold classify.
  destruct (isnil (sd t)), (isnil (ed t)); simpl.
  - rewrite Hs, He. reflexivity.
  - destruct He as [n ->]. rewrite Hs. destruct ((n =? 0) || (cl =? 0)); reflexivity.
  - destruct Hs as [a ->]. rewrite He. destruct (a >=? cl) eqn:E; [reflexivity|].
    (* "a-": the last position is cl - 1 *)
    replace (cl - 1 <? a) with false by lia. rewrite Z.min_id, Z.sub_add. reflexivity.
  - destruct Hs as [a ->], He as [z ->].
    destruct (a >=? cl); [reflexivity|]. destruct (z <? a); reflexivity.
Qed.

Lemma classify_ok : forall cl t p, 0 <= cl -> classify cl t = VSlice p -> ok cl p.
Proof.
  intros cl t p Hcl H. unfold classify in H.
  destruct (int_of (sd t)) as [a|] eqn:Ea, (int_of (ed t)) as [b|] eqn:Eb;
    try apply int_of_nonneg in Ea; try apply int_of_nonneg in Eb.
  - destruct (a >=? cl) eqn:E1; [discriminate|]. destruct (b <? a) eqn:E2; [discriminate|].
    injection H as <-. unfold ok. simpl. lia.
  - destruct (a >=? cl) eqn:E1; [discriminate|]. injection H as <-. unfold ok. simpl. lia.
  - destruct ((b =? 0) || (cl =? 0)) eqn:E1; [discriminate|]. injection H as <-. unfold ok. simpl. lia.
  - discriminate.
Qed.

Lemma pair_eqb_eq : forall a b, pair_eqb a b = true <-> a = b.
Proof.
  intros [a1 a2] [b1 b2]. unfold pair_eqb. simpl. split; intro H.
  - f_equal; lia.
  - injection H as -> ->. lia.
Qed.

Lemma add_unique_in : forall x p acc, In x (add_unique p acc) <-> In x acc \/ x = p.
Proof.
  intros x p acc. unfold add_unique. destruct (existsb (pair_eqb p) acc) eqn:E.
  - split; [auto|]. intros [H| ->]; [assumption|].
    apply existsb_exists in E as [y [Hy Ey]]. apply pair_eqb_eq in Ey. subst. assumption.
  - rewrite in_app_iff. simpl. intuition.
Qed.

Lemma add_unique_nodup : forall x acc, NoDup acc -> NoDup (add_unique x acc).
Proof.
  intros x acc Ha. unfold add_unique. destruct (existsb (pair_eqb x) acc) eqn:E; [assumption|].
  apply NoDup_snoc; [assumption|].
  intro Hin. rewrite <- not_true_iff_false, existsb_exists in E.
  apply E. exists x. split; [assumption|apply pair_eqb_eq; reflexivity].
Qed.

Definition is_invalid (cl : Z) (t : tspec) : bool :=
  match classify cl t with VInvalid => true | _ => false end.
Definition slices (cl : Z) (ts : list tspec) : list (Z * Z) :=
  flat_map (fun t => match classify cl t with VSlice p => [p] | _ => [] end) ts.
Definition dedup_from (acc l : list (Z * Z)) : list (Z * Z) := fold_left (fun a p => add_unique p a) l acc.

Theorem sem_loop_spec : forall cl ts acc,
  sem_loop cl ts acc = if existsb (is_invalid cl) ts then RIgnore else RList (dedup_from acc (slices cl ts)).
Proof.
  intros cl ts. induction ts as [|t r IH]; intros acc; [reflexivity|].
  simpl. unfold is_invalid at 1. destruct (classify cl t) as [| |p]; simpl; [apply IH|reflexivity|apply IH].
Qed.

Theorem dedup_spec : forall l acc, NoDup acc ->
  NoDup (dedup_from acc l) /\ forall x, In x (dedup_from acc l) <-> In x acc \/ In x l.
Proof.
  induction l as [|p l IH]; intros acc Hn; simpl.
  - split; [assumption|]. intros x. tauto.
  - destruct (IH (add_unique p acc) (add_unique_nodup p acc Hn)) as [H1 H2].
    split; [assumption|]. intros x. rewrite H2, add_unique_in. intuition (subst; auto).
Qed.

Lemma slices_ok : forall cl ts, 0 <= cl -> Forall (ok cl) (slices cl ts).
Proof.
  intros cl ts Hcl. apply Forall_forall. intros p H. apply in_flat_map in H as (t & _ & H).
  destruct (classify cl t) as [| |q] eqn:Ec; try easy. destruct H as [<-|[]]. exact (classify_ok _ _ _ Hcl Ec).
Qed.

(* Every list of specs, as it comes out of the split at ',': the loop gives up at a spec the pattern refuses, or it
   is the RFC reading of the specs it parsed. *)
Lemma ranges_loop_cases : forall cl specs acc,
  ranges_loop cl specs acc = RIgnore \/
  exists ts, Forall2 (fun b t => parse_spec b = Some (sd t, ed t)) specs ts /\
             ranges_loop cl specs acc = sem_loop cl ts acc.
Proof.
  intros cl. induction specs as [|b rest IH]; intros acc; [right; now exists []|].
  destruct (parse_spec b) as [[s e]|] eqn:Ep; [|left; simpl; now rewrite Ep].
  set (t := Build_tspec [] s e []). rewrite (ranges_loop_cons cl b rest acc t Ep).
  destruct (classify cl t) as [| |p] eqn:Ec; [destruct (IH acc) as [E|(ts & F & E)]|now left
                                             |destruct (IH (add_unique p acc)) as [E|(ts & F & E)]];
    try (now left); right; exists (t :: ts); (split; [now constructor|]); simpl; now rewrite Ec.
Qed.

(* get_ranges on every header value: None, or the reading of some list of specs, which is the form
   range_multi_exact (below) gives the result for a header spelled by the grammar *)
Theorem get_ranges_reading : forall hv cl,
  get_ranges hv cl = RIgnore \/ exists ts, get_ranges hv cl = finish (sem_loop cl ts []).
Proof.
  intros hv cl. unfold get_ranges. destruct hv as [[|c h]|]; auto. cbv zeta.
  destruct (negb _); auto.
  destruct (ranges_loop_cases cl (split_on COMMA (snd (split_unit (c :: h)))) []) as [->|(ts & _ & ->)]; auto.
  right. exists ts. unfold finish. now destruct (sem_loop cl ts []).
Qed.

Theorem get_ranges_sound : forall hv cl, 0 <= cl ->
  match get_ranges hv cl with
  | RCrash => False
  | RList l => Forall (ok cl) l /\ NoDup l
  | _ => True
  end.
Proof.
  intros hv cl Hcl. destruct (get_ranges_reading hv cl) as [->|(ts & ->)]; [exact I|].
  rewrite sem_loop_spec. destruct (existsb _ ts); [exact I|].
  destruct (dedup_spec (slices cl ts) [] (NoDup_nil _)) as [Hn Hi]. cbn [finish].
  destruct (_ && _); [exact I|]. split; [|exact Hn].
  apply Forall_forall. intros x Hx. apply Hi in Hx as [[]|Hx].
  revert x Hx. apply Forall_forall, slices_ok, Hcl.
Qed.

Definition slice (content : list N) (a b : Z) : list N :=
  firstn (Z.to_nat (b - a)) (skipn (Z.to_nat a) content).

Lemma slice_length : forall content a b, 0 <= a -> a <= b -> b <= Z.of_nat (length content) ->
  Z.of_nat (length (slice content a b)) = b - a.
Proof.
  intros content a b H1 H2 H3. unfold slice. rewrite firstn_length, skipn_length. lia.
Qed.

Lemma seek_read_ok : forall content a b, ok (Z.of_nat (length content)) (a, b) ->
  seek_read content a (b - a) = Some (slice content a b).
Proof.
  intros content a b (H1 & H2 & H3). simpl in *. unfold seek_read.
  destruct (a <? 0) eqn:E1; [lia|]. destruct (b - a <? 0) eqn:E2; [lia|]. reflexivity.
Qed.

Definition part_ok (content : list N) (p : Z * Z * list N) : Prop :=
  let '(a, b, body) := p in
  ok (Z.of_nat (length content)) (a, b) /\ body = slice content a b /\ Z.of_nat (length body) = b - a.

Lemma part_ok_slice : forall content a b, ok (Z.of_nat (length content)) (a, b) ->
  part_ok content (a, b, slice content a b).
Proof.
  intros content a b H. split; [assumption|]. split; [reflexivity|].
  destruct H as (H1 & H2 & H3). simpl in *. apply slice_length; lia.
Qed.

Lemma read_parts_ok : forall content l, Forall (ok (Z.of_nat (length content))) l ->
  exists ps, read_parts content l = Some ps /\ Forall (part_ok content) ps /\ map fst ps = l.
Proof.
  intros content l. induction l as [|[a b] r IH]; intros H; simpl.
  - exists []. repeat split; constructor.
  - inversion H as [|? ? Hab Hr]; subst. rewrite (seek_read_ok _ _ _ Hab).
    destruct (IH Hr) as (ps & -> & Hps & Hm).
    exists ((a, b, slice content a b) :: ps). split; [reflexivity|]. split.
    + constructor; [apply part_ok_slice|]; assumption.
    + simpl. rewrite Hm. reflexivity.
Qed.

Theorem serve_range_sound : forall proto11 hv content,
  let len := Z.of_nat (length content) in
  match serve_range proto11 hv content with
  | Err500 => False
  | Full n => n = len
  | R416 n => n = len
  | Partial a b n body => n = len /\ part_ok content (a, b, body)
  | Multi n ps => n = len /\ Forall (part_ok content) ps /\ (2 <= length ps)%nat /\ NoDup (map fst ps)
  end.
Proof.
  intros proto11 hv content len. unfold serve_range. fold len.
  destruct (negb proto11); [reflexivity|].
  pose proof (get_ranges_sound hv len ltac:(lia)) as H.
  destruct (get_ranges hv len) as [|l| |]; try reflexivity; [|contradiction].
  destruct H as [Hok Hnd].
  destruct l as [|[a b] l]; [reflexivity|].
  destruct l as [|q l].
  - inversion Hok as [|? ? Hab _]; subst. rewrite (seek_read_ok _ _ _ Hab).
    split; [reflexivity|apply part_ok_slice; assumption].
  - destruct (read_parts_ok content _ Hok) as (ps & -> & Hps & Hm).
    split; [reflexivity|]. split; [assumption|]. rewrite <- (map_length fst ps), Hm.
    split; [simpl; lia|assumption].
Qed.

Lemma digit_not_ws : forall c, is_digit c = true -> is_ws c = false.
Proof. intros c H. unfold is_digit, is_ws in *. lia. Qed.

Lemma ws_facts : forall c, is_ws c = true ->
  (c =? COMMA)%N = false /\ (c =? DASH)%N = false /\ is_digit c = false.
Proof. intros c H. unfold is_digit, is_ws, COMMA, DASH in *. lia. Qed.

Lemma forallb_notin : forall (f : N -> bool) l d, forallb f l = true -> f d = false -> ~ In d l.
Proof. intros f l d H Hd I. rewrite forallb_forall in H. apply H in I. congruence. Qed.

Lemma lstrip_ws_app : forall w x y, forallb is_ws w = true ->
  x <> [] -> (forall c, In c x -> is_ws c = false) -> lstrip_ws (w ++ x ++ y) = x ++ y.
Proof.
  induction w as [|c w IH]; intros x y H Hn Hx; simpl in *.
  - destruct x as [|c x]; [congruence|]. simpl. rewrite Hx by (left; reflexivity). reflexivity.
  - apply andb_true_iff in H as [-> Hw]. apply IH; assumption.
Qed.

Lemma strip_ws_core : forall w1 core w2, forallb is_ws w1 = true -> forallb is_ws w2 = true ->
  core <> [] -> (forall c, In c core -> is_ws c = false) ->
  strip_ws (w1 ++ core ++ w2) = core.
Proof.
  intros w1 core w2 H1 H2 Hn Hc. unfold strip_ws.
  rewrite lstrip_ws_app, rev_app_distr, <- (app_nil_r (rev core)) by assumption.
  rewrite lstrip_ws_app, app_nil_r.
  - apply rev_involutive.
  - apply forallb_forall. intros c I. apply in_rev in I. revert c I. apply forallb_forall, H2.
  - intro E. apply Hn. rewrite <- (rev_involutive core), E. reflexivity.
  - intros c I. apply Hc, in_rev, I.
Qed.

Lemma parse_render : forall t, wf_tspec t -> parse_spec (render t) = Some (sd t, ed t).
Proof.
  intros t (H1 & Hs & He & H2). unfold parse_spec, render.
  rewrite strip_ws_core; try assumption.
  - rewrite split_at_app by exact (forallb_notin is_digit _ DASH Hs eq_refl).
    rewrite Hs, He. reflexivity.
  - destruct (sd t); discriminate.
  - intros c I. apply in_app_or in I as [I|[<-|I]]; [|reflexivity|];
      apply digit_not_ws; revert c I; apply forallb_forall; assumption.
Qed.

Lemma render_no_comma : forall t, wf_tspec t -> ~ In COMMA (render t).
Proof.
  intros t (H1 & Hs & He & H2). unfold render. rewrite !in_app_iff. simpl.
  pose proof (forallb_notin is_ws _ COMMA H1 eq_refl).
  pose proof (forallb_notin is_ws _ COMMA H2 eq_refl).
  pose proof (forallb_notin is_digit _ COMMA Hs eq_refl).
  pose proof (forallb_notin is_digit _ COMMA He eq_refl).
  intuition discriminate.
Qed.

Lemma split_join_comma : forall l, Forall (fun s => ~ In COMMA s) l -> l <> [] ->
  split_on COMMA (join_comma l) = l.
Proof. exact (split_joined COMMA join_comma (fun _ => eq_refl) (fun _ _ _ => eq_refl)). Qed.

Lemma loop_render : forall cl ts acc, Forall wf_tspec ts ->
  ranges_loop cl (map render ts) acc = sem_loop cl ts acc.
Proof.
  intros cl ts. induction ts as [|t r IH]; intros acc H; [reflexivity|].
  inversion H as [|? ? Ht Hr]; subst. simpl map.
  rewrite (ranges_loop_cons _ _ _ _ t (parse_render t Ht)). simpl.
  destruct (classify cl t); auto.
Qed.

Theorem range_multi_exact : forall unit ts cl,
  str_eqb (map lower_ascii (strip_ws unit)) BYTES = true -> ~ In EQ unit ->
  ts <> [] -> Forall wf_tspec ts ->
  get_ranges (Some (unit ++ EQ :: join_comma (map render ts))) cl = finish (sem_loop cl ts []).
Proof.
  intros unit ts cl Hu He Hn Hw. unfold get_ranges.
  destruct (unit ++ EQ :: join_comma (map render ts)) as [|c h] eqn:Eh.
  { destruct unit; discriminate. }
  rewrite <- Eh. clear Eh c h. cbv zeta.
  unfold split_unit. rewrite split_at_app by exact He. simpl fst. simpl snd.
  rewrite Hu. simpl negb. cbv iota.
  rewrite split_join_comma.
  - rewrite loop_render by assumption. unfold finish. destruct (sem_loop cl ts []); reflexivity.
  - rewrite Forall_map. revert Hw. apply Forall_impl, render_no_comma.
  - destruct ts; [congruence|discriminate].
Qed.

Lemma get_ranges_single : forall ds de cl, all_digits ds = true -> all_digits de = true ->
  get_ranges (Some (BYTES ++ EQ :: ds ++ DASH :: de)) cl =
  match classify cl {| w1 := []; sd := ds; ed := de; w2 := [] |} with
  | VSkip => RList []
  | VInvalid => RIgnore
  | VSlice p => RList [p]
  end.
Proof.
  intros ds de cl Hs He. set (t := {| w1 := []; sd := ds; ed := de; w2 := [] |}).
  rewrite <- (app_nil_r (ds ++ DASH :: de)).
  change ((ds ++ DASH :: de) ++ []) with (join_comma (map render [t])).
  rewrite (range_multi_exact BYTES [t] cl eq_refl).
  - simpl. destruct (classify cl t); reflexivity.
  - simpl. intuition discriminate.
  - discriminate.
  - repeat constructor; assumption.
Qed.
