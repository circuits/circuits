(* C12 — proofs about Model/ServerConn.v.
   A handler run for socket t is described twice.  For every other socket s by Frame: s's row of the tables, its events
   and its kernel calls are untouched, in any state (step_frame; the isolation theorem is its closure under runs).  For t
   itself by a machine: what a handler puts out and does to t depends only on t's cell (is it a client; its queued
   output; is a close waiting), m_step says how, and Sim / step_sim say that the code follows it on well-formed tables
   (wf survives an operation on t because the other rows do: wf_frame).  Together: the server is a product of
   per-connection machines.  Inv, what observers have seen so far, is read socket by socket (View): a step leaves the
   View of the others alone by Frame and moves t's along an edge of the automaton (m_edge), Inv_at puts the two
   together.  The liveness theorems look up in the machine what a terminal or deferring stimulus does; close() of the
   whole server is a run of close(s).  The client at the end is independent of the rest. *)
From Coq Require Import List NArith Arith Bool Lia.
From Circ Require Import Lib.ListFacts Lib.ListMem Model.ServerConn.
Import ListNotations.

Lemma mem_In x l : mem x l = true <-> In x l.
Proof. apply existsb_eqb_In. Qed.
Lemma mem_nIn x l : mem x l = false <-> ~ In x l.
Proof. apply existsb_eqb_notIn. Qed.
Lemma mem_true s l : In s l -> mem s l = true.
Proof. apply mem_In. Qed.
Lemma mem_false s l : ~ In s l -> mem s l = false.
Proof. apply mem_nIn. Qed.

Lemma In_del y x l : In y (del x l) <-> In y l /\ y <> x.
Proof.
  unfold del. rewrite filter_In. split; intros [H1 H2]; split; auto.
  - intro; subst. rewrite Nat.eqb_refl in H2. discriminate.
  - destruct (Nat.eqb_spec x y); auto; subst; exfalso; auto.
Qed.
Lemma In_add y x l : In y (add x l) <-> y = x \/ In y l.
Proof.
  unfold add. destruct (mem x l) eqn:E.
  - apply mem_In in E. split; auto. intros [H|H]; subst; auto.
  - rewrite in_app_iff. simpl. intuition.
Qed.
Lemma mem_snoc s t l : mem s (l ++ [t]) = mem s l || Nat.eqb s t.
Proof.
  apply eq_true_iff_eq. rewrite orb_true_iff, !mem_In, in_app_iff, Nat.eqb_eq. simpl. intuition.
Qed.

Lemma bhas_In s b : bhas s b = true <-> In s (map fst b).
Proof.
  unfold bhas. rewrite existsb_exists, in_map_iff. split.
  - intros [p [Hp E]]. apply Nat.eqb_eq in E. exists p. auto.
  - intros [p [E Hp]]. exists p. split; auto. subst. apply Nat.eqb_refl.
Qed.
Lemma In_bdel y s b : In y (map fst (bdel s b)) <-> In y (map fst b) /\ y <> s.
Proof.
  unfold bdel. induction b as [|[k v] t IH]; simpl. tauto.
  destruct (Nat.eqb_spec s k); simpl; rewrite IH; subst; split; intros; intuition congruence.
Qed.
Lemma In_bset y s v b : In y (map fst (bset s v b)) <-> y = s \/ In y (map fst b).
Proof.
  unfold bset. simpl. rewrite In_bdel. destruct (Nat.eq_dec y s); intuition.
Qed.
Lemma In_btouch y s b : In y (map fst (btouch s b)) <-> y = s \/ In y (map fst b).
Proof.
  unfold btouch. destruct (bhas s b) eqn:E.
  - apply bhas_In in E. split; auto. intros [H|H]; subst; auto.
  - simpl. intuition.
Qed.
(* a defaultdict reads an absent key as empty *)
Lemma bget_absent s b : bhas s b = false -> bget s b = [].
Proof.
  unfold bhas, bget. induction b as [|p b IH]; simpl; auto.
  destruct (Nat.eqb s _); simpl; auto. discriminate.
Qed.
Lemma bget_btouch_same s b : bget s (btouch s b) = bget s b.
Proof.
  unfold btouch. destruct (bhas s b) eqn:H; auto. rewrite (bget_absent s b H).
  unfold bget. simpl. rewrite Nat.eqb_refl. reflexivity.
Qed.
Lemma bget_bset_same s v b : bget s (bset s v b) = v.
Proof. unfold bset, bget. simpl. rewrite Nat.eqb_refl. auto. Qed.

(* _updateRegistration touches only _targets and _map *)
Lemma upd_eq hm t x : upd hm t x =
  let c := mem t (rd x) || mem t (wr x) in
  mk (clients x) (bufs x) (closeq x) (rd x) (wr x)
     (if c then tg x else if hm then del t (tg x) else tg x)
     (if c then if hm then add t (mp x) else mp x else del t (mp x)) (lis x).
Proof. unfold upd. destruct (mem t (rd x) || mem t (wr x)); reflexivity. Qed.
Lemma clients_upd hm t x : clients (upd hm t x) = clients x.
Proof. rewrite upd_eq. reflexivity. Qed.
Lemma clients_addReader hm t x : clients (addReader hm t x) = clients x.
Proof. unfold addReader. rewrite clients_upd. reflexivity. Qed.
Lemma clients_addWriter hm t x : clients (addWriter hm t x) = clients x.
Proof. unfold addWriter. rewrite clients_upd. reflexivity. Qed.

Section Frame.
Variables (s t : sock).
Hypothesis NE : s <> t.

Lemma ne_eqb : Nat.eqb s t = false.
Proof. apply Nat.eqb_neq; auto. Qed.

Lemma mem_remove1_ne l : mem s (remove1 t l) = mem s l.
Proof. apply existsb_eqb_ext. split; [apply In_remove1|apply In_remove1_neq; auto]. Qed.
Lemma mem_del_ne l : mem s (del t l) = mem s l.
Proof. apply existsb_eqb_ext. rewrite In_del. tauto. Qed.
Lemma mem_add_ne l : mem s (add t l) = mem s l.
Proof. apply existsb_eqb_ext. rewrite In_add. intuition congruence. Qed.
Lemma mem_snoc_ne l : mem s (l ++ [t]) = mem s l.
Proof. rewrite mem_snoc, ne_eqb. apply orb_false_r. Qed.
Lemma bhas_bdel_ne b : bhas s (bdel t b) = bhas s b.
Proof. apply eq_true_iff_eq. rewrite !bhas_In, In_bdel. tauto. Qed.
Lemma bhas_bset_ne v b : bhas s (bset t v b) = bhas s b.
Proof. apply eq_true_iff_eq. rewrite !bhas_In, In_bset. intuition congruence. Qed.
Lemma bhas_btouch_ne b : bhas s (btouch t b) = bhas s b.
Proof. apply eq_true_iff_eq. rewrite !bhas_In, In_btouch. intuition congruence. Qed.
Lemma bget_bdel_ne b : bget s (bdel t b) = bget s b.
Proof.
  unfold bget, bdel. induction b as [|[k v] b IH]; simpl; auto.
  destruct (Nat.eqb_spec t k); simpl.
  - subst k. rewrite ne_eqb. auto.
  - destruct (Nat.eqb s k); auto.
Qed.
Lemma bget_bset_ne v b : bget s (bset t v b) = bget s b.
Proof. rewrite <- (bget_bdel_ne b). unfold bset, bget. simpl. rewrite ne_eqb. auto. Qed.
Lemma bget_btouch_ne b : bget s (btouch t b) = bget s b.
Proof. unfold btouch. destruct (bhas t b); auto. unfold bget. simpl. rewrite ne_eqb. auto. Qed.

Local Opaque bset btouch bdel add del mem remove1.

(* rewrites s's row of a state built from t's by the container operations back to s's row of the parts *)
Ltac rows :=
  unfold row_of; simpl;
  rewrite ?mem_remove1_ne, ?mem_del_ne, ?mem_add_ne, ?mem_snoc_ne, ?bget_bset_ne, ?bhas_bset_ne,
          ?bget_bdel_ne, ?bhas_bdel_ne, ?bget_btouch_ne, ?bhas_btouch_ne; auto.

Lemma row_upd hm x : row_of s (upd hm t x) = row_of s x.
Proof. rewrite upd_eq. destruct (mem t (rd x) || mem t (wr x)), hm; rows. Qed.
Lemma row_addReader hm x : row_of s (set_clients (clients x ++ [t]) (addReader hm t x)) = row_of s x.
Proof. unfold addReader. rewrite upd_eq. simpl. destruct (_ || _), hm; rows. Qed.
Lemma row_addWriter hm x : row_of s (addWriter hm t x) = row_of s x.
Proof. unfold addWriter. rewrite row_upd. rows. Qed.
Lemma row_removeWriter hm x : row_of s (removeWriter hm t x) = row_of s x.
Proof. unfold removeWriter. rewrite row_upd. destruct (mem t (rd x) || mem t (remove1 t (wr x))); rows. Qed.
Lemma row_pdrop x : row_of s (pdrop t x) = row_of s x.
Proof. unfold pdrop. rows. Qed.
Lemma row_touch x : row_of s (set_bufs (btouch t (bufs x)) x) = row_of s x.
Proof. rows. Qed.
Lemma row_bset v x : row_of s (set_bufs (bset t v (bufs x)) x) = row_of s x.
Proof. rows. Qed.
Lemma row_closeq_add x : row_of s (set_closeq (closeq x ++ [t]) x) = row_of s x.
Proof. rows. Qed.
Lemma row_closeq_rem x : row_of s (set_closeq (remove1 t (closeq x)) x) = row_of s x.
Proof. rows. Qed.
Lemma row_do__close hm x : row_of s (fst (do__close hm t x)) = row_of s x.
Proof.
  unfold do__close, discard. destruct (negb (mem t (clients x))); auto.
  rewrite upd_eq. simpl. destruct (_ || _), hm; rows.
Qed.

Definition Frame (x : st) (r : st * list out) : Prop :=
  row_of s (fst r) = row_of s x /\ proj s (snd r) = [] /\ calls s (snd r) = [].

Lemma Frame_from x x1 r : row_of s x1 = row_of s x -> Frame x1 r -> Frame x r.
Proof. intros E (F1 & F2 & F3). repeat split; auto. congruence. Qed.
Lemma Frame_cons x x' o e : proj_of s e = [] -> call_of s e = [] -> Frame x (x', o) -> Frame x (x', e :: o).
Proof.
  intros P C (F1 & F2 & F3). repeat split; auto; simpl in *.
  - unfold proj in *. simpl. rewrite P. auto.
  - unfold calls in *. simpl. rewrite C. auto.
Qed.
Lemma Frame_app x x1 o1 r : Frame x (x1, o1) -> Frame x1 r -> Frame x (let '(x2, o2) := r in (x2, o1 ++ o2)).
Proof.
  intros (F1 & F2 & F3) (G1 & G2 & G3). destruct r as [x2 o2]. simpl in *. repeat split; simpl.
  - congruence.
  - unfold proj in *. rewrite flat_map_app, F2, G2. auto.
  - unfold calls in *. rewrite flat_map_app, F3, G3. auto.
Qed.
Lemma Frame_guard x r : Frame x r -> Frame x (if negb (mem t (clients x)) then (x, []) else r).
Proof. intros F. destruct (negb _); auto. repeat split. Qed.

(* Frame for a result written out: the state by the row lemmas, the events by computation *)
Ltac ev_t := simpl; rewrite ?ne_eqb; auto.
Ltac lit := split; [cbn [fst]; auto|split; ev_t].

Lemma do__close_frame hm x : Frame x (do__close hm t x).
Proof.
  split. apply row_do__close. unfold do__close. destruct (negb _); split; ev_t.
Qed.

Lemma do_close_frame hm x : Frame x (do_close hm t x).
Proof.
  apply Frame_guard. cbv zeta. destruct (isnil _).
  - apply (Frame_from x _ _ (row_touch x)), do__close_frame.
  - destruct (mem t _); lit; rewrite ?row_closeq_add; apply row_touch.
Qed.

Lemma on_read_frame hm r x : Frame x (on_read hm t r x).
Proof.
  apply Frame_guard. destruct r as [[|b d]| | |].
  - apply (Frame_app x x [_]); [lit|apply do_close_frame].
  - lit.
  - apply (Frame_app x x [_]); [lit|apply do_close_frame].
  - lit.
  - apply (Frame_app x x [_; _]); [lit|apply do__close_frame].
Qed.

Lemma drained_frame hm x : Frame x (drained hm t x).
Proof.
  unfold drained. cbv zeta. set (x1 := set_bufs (btouch t (bufs x)) x).
  assert (R1 : row_of s x1 = row_of s x) by apply row_touch.
  destruct (isnil _); [|lit]. destruct (mem t (closeq x1)).
  - apply (Frame_from x (set_closeq (remove1 t (closeq x1)) x1)), do__close_frame. rewrite row_closeq_rem. auto.
  - destruct (mem t (wr x1)); lit. rewrite row_removeWriter. auto.
Qed.

Lemma on_writable_frame hm w x : Frame x (on_writable hm t w x).
Proof.
  apply Frame_guard. cbv zeta. set (x0 := set_bufs (btouch t (bufs x)) x).
  assert (R0 : row_of s x0 = row_of s x) by apply row_touch.
  destruct (bget t (bufs x0)) as [|n rest].
  - apply (Frame_from x x0 _ R0), drained_frame.
  - set (x1 := set_bufs (bset t rest (bufs x0)) x0).
    assert (R1 : row_of s x1 = row_of s x) by (unfold x1; rewrite row_bset; auto).
    (* after the send: whatever it left (x2, o), the buffer is looked at again if t is still a client *)
    assert (K : forall x2 o, Frame x (x2, o) ->
      Frame x (if mem t (clients x2) then let '(x3, o3) := drained hm t x2 in (x3, OCall (CSend t n) :: o ++ o3)
               else (x2, OCall (CSend t n) :: o))).
    { intros x2 o F. assert (F' : Frame x (x2, OCall (CSend t n) :: o)) by (apply Frame_cons; [ev_t|ev_t|exact F]).
      destruct (mem t (clients x2)); auto. apply (Frame_app x x2 _ _ F'), drained_frame. }
    destruct w as [k| |].
    + apply (K _ []). destruct (k <? n)%N; lit. rewrite row_bset. auto.
    + apply (K _ []). lit. rewrite row_bset. auto.
    + destruct (do__close hm t x1) as [x2 o2] eqn:C. apply (K x2 (_ :: o2)).
      apply Frame_cons; [ev_t|ev_t|]. apply (Frame_from x x1 _ R1). rewrite <- C. apply do__close_frame.
Qed.

Lemma on_write_req_frame hm n x : Frame x (on_write_req hm t n x).
Proof.
  apply Frame_guard. cbv zeta. destruct (mem t (wr x)); lit; rewrite row_bset; auto. apply row_addWriter.
Qed.

Lemma on_accept_frame hm g x : Frame x (on_accept hm t g x).
Proof.
  unfold on_accept. cbv zeta. rewrite clients_addReader.
  pose proof (row_addReader hm x) as R2. set (x2 := set_clients _ _) in *.
  destruct g; [|lit].
  apply (Frame_app x x2 [_]); [lit|apply do__close_frame].
Qed.
End Frame.

Lemma step_frame hm s x i : touches s i = false -> Frame s x (step hm x i).
Proof.
  intros T. destruct i; simpl in T; try discriminate;
    try (apply Nat.eqb_neq in T); cbn [step].
  - apply on_accept_frame; auto.
  - apply on_accept_frame; auto.
  - apply on_read_frame; auto.
  - apply on_writable_frame; auto.
  - split. apply row_pdrop; auto. split; reflexivity.
  - apply do__close_frame; auto.
  - apply on_write_req_frame; auto.
  - apply do_close_frame; auto.
  - repeat split; auto.
Qed.

Theorem isolation hm s h : forall x acc, Forall (fun i => touches s i = false) h ->
  row_of s (fst (run_from hm x acc h)) = row_of s x /\
  proj s (snd (run_from hm x acc h)) = proj s acc /\
  calls s (snd (run_from hm x acc h)) = calls s acc.
Proof.
  induction h as [|i h IH]; intros x acc F; simpl; auto.
  inversion F as [|? ? Fi Fh]; subst.
  destruct (step_frame hm s x i Fi) as (F1 & F2 & F3). destruct (step hm x i) as [x' o]. simpl in *.
  destruct (IH x' (acc ++ o) Fh) as (I1 & I2 & I3).
  rewrite I1, I2, I3, F1. unfold proj, calls in *. rewrite !flat_map_app, F2, F3, !app_nil_r. auto.
Qed.

Lemma row_client s x y : row_of s x = row_of s y -> (In s (clients x) <-> In s (clients y)).
Proof. unfold row_of. intros E. injection E as E1 _. rewrite <- !mem_In. rewrite E1. tauto. Qed.
Lemma row_closeq s x y : row_of s x = row_of s y -> (In s (closeq x) <-> In s (closeq y)).
Proof. unfold row_of. intros E. injection E as _ _ _ E4 _. rewrite <- !mem_In. rewrite E4. tauto. Qed.
Lemma row_buf s x y : row_of s x = row_of s y -> bget s (bufs x) = bget s (bufs y).
Proof. unfold row_of. intros E. injection E as _ E2 _. auto. Qed.

Definition tabs (x : st) (s : sock) : Prop :=
  In s (map fst x.(bufs)) \/ In s x.(closeq) \/ In s x.(rd) \/ In s x.(wr) \/ In s x.(tg) \/ In s x.(mp).

Record wf (x : st) : Prop := {
  wf_nc : NoDup x.(clients); wf_nq : NoDup x.(closeq); wf_nr : NoDup x.(rd); wf_nw : NoDup x.(wr);
  wf_sub : forall s, tabs x s -> In s x.(clients) }.

Lemma wf_init : wf init.
Proof. constructor; simpl; try constructor. unfold tabs; simpl; tauto. Qed.

Lemma wf_nostate s y : wf y -> ~ In s (clients y) -> no_state s y.
Proof. intros [_ _ _ _ Hsub] N. unfold no_state. repeat split; auto; intro Q; apply N, Hsub; unfold tabs; tauto. Qed.

Definition busy (r : row) : bool := r_key r || r_closeq r || r_rd r || r_wr r || r_tg r || r_mp r.
Lemma tabs_row x s : tabs x s <-> busy (row_of s x) = true.
Proof. unfold tabs, busy, row_of. simpl. rewrite !orb_true_iff, bhas_In, !mem_In. tauto. Qed.

Lemma wf_frame t x x' : wf x -> (forall s, s <> t -> row_of s x' = row_of s x) ->
  (tabs x' t -> In t (clients x')) ->
  NoDup (clients x') -> NoDup (closeq x') -> NoDup (rd x') -> NoDup (wr x') -> wf x'.
Proof.
  intros W R T. constructor; auto. intros s Hs. destruct (Nat.eq_dec s t) as [->|N]; auto.
  apply tabs_row in Hs. rewrite (R s N) in Hs. apply tabs_row, W in Hs.
  apply (row_client s x' x (R s N)), Hs.
Qed.

Lemma wf_touch t x : wf x -> In t x.(clients) -> wf (set_bufs (btouch t x.(bufs)) x).
Proof. intros W I. apply (wf_frame t x _ W); simpl; auto using row_touch; apply W. Qed.
Lemma wf_bset t v x : wf x -> In t x.(clients) -> wf (set_bufs (bset t v x.(bufs)) x).
Proof. intros W I. apply (wf_frame t x _ W); simpl; auto using row_bset; apply W. Qed.
Lemma wf_closeq_add t x : wf x -> In t x.(clients) -> ~ In t x.(closeq) -> wf (set_closeq (x.(closeq) ++ [t]) x).
Proof.
  intros W I Q. apply (wf_frame t x _ W); simpl; auto using row_closeq_add; try apply W.
  apply NoDup_snoc; auto. apply W.
Qed.
Lemma wf_closeq_rem t x : wf x -> In t x.(clients) -> wf (set_closeq (remove1 t x.(closeq)) x).
Proof.
  intros W I. apply (wf_frame t x _ W); simpl; auto using row_closeq_rem; try apply W.
  apply NoDup_remove1, W.
Qed.
Lemma wf_addWriter hm t x : wf x -> In t x.(clients) -> ~ In t x.(wr) -> wf (addWriter hm t x).
Proof.
  intros W I Q. apply (wf_frame t x _ W); auto using row_addWriter;
    unfold addWriter; rewrite upd_eq; simpl; auto; try apply W.
  apply NoDup_snoc; auto. apply W.
Qed.
Lemma wf_removeWriter hm t x : wf x -> In t x.(clients) -> wf (removeWriter hm t x).
Proof.
  intros W I. apply (wf_frame t x _ W); auto using row_removeWriter;
    unfold removeWriter; rewrite upd_eq; simpl; auto; try apply W.
  apply NoDup_remove1, W.
Qed.
Lemma wf_addReader hm t x : wf x -> ~ In t x.(clients) -> wf (set_clients (x.(clients) ++ [t]) (addReader hm t x)).
Proof.
  intros W N. assert (Hr : ~ In t (rd x)) by (intro; apply N, W; unfold tabs; tauto).
  apply (wf_frame t x _ W); auto using row_addReader;
    unfold addReader; rewrite upd_eq; simpl; try apply W.
  - intros _. apply in_or_app. simpl. auto.
  - apply NoDup_snoc; auto. apply W.
  - apply NoDup_snoc; auto. apply W.
Qed.
Lemma wf_pdrop t x : wf x -> wf (pdrop t x).
Proof.
  intros W. unfold pdrop. constructor; simpl; try (apply NoDup_remove1); try apply W.
  intros s Hs. apply W. revert Hs. unfold tabs; simpl. rewrite !In_del.
  intuition eauto using In_remove1.
Qed.

(* Server._close of a client: remove1 takes the only occurrence of t out of each list, and with t in neither
   poller list _updateRegistration drops it from _targets and _map *)
Lemma do__close_eq hm t x : wf x -> In t (clients x) -> do__close hm t x =
  (mk (remove1 t (clients x)) (bdel t (bufs x)) (remove1 t (closeq x)) (remove1 t (rd x)) (remove1 t (wr x))
      (if hm then del t (del t (tg x)) else del t (tg x)) (del t (mp x)) (lis x), [OEv (EDisconnect t)]).
Proof.
  intros W I. unfold do__close, discard. rewrite (mem_true _ _ I), upd_eq. simpl.
  rewrite (mem_false t (remove1 t (rd x))), (mem_false t (remove1 t (wr x))) by (apply remove1_notIn, W).
  reflexivity.
Qed.

(* What the server itself keeps for a client: its queued output and whether a close waits for the queue to drain.
   cell: None for a socket that is no client. *)
Definition view (t : sock) (x : st) : list N * bool := (bget t (bufs x), mem t (closeq x)).
Definition cell (t : sock) (x : st) : option (list N * bool) := if mem t (clients x) then Some (view t x) else None.

(* The handlers (_read, _on_write / _write, _disconnect, write, close of Server, for one socket) as a machine over that
   socket's cell: what is put out, and the cell afterwards.  The poller's columns are not in it: the handlers read them
   (is t a writer already) only to decide how to write them, never for what they put out or do to the cell. *)
Definition mres : Type := list out * option (list N * bool).
Definition m_pre (p : list out) (m : mres) : mres := (p ++ fst m, snd m).
Definition m_close (t : sock) : mres := ([OEv (EDisconnect t)], None).
Definition m_do_close (t : sock) (v : list N * bool) : mres :=
  if isnil (fst v) then m_close t else ([], Some (fst v, true)).
Definition m_drained (t : sock) (v : list N * bool) : mres :=
  if isnil (fst v) && snd v then m_close t else ([], Some v).
Definition m_step (i : stim) (c : option (list N * bool)) : mres :=
  match c with None => ([], None) | Some v =>
  match i with
  | SRead t r =>
      match r with
      | RData ((_ :: _) as d) => ([OCall (CRecv t r); OEv (ERead t d)], c)
      | RData [] | REof => m_pre [OCall (CRecv t r)] (m_do_close t v)
      | RWould => ([OCall (CRecv t r)], c)
      | RErr => m_pre [OCall (CRecv t r); OEv (EError t)] (m_close t)
      end
  | SWritable t w =>
      match fst v with
      | [] => m_drained t v
      | n :: rest => m_pre [OCall (CSend t n)]
          match w with
          | WAcc k => m_drained t (if N.ltb k n then N.sub n k :: rest else rest, snd v)
          | WTrans => m_drained t v
          | WFatal => m_pre [OEv (EError t)] (m_close t)
          end
      end
  | SDisc t => m_close t
  | SWrite t n => ([], Some (fst v ++ [n], snd v))
  | SClose t => m_do_close t v
  | _ => ([], c)
  end end.
(* the one socket a stimulus is addressed to, accept and close() of the whole server apart (for SDrop no handler of
   the Server runs: the poller forgets the socket, and the machine leaves the cell as it is) *)
Definition handled (i : stim) : option sock :=
  match i with SRead t _ | SWritable t _ | SDrop t | SDisc t | SWrite t _ | SClose t => Some t | _ => None end.

(* r is the machine's answer m at socket t.  The components cross: a step result is (tables, outputs), an mres
   (outputs, cell) *)
Definition Sim (t : sock) (r : st * list out) (m : mres) : Prop :=
  wf (fst r) /\ snd r = fst m /\ cell t (fst r) = snd m.

Lemma Sim_pre t p r m : Sim t r m -> Sim t (let '(x', o) := r in (x', p ++ o)) (m_pre p m).
Proof. destruct r as [x' o]. intros (W & Eo & Ec). simpl in *. subst o. split; [|split]; auto. Qed.
Lemma cell_client t x : In t (clients x) -> cell t x = Some (view t x).
Proof. intros I. unfold cell. rewrite (mem_true _ _ I). reflexivity. Qed.
Lemma Sim_stay t y o v : wf y -> In t (clients y) -> view t y = v -> Sim t (y, o) (o, Some v).
Proof. intros W I <-. split; [auto|split; [auto|apply cell_client, I]]. Qed.
Lemma view_touch t x : view t (set_bufs (btouch t (bufs x)) x) = view t x.
Proof. unfold view. simpl. rewrite bget_btouch_same. reflexivity. Qed.
Lemma view_bset t v x : view t (set_bufs (bset t v (bufs x)) x) = (v, mem t (closeq x)).
Proof. unfold view. simpl. rewrite bget_bset_same. reflexivity. Qed.
Lemma view_upd hm t x : view t (upd hm t x) = view t x.
Proof. rewrite upd_eq. reflexivity. Qed.

(* t leaves _clients and with it, by wf, every table *)
Lemma do__close_sim hm t x : wf x -> In t (clients x) -> Sim t (do__close hm t x) (m_close t).
Proof.
  intros W I. assert (R := fun s N => row_do__close s t N hm x). rewrite do__close_eq in * by auto.
  assert (N : ~ In t (remove1 t (clients x))) by apply remove1_notIn, W.
  split; [|split; [reflexivity|]].
  - apply (wf_frame t x _ W R); simpl; try (apply NoDup_remove1, W).
    intros T. exfalso. revert T. unfold tabs. simpl. rewrite In_bdel. destruct hm; rewrite ?In_del.
    all: intros [Q|[Q|[Q|[Q|[Q|Q]]]]]; try tauto; revert Q; apply remove1_notIn, W.
  - unfold cell. simpl. rewrite (mem_false _ _ N). reflexivity.
Qed.

Lemma do_close_sim hm t x : wf x -> In t (clients x) -> Sim t (do_close hm t x) (m_do_close t (view t x)).
Proof.
  intros W I. unfold do_close, m_do_close. rewrite (mem_true _ _ I). cbn [negb]. cbv zeta.
  pose proof (wf_touch t x W I) as W1. rewrite <- (view_touch t x). set (x1 := set_bufs _ x) in *.
  change (bget t (bufs x1)) with (fst (view t x1)). destruct (isnil (fst (view t x1))).
  - apply (do__close_sim hm t x1 W1 I).
  - destruct (mem t (closeq x1)) eqn:Q; apply Sim_stay; auto; unfold view; cbn [fst].
    + rewrite Q. reflexivity.
    + apply (wf_closeq_add t _ W1 I). apply mem_nIn, Q.
    + simpl. rewrite mem_snoc, Nat.eqb_refl, orb_true_r. reflexivity.
Qed.

Lemma drained_sim hm t x : wf x -> In t (clients x) -> Sim t (drained hm t x) (m_drained t (view t x)).
Proof.
  intros W I. unfold drained, m_drained. cbv zeta.
  pose proof (wf_touch t x W I) as W1. rewrite <- (view_touch t x). set (x1 := set_bufs _ x) in *.
  change (bget t (bufs x1)) with (fst (view t x1)). change (mem t (closeq x1)) with (snd (view t x1)).
  destruct (isnil (fst (view t x1))); cbn [andb]; [|apply Sim_stay; auto]. destruct (snd (view t x1)).
  - apply (do__close_sim hm t _ (wf_closeq_rem t _ W1 I) I).
  - destruct (mem t (wr x1)); apply Sim_stay; auto.
    + apply wf_removeWriter; auto.
    + unfold removeWriter. rewrite clients_upd. exact I.
    + unfold removeWriter. rewrite view_upd. reflexivity.
Qed.

Lemma on_read_sim hm t r x : wf x -> In t (clients x) ->
  Sim t (on_read hm t r x) (m_step (SRead t r) (Some (view t x))).
Proof.
  intros W I. unfold on_read. rewrite (mem_true _ _ I). cbn [negb m_step].
  destruct r as [[|b d]| | |].
  - apply (Sim_pre t [_]), do_close_sim; auto.
  - apply Sim_stay; auto.
  - apply (Sim_pre t [_]), do_close_sim; auto.
  - apply Sim_stay; auto.
  - apply (Sim_pre t [_; _]), do__close_sim; auto.
Qed.

Lemma on_writable_sim hm t w x : wf x -> In t (clients x) ->
  Sim t (on_writable hm t w x) (m_step (SWritable t w) (Some (view t x))).
Proof.
  intros W I. unfold on_writable. rewrite (mem_true _ _ I). cbn [negb m_step]. cbv zeta.
  pose proof (wf_touch t x W I) as W0. rewrite <- (view_touch t x). set (x0 := set_bufs _ x) in *.
  change (bget t (bufs x0)) with (fst (view t x0)). destruct (fst (view t x0)) as [|n rest] eqn:B.
  - apply drained_sim; auto.
  - pose proof (wf_bset t rest x0 W0 I) as W1. set (x1 := set_bufs (bset t rest (bufs x0)) x0) in *.
    (* the send left t a client: the buffer is looked at again *)
    assert (K : forall x2 v2, wf x2 -> clients x2 = clients x -> view t x2 = v2 ->
      Sim t (if mem t (clients x2) then let '(x3, o3) := drained hm t x2 in (x3, OCall (CSend t n) :: o3)
             else (x2, [OCall (CSend t n)])) (m_pre [OCall (CSend t n)] (m_drained t v2))).
    { intros x2 v2 W2 C2 <-. rewrite C2, (mem_true _ _ I). apply (Sim_pre t [_]), drained_sim; auto. rewrite C2; auto. }
    destruct w as [k| |].
    + apply K; destruct (k <? n)%N; auto using wf_bset; exact (view_bset _ _ _).
    + apply K; auto using wf_bset. rewrite view_bset. unfold view in B |- *. simpl in B |- *. rewrite B. reflexivity.
    + destruct (do__close_sim hm t x1 W1 I) as (W2 & Eo & Ec). destruct (do__close hm t x1) as [x2 o2].
      simpl in W2, Eo, Ec. subst o2. unfold cell in Ec. destruct (mem t (clients x2)) eqn:C2; [discriminate|].
      split; [auto|split; [reflexivity|]]. unfold cell. simpl. rewrite C2. reflexivity.
Qed.

Lemma on_write_req_sim hm t n x : wf x -> In t (clients x) ->
  Sim t (on_write_req hm t n x) (m_step (SWrite t n) (Some (view t x))).
Proof.
  intros W I. unfold on_write_req. rewrite (mem_true _ _ I). cbn [negb m_step]. cbv zeta.
  assert (V : view t (addWriter hm t x) = view t x) by (unfold addWriter; rewrite view_upd; reflexivity).
  destruct (mem t (wr x)) eqn:Q; apply Sim_stay; rewrite ?view_bset; auto using wf_bset.
  - apply wf_bset; [apply wf_addWriter; auto; apply mem_nIn, Q|rewrite clients_addWriter; auto].
  - simpl. rewrite clients_addWriter. auto.
  - rewrite <- V. reflexivity.
Qed.

(* every handler starts by ignoring a socket that is no client; the poller drops one on its own *)
Lemma step_absent hm t x i : ~ In t (clients x) -> handled i = Some t ->
  step hm x i = (x, []) \/ step hm x i = (pdrop t x, []).
Proof.
  intros N H. apply mem_false in N. destruct i; inversion H; subst; auto; left; cbn [step];
    [unfold on_read|unfold on_writable|unfold do__close|unfold on_write_req|unfold do_close]; rewrite N; reflexivity.
Qed.

Lemma step_sim hm t x i : wf x -> handled i = Some t -> Sim t (step hm x i) (m_step i (cell t x)).
Proof.
  intros W H. destruct (in_dec Nat.eq_dec t (clients x)) as [I|N].
  - rewrite (cell_client t x I). destruct i; inversion H; subst; cbn [step].
    + apply on_read_sim; auto.
    + apply on_writable_sim; auto.
    + apply Sim_stay; auto using wf_pdrop.
    + apply do__close_sim; auto.
    + apply on_write_req_sim; auto.
    + apply do_close_sim; auto.
  - assert (C : cell t x = None) by (unfold cell; rewrite (mem_false _ _ N); reflexivity). rewrite C.
    destruct (step_absent hm t x i N H) as [-> | ->]; (split; [|split]); cbn [fst snd]; auto using wf_pdrop; exact C.
Qed.

Definition silent1 (e : out) : Prop :=
  match e with OCall (CRecv _ (RData (_ :: _))) => False | OCall _ => True | OSnap _ => True | OSrv _ => True | OEv _ => False end.
Definition silent (o : list out) : Prop := Forall silent1 o.

Lemma silent_app a b : silent a -> silent b -> silent (a ++ b).
Proof. unfold silent. intros. apply Forall_app; auto. Qed.
Lemma silent_nil : silent [].
Proof. constructor. Qed.

Lemma count_app {A} (f : A -> bool) a b : count f (a ++ b) = count f a + count f b.
Proof. unfold count. rewrite filter_app, app_length. auto. Qed.
Lemma count_pos {A} (f : A -> bool) l x : In x l -> f x = true -> count f l >= 1.
Proof. apply filter_len_pos. Qed.
Lemma proj_app s a b : proj s (a ++ b) = proj s a ++ proj s b.
Proof. unfold proj. apply flat_map_app. Qed.
Lemma reads_app s a b : reads s (a ++ b) = reads s a ++ reads s b.
Proof. unfold reads. apply flat_map_app. Qed.
Lemma recvd_app s a b : recvd s (a ++ b) = recvd s a ++ recvd s b.
Proof. unfold recvd. apply flat_map_app. Qed.
Lemma phase_app s a b : phase_of s (a ++ b) = fold_left astep (proj s b) (phase_of s a).
Proof. unfold phase_of. rewrite proj_app, fold_left_app. auto. Qed.

Record Inv (A G : list sock) (x : st) (acc : list out) : Prop := {
  I_wf : wf x;
  I_sub : forall s, In s x.(clients) -> In s A;
  I_G : forall s, In s G -> In s A /\ ~ In s x.(clients);
  I_disc : forall s, count (is_disc s) acc = if mem s A && negb (mem s x.(clients)) then 1 else 0;
  I_conn : forall s, count (is_conn s) acc = if mem s A && negb (mem s G) then 1 else 0;
  I_ph : forall s, ~ In s G ->
         phase_of s acc = if mem s A then if mem s x.(clients) then PLive else PDead else PNone;
  I_rd : forall s, reads s acc = recvd s acc }.

Lemma Inv_init : Inv [] [] init [].
Proof. constructor; simpl; auto using wf_init; try tauto. Qed.

(* What Inv says of one socket, by whether it was accepted (a), is a client (c), had reset before accept() (g):
   first which (a, c, g) occur (clients are accepted; a socket gone before accept() is accepted and no client), then
   what has been seen.  The lemmas below are the edges of the automaton connect . read* . error? . disconnect for a
   socket that is no client: nothing seen, accepted, accepted after its peer had reset; a client's are m_edge's *)
Definition View (s : sock) (a c g : bool) (acc : list out) : Prop :=
  (c = true -> a = true) /\ (g = true -> a = true /\ c = false) /\
  count (is_disc s) acc = (if a && negb c then 1 else 0) /\
  count (is_conn s) acc = (if a && negb g then 1 else 0) /\
  (g = false -> phase_of s acc = if a then if c then PLive else PDead else PNone) /\
  reads s acc = recvd s acc.

Lemma Inv_View A G x acc : Inv A G x acc <->
  wf x /\ forall s, View s (mem s A) (mem s (clients x)) (mem s G) acc.
Proof.
  split.
  - intros [W Hs HG Hd Hc Hp Hr]. split; auto. intros s. split; [|split; [intros Q; split|repeat split; auto]].
    + intros C. apply mem_In, Hs, mem_In, C.
    + apply mem_In, (HG s), mem_In, Q.
    + apply mem_nIn, (HG s), mem_In, Q.
    + intros E. apply Hp, mem_nIn, E.
  - intros (W & V). constructor; auto; intros s; try apply (V s).
    + intros C. apply mem_In, (proj1 (V s)), mem_In, C.
    + intros Q. rewrite <- mem_In, <- mem_nIn. apply (V s), mem_In, Q.
    + intros NG. apply (V s), mem_nIn, NG.
Qed.

(* o adds nothing to what the observers of s have seen *)
Definition quiet (s : sock) (o : list out) : Prop :=
  count (is_disc s) o = 0 /\ count (is_conn s) o = 0 /\ proj s o = [] /\ reads s o = [] /\ recvd s o = [].
Lemma View_quiet s a c g acc o : View s a c g acc -> quiet s o -> View s a c g (acc ++ o).
Proof.
  intros (S1 & S2 & V1 & V2 & V3 & V4) (Q1 & Q2 & Q3 & Q4 & Q5). unfold View.
  rewrite !count_app, phase_app, reads_app, recvd_app, Q1, Q2, Q3, Q4, Q5, !app_nil_r, !Nat.add_0_r.
  exact (conj S1 (conj S2 (conj V1 (conj V2 (conj V3 V4))))).
Qed.
Lemma View_connect t acc : View t false false false acc -> View t true true false (acc ++ [OEv (EConnect t)]).
Proof.
  intros (_ & _ & V1 & V2 & V3 & V4). unfold View. rewrite !count_app, phase_app, reads_app, recvd_app, V1, V2, V3, V4; auto.
  unfold count. simpl. rewrite Nat.eqb_refl. repeat split; auto; discriminate.
Qed.
Lemma View_gone t acc : View t false false false acc ->
  View t true false true (acc ++ [OEv (EError t); OEv (EDisconnect t)]).
Proof.
  intros (_ & _ & V1 & V2 & V3 & V4). unfold View. rewrite !count_app, reads_app, recvd_app, V1, V2, V4.
  unfold count. simpl. rewrite Nat.eqb_refl. repeat split; auto; discriminate.
Qed.

(* a socket that a handler run leaves alone (Frame) sees nothing of it *)
Lemma frame_quiet s o : proj s o = [] -> calls s o = [] -> quiet s o.
Proof.
  induction o as [|e o IH]; [repeat split|]. unfold proj, calls. simpl. intros P C.
  apply app_eq_nil in P, C. destruct P as [P1 P2], C as [C1 C2]. destruct (IH P2 C2) as (I1 & I2 & I3 & I4 & I5).
  unfold quiet, count, proj, reads, recvd in *. simpl. rewrite P1, I3, I4, I5.
  destruct e as [[q|q d|q|q]|[q [[|b d]| | |]|q n]|y|v]; simpl in *; try destruct (Nat.eqb s q); try discriminate; auto.
Qed.

Lemma View_others s x r a g acc : Frame s x r -> View s a (mem s (clients x)) g acc ->
  View s a (mem s (clients (fst r))) g (acc ++ snd r).
Proof.
  intros (R & P & C) V. change (mem s (clients (fst r))) with (r_client (row_of s (fst r))). rewrite R.
  apply View_quiet, frame_quiet; auto.
Qed.

(* What a move of the machine from a live client adds to what the observers of t have seen, by whether t is still a
   client afterwards: an edge of  connect . read* . error? . disconnect *)
Definition edge (t : sock) (m : mres) : Prop :=
  count (is_disc t) (fst m) = (if snd m then 0 else 1) /\ count (is_conn t) (fst m) = 0 /\
  fold_left astep (proj t (fst m)) PLive = (if snd m then PLive else PDead) /\ reads t (fst m) = recvd t (fst m).

Lemma m_edge t i v : handled i = Some t -> edge t (m_step i (Some v)).
Proof.
  (* one case per branch of m_step: what decides a branch is split (the stimulus, an empty queue, the conditions of
     m_drained / m_do_close), then the four observations of a list of at most three outputs are computed *)
  intros H. destruct v as [q cl].
  destruct i as [u|u|u [[|b d]| | |]|u w|u|u|u n|u| |]; try discriminate H; injection H as ->; cbn [m_step fst snd].
  6: destruct q as [|n rest]; [|destruct w as [k| |]; [destruct (k <? n)%N|..]].
  all: unfold m_do_close, m_drained; cbn [fst snd]; try destruct (isnil _ && _); try destruct (isnil _).
  all: unfold edge, count; simpl; rewrite ?Nat.eqb_refl; auto.
Qed.

Lemma View_m t i x x' a g acc : handled i = Some t -> cell t x' = snd (m_step i (cell t x)) ->
  View t a (mem t (clients x)) g acc -> View t a (mem t (clients x')) g (acc ++ fst (m_step i (cell t x))).
Proof.
  intros H E V. unfold cell in E |- *. destruct (mem t (clients x)) eqn:C.
  2: { simpl in E |- *. destruct (mem t (clients x')); [discriminate|]. rewrite app_nil_r. exact V. }
  destruct V as (S1 & S2 & V1 & V2 & V3 & V4).
  rewrite (S1 eq_refl) in *. destruct g; [destruct (S2 eq_refl); discriminate|]. specialize (V3 eq_refl).
  destruct (m_edge t i (view t x) H) as (D & N & P & R). destruct (m_step i (Some (view t x))) as [o c].
  unfold View. simpl in E, D, N, P, R |- *. rewrite !count_app, phase_app, reads_app, recvd_app, V1, V2, V3, V4, D, N, P, R.
  destruct (mem t (clients x')); subst c; repeat split; auto; discriminate.
Qed.

(* a handler run for socket t: the others by Frame, t by what became of its own View *)
Lemma Inv_at t A G A' G' x acc r :
  Inv A G x acc -> (forall s, s <> t -> Frame s x r /\ mem s A' = mem s A /\ mem s G' = mem s G) ->
  wf (fst r) -> View t (mem t A') (mem t (clients (fst r))) (mem t G') (acc ++ snd r) ->
  Inv A' G' (fst r) (acc ++ snd r).
Proof.
  intros I O W' Vt. apply Inv_View in I. destruct I as (W & V). apply Inv_View. split; auto. intros s.
  destruct (Nat.eq_dec s t) as [->|N]; auto. destruct (O s N) as (F & -> & ->). apply (View_others s x); auto.
Qed.

Lemma Inv_sock hm A G t x acc i : Inv A G x acc -> handled i = Some t ->
  Inv A G (fst (step hm x i)) (acc ++ snd (step hm x i)).
Proof.
  intros I H. destruct (step_sim hm t x i (I_wf _ _ _ _ I) H) as (W' & Eo & Ec). apply (Inv_at t A G A G x); auto.
  - intros s N. split; auto. apply step_frame. destruct i; inversion H; subst; apply Nat.eqb_neq, N.
  - rewrite Eo. apply (View_m t i x); auto. apply Inv_View in I. apply I.
Qed.

Lemma Inv_quiet A G x acc o : Inv A G x acc -> (forall s, quiet s o) -> Inv A G x (acc ++ o).
Proof. intros I Q. apply Inv_View in I. apply Inv_View. split; [apply I|]. intros s. apply View_quiet; auto. apply I. Qed.

Lemma on_accept_own hm t (gn : bool) x : wf x -> ~ In t (clients x) ->
  let r := on_accept hm t gn x in
  wf (fst r) /\ mem t (clients (fst r)) = negb gn /\
  snd r = if gn then [OEv (EError t); OEv (EDisconnect t)] else [OEv (EConnect t)].
Proof.
  intros W N. pose proof (wf_addReader hm t x W N) as W2. unfold on_accept. cbv zeta. rewrite clients_addReader.
  set (x2 := set_clients (clients x ++ [t]) (addReader hm t x)) in *.
  assert (I2 : In t (clients x2)) by (apply in_or_app; simpl; auto). destruct gn.
  - destruct (do__close_sim hm t x2 W2 I2) as (W3 & Eo & Ec). destruct (do__close hm t x2) as [x3 o3].
    simpl in *. subst o3. split; [auto|split; [|auto]]. unfold cell in Ec. destruct (mem t (clients x3)); [discriminate|auto].
  - split; [auto|split; [apply mem_true, I2|auto]].
Qed.

Lemma Inv_accept hm A G t x acc (gn : bool) : Inv A G x acc -> ~ In t A ->
  Inv (A ++ [t]) (G ++ if gn then [t] else []) (fst (on_accept hm t gn x)) (acc ++ snd (on_accept hm t gn x)).
Proof.
  intros I NA.
  assert (NCt : ~ In t (clients x)) by (intro Q; apply NA, (I_sub _ _ _ _ I), Q).
  assert (NGt : ~ In t G) by (intro Q; apply NA, (I_G _ _ _ _ I t Q)).
  destruct (on_accept_own hm t gn x (I_wf _ _ _ _ I) NCt) as (W' & Mt & Eo). apply (Inv_at t A G _ _ x); auto.
  - intros s N. split; [apply on_accept_frame, N|]. rewrite mem_snoc_ne by auto.
    destruct gn; [rewrite mem_snoc_ne|rewrite app_nil_r]; auto.
  - apply Inv_View in I. destruct I as (_ & V). specialize (V t).
    rewrite (mem_false _ _ NA), (mem_false _ _ NCt), (mem_false _ _ NGt) in V.
    rewrite Mt, Eo, !mem_snoc, Nat.eqb_refl, orb_true_r. destruct gn; simpl.
    + rewrite mem_snoc, Nat.eqb_refl, orb_true_r. apply View_gone, V.
    + rewrite app_nil_r, (mem_false _ _ NGt). apply View_connect, V.
Qed.

Lemma run_from_acc hm h : forall x acc, run_from hm x acc h = (fst (run_from hm x [] h), acc ++ snd (run_from hm x [] h)).
Proof.
  induction h as [|i h IH]; intros x acc; simpl. rewrite app_nil_r; auto.
  destruct (step hm x i) as [x' o]. rewrite (IH x' (acc ++ o)), (IH x' o). simpl. rewrite app_assoc. auto.
Qed.

Lemma Inv_set_lis A G b x acc : Inv A G x acc -> Inv A G (set_lis b x) acc.
Proof.
  intros [[Hnc Hnq Hnr Hnw Hsub] Hs HG Hd Hc Hp Hr]. constructor; auto. constructor; auto.
Qed.

(* Server.close() is close(s) for every client in turn: a run *)
Lemma close_each_run hm l x : close_each hm l x = run_from hm x [] (map SClose l).
Proof.
  unfold close_each. generalize (@nil out). revert x. induction l as [|a l IH]; intros x o; simpl; auto.
  destruct (do_close hm a x). apply IH.
Qed.

Lemma Inv_closes hm A G l : forall y acc, Inv A G y acc ->
  Inv A G (fst (run_from hm y acc (map SClose l))) (snd (run_from hm y acc (map SClose l))).
Proof.
  induction l as [|a l IH]; intros y acc I; simpl; auto.
  pose proof (Inv_sock hm A G a y acc (SClose a) I eq_refl) as I1. cbn [step] in I1.
  destruct (do_close hm a y) as [y' o']. apply IH, I1.
Qed.

Lemma Inv_close_all hm A G x acc x' o : Inv A G x acc -> close_all hm x = (x', o) -> Inv A G x' (acc ++ o).
Proof.
  intros I E. unfold close_all in E. rewrite close_each_run, run_from_acc in E. injection E as <- <-.
  rewrite !app_assoc. apply Inv_quiet; [|repeat split]. rewrite <- app_assoc.
  set (o1 := if lis x then [OSrv VListenDown] else []).
  assert (I1 : Inv A G (set_lis false x) (acc ++ o1)).
  { apply Inv_quiet. apply Inv_set_lis, I. unfold o1. destruct (lis x); repeat split. }
  apply (Inv_closes hm A G (clients x)) in I1. rewrite run_from_acc, <- app_assoc in I1. exact I1.
Qed.

Lemma Inv_step hm A G x acc i x' o :
  Inv A G x acc -> NoDup (A ++ accepted_of i) -> step hm x i = (x', o) ->
  Inv (A ++ accepted_of i) (G ++ gone_of i) x' (acc ++ o).
Proof.
  intros I ND E.
  replace x' with (fst (step hm x i)) by (rewrite E; reflexivity).
  replace o with (snd (step hm x i)) by (rewrite E; reflexivity). clear E.
  destruct i; cbn [accepted_of gone_of] in *.
  3-10: rewrite (app_nil_r A), (app_nil_r G).
  3-8: apply (Inv_sock hm A G s); auto.
  - apply (Inv_accept hm A G s x acc false I), (NoDup_snoc_iff _ A s), ND.
  - apply (Inv_accept hm A G s x acc true I), (NoDup_snoc_iff _ A s), ND.
  - apply (Inv_close_all hm A G x acc); auto. apply surjective_pairing.
  - apply Inv_quiet; auto. repeat split.
Qed.

Lemma Inv_run_from hm h : forall A G x acc, Inv A G x acc -> NoDup (A ++ accepted h) ->
  Inv (A ++ accepted h) (G ++ gone h) (fst (run_from hm x acc h)) (snd (run_from hm x acc h)).
Proof.
  induction h as [|i t IH]; intros A G x acc HP Hnd; simpl in *.
  - rewrite !app_nil_r. exact HP.
  - destruct (step hm x i) as [x' o] eqn:E.
    unfold accepted, gone in *. simpl in *. rewrite app_assoc in Hnd. rewrite !app_assoc.
    apply IH; auto. eapply Inv_step; eauto. apply NoDup_app_iff in Hnd. apply Hnd.
Qed.

Lemma Inv_run hm h : NoDup (accepted h) ->
  Inv (accepted h) (gone h) (fst (run hm h)) (snd (run hm h)).
Proof. intros. apply (Inv_run_from hm h [] [] init []); auto. apply Inv_init. Qed.

Theorem automaton hm h s : NoDup (accepted h) -> ~ In s (gone h) ->
  phase_of s (snd (run hm h)) =
  if mem s (accepted h) then if mem s (clients (fst (run hm h))) then PLive else PDead else PNone.
Proof. intros ND NG. apply (I_ph _ _ _ _ (Inv_run hm h ND)); auto. Qed.

Theorem reads_exact hm h s : NoDup (accepted h) -> reads s (snd (run hm h)) = recvd s (snd (run hm h)).
Proof. intros ND. apply (I_rd _ _ _ _ (Inv_run hm h ND)). Qed.

Lemma bad_absorbing l : fold_left astep l PBad = PBad.
Proof. induction l; simpl; auto. Qed.
Lemma dead_then_bad l : l <> [] -> fold_left astep l PDead = PBad.
Proof. destruct l as [|e l]; [congruence|]. intros _. simpl. destruct e; apply bad_absorbing. Qed.
Lemma astep_first e rest : fold_left astep (e :: rest) PNone <> PBad -> exists s, e = EConnect s.
Proof. intros NB. destruct e; eauto; exfalso; apply NB, bad_absorbing. Qed.
Lemma astep_last pre s post : fold_left astep (pre ++ EDisconnect s :: post) PNone <> PBad -> post = [].
Proof.
  intros NB. rewrite fold_left_app in NB. simpl in NB. destruct post as [|e post]; auto. exfalso. apply NB.
  destruct (fold_left astep pre PNone); simpl; try apply bad_absorbing; apply dead_then_bad; discriminate.
Qed.
Lemma proj_sock s o e : In e (proj s o) -> ev_sock e = s.
Proof.
  unfold proj. intros I. apply in_flat_map in I. destruct I as [[e0| | |] [_ I]]; simpl in I; try contradiction.
  destruct (Nat.eqb_spec s (ev_sock e0)); [|contradiction]. destruct I as [<-|[]]. auto.
Qed.

Lemma phase_not_bad hm h s : NoDup (accepted h) -> ~ In s (gone h) -> phase_of s (snd (run hm h)) <> PBad.
Proof.
  intros ND NG. rewrite (automaton hm h s ND NG).
  destruct (mem s (accepted h)); [destruct (mem s (clients (fst (run hm h))))|]; discriminate.
Qed.

(* a terminal stimulus is one at which the machine lets go of the client, reporting the disconnect *)
Lemma m_terminal s x i : terminal s x i = true -> handled i = Some s /\
  snd (m_step i (Some (view s x))) = None /\ In (OEv (EDisconnect s)) (fst (m_step i (Some (view s x)))).
Proof.
  unfold view. intros T.
  destruct i as [t|t|t [[|b d]| | |]|t [k| |]|t|t|t n|t| |]; cbn [terminal] in T; try discriminate T.
  all: destruct (Nat.eqb_spec s t) as [E|]; [subst t|discriminate T]; cbn [andb] in T.
  all: split; [reflexivity|]; cbn [m_step fst snd]; unfold m_do_close, m_drained; cbn [fst snd]; try rewrite T.
  4: destruct (mem s (closeq x)); [cbn [andb] in T|discriminate T].
  4,5: destruct (bget s (bufs x)) as [|n [|]]; try discriminate T.
  4: destruct (k <? n)%N; [discriminate T|].
  all: cbn; auto 6.
Qed.

Theorem disconnect_follows_wf hm x s i : wf x -> In s (clients x) -> terminal s x i = true ->
  In (OEv (EDisconnect s)) (snd (step hm x i)) /\ no_state s (fst (step hm x i)).
Proof.
  intros W I T. destruct (m_terminal s x i T) as (H & N & D).
  destruct (step_sim hm s x i W H) as (W' & -> & Ec). rewrite (cell_client s x I), N in *. split; auto.
  apply wf_nostate; auto. apply mem_nIn. unfold cell in Ec. destruct (mem s (clients _)); [discriminate|auto].
Qed.

Lemma m_deferring s x i : deferring s x i = true -> handled i = Some s /\
  snd (m_step i (Some (view s x))) = Some (bget s (bufs x), true).
Proof.
  unfold view. intros T.
  destruct i as [t|t|t [[|b d]| | |]|t w|t|t|t n|t| |]; cbn [deferring] in T; try discriminate T.
  all: destruct (Nat.eqb_spec s t) as [E|]; [subst t|discriminate T]; cbn [andb] in T.
  all: split; [reflexivity|]; cbn [m_step fst snd]; unfold m_do_close; cbn [fst snd].
  all: destruct (bget s (bufs x)); [discriminate T|reflexivity].
Qed.

Theorem deferred_close_wf hm x s i : wf x -> In s (clients x) -> deferring s x i = true ->
  In s (closeq (fst (step hm x i))) /\ In s (clients (fst (step hm x i))) /\
  bget s (bufs (fst (step hm x i))) = bget s (bufs x).
Proof.
  intros W I T. destruct (m_deferring s x i T) as (H & E).
  destruct (step_sim hm s x i W H) as (_ & _ & Ec). rewrite (cell_client s x I), E in Ec. unfold cell in Ec.
  destruct (mem s (clients _)) eqn:C; [|discriminate]. injection Ec as -> Q. rewrite <- !mem_In. auto.
Qed.

Lemma lis_do__close hm t x : lis (fst (do__close hm t x)) = lis x.
Proof. unfold do__close, discard. destruct (negb _); auto. cbn [fst lis]. rewrite upd_eq. reflexivity. Qed.
Lemma lis_do_close hm t x : lis (fst (do_close hm t x)) = lis x.
Proof.
  unfold do_close. cbv zeta. destruct (negb _); auto.
  destruct (isnil _); [exact (lis_do__close hm t _)|destruct (mem t _); reflexivity].
Qed.
Lemma do__close_out hm t x e : In e (snd (do__close hm t x)) -> e = OEv (EDisconnect t).
Proof. unfold do__close. destruct (negb _); simpl; intuition. Qed.
Lemma do_close_out hm t x e : In e (snd (do_close hm t x)) -> e = OEv (EDisconnect t).
Proof.
  unfold do_close. cbv zeta. destruct (negb _); [contradiction|].
  destruct (isnil _); [apply do__close_out|destruct (mem t _); contradiction].
Qed.

Lemma run_ind hm (P : st -> list out -> Prop) h :
  (forall y o i, In i h -> P y o -> P (fst (step hm y i)) (o ++ snd (step hm y i))) ->
  forall x acc, P x acc -> P (fst (run_from hm x acc h)) (snd (run_from hm x acc h)).
Proof.
  induction h as [|i h IH]; intros S x acc Px; simpl; auto.
  pose proof (S x acc i (or_introl eq_refl) Px) as P1. destruct (step hm x i) as [x' o].
  apply IH; auto. intros y o' j Hj. apply S. right. exact Hj.
Qed.

Lemma closes_untouched s l : ~ In s l -> Forall (fun i => touches s i = false) (map SClose l).
Proof.
  intros N. apply Forall_forall. intros i Hi. apply in_map_iff in Hi. destruct Hi as (a & <- & Ha).
  apply Nat.eqb_neq. intros ->. auto.
Qed.

Lemma closes_member hm s l : NoDup l -> In s l -> forall y acc, wf y -> In s (clients y) ->
  let r := run_from hm y acc (map SClose l) in
  if isnil (bget s (bufs y)) then In (OEv (EDisconnect s)) (snd r) /\ ~ In s (clients (fst r))
  else In s (clients (fst r)) /\ In s (closeq (fst r)).
Proof.
  induction 1 as [|a l Na ND IH]; intros I y acc W C. contradiction. cbv zeta. cbn [map run_from step].
  destruct (Nat.eq_dec s a) as [<-|N].
  - destruct (do_close_sim hm s y W C) as (_ & Eo & Ec). destruct (do_close hm s y) as [y' o']. simpl in Eo, Ec.
    destruct (isolation hm s _ y' (acc ++ o') (closes_untouched s l Na)) as (R & _).
    unfold cell in Ec. unfold m_do_close, view in *. cbn [fst] in *.
    destruct (isnil _); simpl in Eo, Ec; rewrite (row_client s _ y' R).
    + rewrite <- mem_nIn. destruct (mem s (clients y')); [discriminate|].
      rewrite run_from_acc. subst o'. simpl. rewrite !in_app_iff. simpl. auto.
    + rewrite (row_closeq s _ y' R), <- !mem_In. destruct (mem s (clients y')); [|discriminate]. injection Ec as _ Q. auto.
  - destruct I as [->|I]; [congruence|]. destruct (do_close_frame s a N hm y) as (R & _).
    pose proof (proj1 (step_sim hm a y (SClose a) W eq_refl)) as W1. cbn [step] in W1.
    destruct (do_close hm a y) as [y' o']. simpl in *.
    specialize (IH I y' (acc ++ o') W1 (proj2 (row_client s y' y R) C)). rewrite (row_buf s y' y R) in IH. exact IH.
Qed.

Theorem close_all_wf hm x : wf x ->
  let r := step hm x SCloseAll in
  lis (fst r) = false /\
  (forall s, In s (clients x) -> bget s (bufs x) = [] ->
             In (OEv (EDisconnect s)) (snd r) /\ no_state s (fst r)) /\
  (forall s, In s (clients x) -> bget s (bufs x) <> [] -> In s (clients (fst r)) /\ In s (closeq (fst r))) /\
  (forall s, In s (clients (fst r)) -> In s (clients x)) /\
  In (OSrv VClosed) (snd r) /\ (In (OSrv VListenDown) (snd r) <-> lis x = true).
Proof.
  intros W. assert (W0 : wf (set_lis false x)) by (destruct W; constructor; auto).
  cbn [step]. unfold close_all. rewrite close_each_run.
  pose proof (fun s I => closes_member hm s (clients x) (wf_nc _ W) I (set_lis false x) [] W0 I) as M.
  pose proof (fun s N => isolation hm s _ (set_lis false x) [] (closes_untouched s (clients x) N)) as R.
  (* along the run: the tables stay well-formed, the listening socket stays down, only disconnects are reported *)
  assert (K : let r := run_from hm (set_lis false x) [] (map SClose (clients x)) in
              wf (fst r) /\ lis (fst r) = false /\ forall e, In e (snd r) -> exists s, e = OEv (EDisconnect s)).
  { apply (run_ind hm (fun y o => wf y /\ lis y = false /\ forall e, In e o -> exists s, e = OEv (EDisconnect s)));
      [|split; [auto|split; [auto|contradiction]]].
    intros y o i Hi (Wy & Ly & Oy). apply in_map_iff in Hi. destruct Hi as (a & <- & _). cbn [step].
    split; [apply (step_sim hm a y (SClose a) Wy eq_refl)|split; [rewrite lis_do_close; auto|]].
    intros e Q. apply in_app_or in Q. destruct Q as [Q|Q]; auto. exists a. apply (do_close_out hm a y e Q). }
  destruct (run_from hm (set_lis false x) [] (map SClose (clients x))) as [x2 o2]. simpl in *.
  destruct K as (W2 & L & O).
  split; [exact L|]. split; [|split; [|split; [|split]]].
  - intros s C B. specialize (M s C). rewrite B in M. destruct M as [M1 M2]. split.
    + apply in_or_app. right. apply in_or_app. auto.
    + apply wf_nostate; auto.
  - intros s C B. specialize (M s C). destruct (bget s (bufs x)); [congruence|exact M].
  - intros s C2. destruct (in_dec Nat.eq_dec s (clients x)) as [I|N]; auto.
    apply (row_client s x2 (set_lis false x) (proj1 (R s N))), C2.
  - apply in_or_app. right. apply in_or_app. right. simpl. auto.
  - split; [|intros ->; simpl; auto].
    intros Q. apply in_app_or in Q. destruct Q as [Q|Q]. { destruct (lis x); auto; contradiction. }
    apply in_app_or in Q. destruct Q as [Q|[Q|[]]]; [|discriminate].
    destruct (O _ Q). discriminate.
Qed.

Lemma pemit_no_hangup s eout ehup r w : forallb (fun i => negb (is_hangup_stim i)) (pemit s true eout ehup r w) = true.
Proof. unfold pemit. rewrite andb_false_r. destruct eout; reflexivity. Qed.

Lemma read_first hm x s eout ehup d w : In s (clients x) -> d <> [] ->
  exists post, snd (run_from hm x [] (pemit s true eout ehup (RData d) w))
               = OCall (CRecv s (RData d)) :: OEv (ERead s d) :: post.
Proof.
  intros I D. unfold pemit. rewrite andb_false_r. cbn [app run_from step].
  unfold on_read. rewrite (mem_true _ _ I). cbn [negb].
  destruct d as [|b d]; [congruence|].
  rewrite run_from_acc. simpl. eexists. reflexivity.
Qed.

Definition b2n (b : bool) : nat := if b then 1 else 0.

Definition cquiet (o : list cev) : Prop := count is_kconn o = 0 /\ count is_kdisc o = 0.

(* What a handler other than connect does to the connection: nothing an observer of `connected` / `disconnected`
   sees, or the one `disconnected` of a connected client, last in its output, which leaves the closed, empty state. *)
Inductive CEff (x : cst) (r : cst * list cev) : Prop :=
| CQuiet : conn (fst r) = conn x -> sopen (fst r) = sopen x -> cquiet (snd r) -> CEff x r
| CCloses pre : conn x = true -> fst r = cmk false [] false false -> cquiet pre ->
    snd r = pre ++ [KDisconnected] -> CEff x r.

Lemma cquiet_nil : cquiet [].
Proof. split; reflexivity. Qed.

Lemma CEff_pre x x1 o1 r : CEff x1 r -> conn x1 = conn x -> sopen x1 = sopen x -> cquiet o1 ->
  CEff x (let '(x', o) := r in (x', o1 ++ o)).
Proof.
  intros [Ec' Es' [P1 P2]|pre C E [P1 P2] E'] Ec Es [Q1 Q2]; destruct r as [x' o]; simpl in *.
  - apply CQuiet; simpl; [congruence|congruence|]. split; rewrite count_app; lia.
  - subst o. apply (CCloses _ _ (o1 ++ pre)); simpl; [congruence|auto| |apply app_assoc].
    split; rewrite count_app; lia.
Qed.

Lemma c__close_eff x : CEff x (c__close x).
Proof.
  unfold c__close. destruct (conn x) eqn:C.
  - apply (CCloses _ _ []); auto using cquiet_nil.
  - apply CQuiet; auto using cquiet_nil.
Qed.
Lemma c_close_eff x : CEff x (c_close x).
Proof. unfold c_close. destruct (pending x). apply c__close_eff. apply CQuiet; auto using cquiet_nil. Qed.
Lemma c_drained_eff x : CEff x (c_drained x).
Proof.
  unfold c_drained. destruct (pending x), (closeflag x); try apply c__close_eff; apply CQuiet; auto using cquiet_nil.
Qed.
(* a failed send: _close, then the drained check finds nothing left to do if _close did close *)
Lemma c_fail_eff x x1 o1 : conn x1 = conn x -> sopen x1 = sopen x -> cquiet o1 ->
  CEff x (let '(x2, o) := c__close x1 in let '(x3, o3) := c_drained x2 in (x3, o1 ++ o ++ o3)).
Proof.
  intros Ec Es Q. unfold c__close. destruct (conn x1) eqn:C.
  - apply (CCloses _ _ o1); auto.
  - apply (CEff_pre x x1 o1); auto using c_drained_eff. congruence.
Qed.

Definition not_connect (i : cstim) : Prop := match i with KConnect _ _ => False | _ => True end.

Lemma cstep_eff x i : not_connect i -> CEff x (cstep x i).
Proof.
  assert (S : forall n, cquiet [KSend n]) by (split; reflexivity).
  assert (SE : forall n, cquiet [KSend n; KErr]) by (split; reflexivity).
  intros NC. destruct i as [ok fr|[[|b d]| | |]|w cl| | |n|]; [destruct NC|unfold cstep..];
    try apply c_close_eff; try apply c__close_eff.
  - apply CQuiet; auto. split; reflexivity.
  - apply CQuiet; auto using cquiet_nil.
  - eapply CEff_pre with (o1 := [KErr]); [apply c__close_eff|auto..]. split; reflexivity.
  - destruct (pending x) as [|n rest]; [apply c_drained_eff|]. destruct w as [k| |].
    + eapply CEff_pre with (o1 := [KSend n]); [apply c_drained_eff|auto..].
    + eapply CEff_pre with (o1 := [KSend n]); [apply c_drained_eff|auto..].
    + destruct cl.
      * apply c_fail_eff with (o1 := [KSend n; KErr]); auto.
      * eapply CEff_pre with (o1 := [KSend n; KErr]); [apply c_drained_eff|auto..].
  - destruct (pending x) as [|n rest]; [apply c_drained_eff|]. apply c_fail_eff with (o1 := [KSend n]); auto.
  - destruct (sopen x) eqn:O; apply CQuiet; auto using cquiet_nil.
Qed.

Lemma CEff_balance x r : CEff x r ->
  count is_kconn (snd r) + b2n (conn x) = count is_kdisc (snd r) + b2n (conn (fst r)).
Proof.
  intros [Ec _ [Q1 Q2]|pre C E [Q1 Q2] E'].
  - rewrite Ec, Q1, Q2. reflexivity.
  - rewrite E, E', C, !count_app, Q1, Q2. reflexivity.
Qed.

Lemma cstep_balance x i : match i with KConnect _ _ => conn x = false | _ => True end ->
  count is_kconn (snd (cstep x i)) + b2n (conn x) = count is_kdisc (snd (cstep x i)) + b2n (conn (fst (cstep x i))).
Proof.
  intros P. destruct i as [[|] fr| | | | | |]; try (apply CEff_balance, cstep_eff; exact I); simpl; rewrite ?P; reflexivity.
Qed.

Lemma crun_from_balance h : forall x acc, connect_when_down x h = true ->
  count is_kconn acc = count is_kdisc acc + b2n (conn x) ->
  count is_kconn (snd (crun_from x acc h)) =
  count is_kdisc (snd (crun_from x acc h)) + b2n (conn (fst (crun_from x acc h))).
Proof.
  induction h as [|i t IH]; intros x acc P B; simpl in *; auto.
  apply andb_true_iff in P. destruct P as [P1 P2].
  assert (Q := cstep_balance x i). destruct (cstep x i) as [x' o]. simpl in *.
  apply IH; auto. rewrite !count_app.
  cut (count is_kconn o + b2n (conn x) = count is_kdisc o + b2n (conn x')). lia.
  apply Q. destruct i; auto. apply negb_true_iff, P1.
Qed.

Lemma cstep_down_inert x i : sopen x = false -> cdown x -> not_connect i ->
  fst (cstep x i) = x /\
  (forall e, In e (snd (cstep x i)) -> is_ksend e = false /\ is_kconn e = false /\ is_kdisc e = false).
Proof.
  unfold cdown. destruct x as [c p f so]. simpl. intros -> (-> & -> & ->) NC.
  destruct i as [ok fr|[[|b d]| | |]|[k| |] cl| | |n|]; try contradiction; simpl; split; auto;
    intros e Q; repeat (destruct Q as [Q|Q]; try (subst e; simpl; auto)); try contradiction.
Qed.

(* while the socket object is closed (from `disconnected` until a connect makes a new one) the client is down and
   holds nothing — whatever arrives, late writes and closes included *)
Definition cinv (x : cst) : Prop := sopen x = false -> cdown x.

Lemma cstep_cinv x i : cinv x -> cinv (fst (cstep x i)).
Proof.
  intros H. assert (NC : not_connect i -> cinv (fst (cstep x i))).
  { intros NC. destruct (cstep_eff x i NC) as [_ Es _|pre _ -> _ _].
    - intros S. rewrite Es in S. rewrite (proj1 (cstep_down_inert x i S (H S) NC)). exact (H S).
    - intros _. repeat split. }
  destruct i as [[|] fr| | | | | |]; try (apply NC; exact I); simpl; intros S; [discriminate|].
  apply orb_false_iff in S. apply H, S.
Qed.

Lemma crun_from_cinv h : forall x acc, cinv x -> cinv (fst (crun_from x acc h)).
Proof.
  induction h as [|i t IH]; intros x acc H; simpl; auto.
  assert (Q := cstep_cinv x i H). destruct (cstep x i) as [x' o]. apply IH, Q.
Qed.

Lemma CEff_disc x r : CEff x r -> In KDisconnected (snd r) -> sopen (fst r) = false /\ cdown (fst r).
Proof.
  intros [_ _ [_ Q]|pre _ -> _ _] D.
  - apply count_pos with (f := is_kdisc) in D; auto. lia.
  - repeat split.
Qed.
