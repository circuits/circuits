(* Proofs about Model/Session.v: a session id is bound to the fingerprint of the
   client it was served to; stored data only goes back to that fingerprint. *)
From Coq Require Import List NArith.
From Circ Require Import Lib.ByteStr Model.Auth Model.Session Proofs.AuthP.
Import ListNotations.
Open Scope N_scope.

(* uuid4().hex contains no '/' *)
Definition no_slash (u : str) : Prop := ~ In SLASH u.

(* an address (request.remote.ip) contains no '|' *)
Definition no_sep (s : str) : Prop := ~ In SEP s.

(* the hash as an ideal fingerprint: the hypothesis under which "same fingerprint" means
   "same (address, agent) pair" *)
Definition injective (f : str -> str) : Prop := forall a b, f a = f b -> a = b.

Lemma app_sep_inj : forall (c : N) (a1 b1 a2 b2 : str), ~ In c a1 -> ~ In c a2 ->
  a1 ++ c :: b1 = a2 ++ c :: b2 -> a1 = a2 /\ b1 = b2.
Proof.
  intros c a1 b1 a2 b2 H1 H2 E. pose proof (split_at_app c a1 b1 H1) as S.
  rewrite E, (split_at_app c a2 b2 H2) in S. now injection S as -> ->.
Qed.

Lemma lookup_set_key : forall (s : store) k k' d,
  lookup k (set_key k' d s) = if str_eqb k k' then Some d else lookup k s.
Proof.
  induction s as [|[k0 d0] s IH]; intros k k' d; simpl; [reflexivity|].
  destruct (str_eqb_spec k' k0) as [->|N]; simpl; [now destruct (str_eqb k k0)|].
  rewrite IH. destruct (str_eqb_spec k k0) as [->|]; [|reflexivity].
  now destruct (str_eqb_spec k0 k') as [->|].
Qed.

Lemma lookup_del_key : forall (s : store) k k',
  lookup k (del_key k' s) = if str_eqb k k' then None else lookup k s.
Proof.
  induction s as [|[k0 d0] s IH]; intros k k'; simpl; [now destruct (str_eqb k k')|].
  destruct (str_eqb_spec k' k0) as [->|N]; simpl; rewrite IH; [now destruct (str_eqb k k0)|].
  destruct (str_eqb_spec k k0) as [->|]; [|reflexivity].
  now destruct (str_eqb_spec k0 k') as [->|].
Qed.

Lemma lookup_In : forall (s : store) k d, lookup k s = Some d -> In (k, d) s.
Proof.
  induction s as [|[k0 d0] s IH]; intros k d H; simpl in *; [discriminate|].
  destruct (str_eqb_spec k k0) as [->|]; [left; congruence|right; now apply IH].
Qed.

Section P.
  Variable sha : str -> str.
  Notation who := (who sha).
  Notation create := (create sha).
  Notation serve := (serve sha).
  Notation step := (step sha).
  Notation run := (run sha).

  Fixpoint final (s : store) (h : list (req * action * str)) : store :=
    match h with
    | [] => s
    | x :: t => final (fst (step s x)) t
    end.

  (* either the presented cookie, whose part after the first '/' is the requester's own
     fingerprint, or a newly created id *)
  Lemma serve_cases : forall u r,
    serve u r = create u r \/
    (cookie r = Some (serve u r) /\ exists h, split_at SLASH (serve u r) = Some (h, who r)).
  Proof.
    intros u r. unfold Session.serve. destruct (cookie r) as [c|]; [|now left].
    unfold verify. destruct (split_at SLASH c) as [[h user]|] eqn:S; [|now left].
    destruct (str_eqb_spec user (who r)) as [->|]; [|now left].
    right. split; [reflexivity|]. now exists h.
  Qed.

  Lemma served_suffix : forall u r, no_slash u ->
    exists h, split_at SLASH (serve u r) = Some (h, who r).
  Proof.
    intros u r Hu. destruct (serve_cases u r) as [->|[_ H]]; [|exact H].
    exists u. now apply split_at_app.
  Qed.

  Lemma same_sid_same_fingerprint : forall u1 r1 u2 r2,
    no_slash u1 -> no_slash u2 -> serve u1 r1 = serve u2 r2 -> who r1 = who r2.
  Proof.
    intros u1 r1 u2 r2 H1 H2 E.
    destruct (served_suffix u1 r1 H1) as [h1 S1], (served_suffix u2 r2 H2) as [h2 S2].
    rewrite E in S1. congruence.
  Qed.

  Lemma others_get_new_id : forall u r,
    (forall c h, cookie r = Some c -> split_at SLASH c <> Some (h, who r)) ->
    serve u r = create u r.
  Proof.
    intros u r H. destruct (serve_cases u r) as [E|[C [h S]]]; [exact E|].
    now destruct (H _ h C).
  Qed.

  (* uuid freshness: no key of the store starts with the drawn uuid and a '/' *)
  Definition fresh (u : str) (s : store) : Prop :=
    forall k d, In (k, d) s -> forall t, k <> u ++ SLASH :: t.

  Lemma new_id_unused : forall u r s, fresh u s ->
    lookup (create u r) s = None /\ fst (load (create u r) s) = None.
  Proof.
    intros u r s F. unfold load.
    destruct (lookup (create u r) s) as [d|] eqn:L; [|now split].
    apply lookup_In in L. now destruct (F _ _ L (who r)).
  Qed.

  Lemma load_lookup : forall k s k' v,
    lookup k' (snd (load k s)) = Some (Some v) -> lookup k' s = Some (Some v).
  Proof.
    intros k s k' v. unfold load. destruct (lookup k s); simpl; [tauto|].
    rewrite lookup_set_key. now destruct (str_eqb k' k).
  Qed.

  Lemma load_data : forall k s v, fst (load k s) = Some v -> lookup k s = Some (Some v).
  Proof. intros k s v. unfold load. now destruct (lookup k s); simpl; [intros ->|]. Qed.

  Lemma step_store : forall s r a u k v,
    lookup k (fst (step s (r, a, u))) = Some (Some v) ->
    lookup k s = Some (Some v) \/ (a = Write v /\ serve u r = k).
  Proof.
    intros s r a u k v. unfold Session.step.
    pose proof (load_lookup (serve u r) s k v) as LL.
    destruct (load (serve u r) s) as [d s1]. simpl in *. destruct a as [|w|]; simpl.
    - auto.
    - rewrite lookup_set_key. destruct (str_eqb_spec k (serve u r)) as [->|]; [|auto].
      intros [= ->]. now right.
    - rewrite lookup_del_key. destruct (str_eqb k (serve u r)); [discriminate|auto].
  Qed.

  Lemma store_provenance : forall h s k v,
    lookup k (final s h) = Some (Some v) ->
    lookup k s = Some (Some v) \/ exists r u, In (r, Write v, u) h /\ serve u r = k.
  Proof.
    induction h as [|[[r a] u] t IH]; intros s k v H; simpl in H; [now left|].
    apply IH in H as [H|(r' & u' & Hin & E)].
    - apply step_store in H as [H|[-> E]]; [now left|].
      right. exists r, u. split; [now left|exact E].
    - right. exists r', u'. split; [now right|exact E].
  Qed.

  Lemma run_nth : forall h1 s r a u h2,
    nth_error (run s (h1 ++ (r, a, u) :: h2)) (length h1)
    = Some (serve u r, fst (load (serve u r) (final s h1))).
  Proof.
    induction h1 as [|y h1 IH]; intros s r a u h2; simpl.
    - destruct (load (serve u r) s). reflexivity.
    - destruct (Session.step sha s y) as [s' o] eqn:E. simpl. now rewrite IH.
  Qed.

  (* The binding theorem.  In any history started with an empty store, the request at any
     position is served [serve u r]; if its session carries stored data v, then v was written
     by an earlier request that was served the same id.  Whatever holds of two requests
     served one id (Q) under a hypothesis on the requests of the history (P) then holds of
     writer and reader. *)
  Theorem session_binding_gen (P : req * action * str -> Prop) (Q : req -> req -> Prop) :
    (forall r' a' u' r a u, P (r', a', u') -> P (r, a, u) -> serve u' r' = serve u r -> Q r' r) ->
    forall h1 r a u h2, Forall P (h1 ++ (r, a, u) :: h2) ->
    exists d,
      nth_error (run [] (h1 ++ (r, a, u) :: h2)) (length h1) = Some (serve u r, d) /\
      forall v, d = Some v ->
        exists r' u', In (r', Write v, u') h1 /\ serve u' r' = serve u r /\ Q r' r.
  Proof.
    intros HQ h1 r a u h2 F. rewrite run_nth. eexists. split; [reflexivity|].
    intros v D. apply load_data, store_provenance in D as [D|(r' & u' & Hin & E)]; [discriminate|].
    exists r', u'. split; [exact Hin|]. split; [exact E|].
    rewrite Forall_forall in F.
    apply (HQ r' (Write v) u' r a u); [apply F, in_or_app; now left|apply F, in_elt|exact E].
  Qed.

  Lemma fingerprint_pair : injective sha -> forall r1 r2,
    no_sep (ip r1) -> no_sep (ip r2) -> who r1 = who r2 -> ip r1 = ip r2 /\ agent r1 = agent r2.
  Proof. intros I r1 r2 H1 H2 W. apply I in W. exact (app_sep_inj _ _ _ _ _ H1 H2 W). Qed.

  Lemma same_sid_same_client : injective sha -> forall u1 r1 u2 r2,
    no_slash u1 -> no_slash u2 -> no_sep (ip r1) -> no_sep (ip r2) ->
    serve u1 r1 = serve u2 r2 -> ip r1 = ip r2 /\ agent r1 = agent r2.
  Proof.
    intros I u1 r1 u2 r2 U1 U2 S1 S2 E. apply (fingerprint_pair I); trivial.
    exact (same_sid_same_fingerprint u1 r1 u2 r2 U1 U2 E).
  Qed.
End P.
