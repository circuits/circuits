(* Proofs about Model/StaticPath.v: whatever Static serves lies inside the document root. *)
From Coq Require Import List NArith Bool.
From Circ Require Import Lib.ByteStr Model.StaticPath.
Import ListNotations.
Open Scope N_scope.

Lemma ends_slash_inv : forall x, ends_slash x = true -> exists x0, x = x0 ++ [SL].
Proof.
  intros x H. unfold ends_slash, starts_slash in H.
  destruct (rev x) as [|c y] eqn:E; [discriminate|].
  apply N.eqb_eq in H. subst c.
  exists (rev y). rewrite <- (rev_involutive x), E. reflexivity.
Qed.

Lemma ends_slash_app : forall d, ends_slash (d ++ [SL]) = true.
Proof. intros. unfold ends_slash. rewrite rev_app_distr. reflexivity. Qed.

Lemma split_on_nonnil : forall d s, split_on d s <> [].
Proof.
  intros d s. destruct s as [|c t]; simpl; [discriminate|].
  destruct (c =? d); [discriminate|]. destruct (split_on d t); discriminate.
Qed.

Lemma split_on_app : forall d a b, split_on d (a ++ d :: b) = split_on d a ++ split_on d b.
Proof.
  intros d a b. induction a as [|c a IH]; simpl.
  - rewrite N.eqb_refl. reflexivity.
  - rewrite IH. destruct (c =? d); [reflexivity|].
    destruct (split_on d a) eqn:E; [destruct (split_on_nonnil _ _ E)|reflexivity].
Qed.

Lemma split_on_id : forall d c, ~ In d c -> split_on d c = [c].
Proof.
  intros d c. induction c as [|x c IH]; intros H; simpl; [reflexivity|].
  destruct (N.eqb_spec x d) as [->|_].
  - destruct H. left. reflexivity.
  - rewrite IH; [reflexivity|]. intro. apply H. right. assumption.
Qed.

Lemma split_on_nodelim : forall d s, Forall (fun c => ~ In d c) (split_on d s).
Proof.
  intros d s. induction s as [|x s IH]; simpl.
  - constructor; [intros []|constructor].
  - destruct (N.eqb_spec x d) as [->|Hx].
    + constructor; [intros []|exact IH].
    + destruct (split_on d s) as [|h r] eqn:E; [destruct (split_on_nonnil _ _ E)|].
      inversion IH; subst. constructor; [|assumption]. intros [H|H]; auto.
Qed.

(* splitting undoes joining with the separator d; J is the join, given by its two equations
   (intercalate for '/', the join of range specs for ',') *)
Lemma split_joined : forall d (J : list str -> str),
  (forall a, J [a] = a) -> (forall a b r, J (a :: b :: r) = a ++ d :: J (b :: r)) ->
  forall l, Forall (fun c => ~ In d c) l -> l <> [] -> split_on d (J l) = l.
Proof.
  intros d J J1 J2. induction l as [|a r IH]; intros H Hn; [congruence|].
  inversion H as [|? ? Ha Hr]; subst.
  destruct r as [|b r].
  - rewrite J1. apply split_on_id, Ha.
  - rewrite J2, split_on_app, (split_on_id d a Ha). simpl. f_equal.
    apply IH; [assumption|discriminate].
Qed.

Lemma split_intercalate : forall l, Forall (fun c => ~ In SL c) l -> l <> [] ->
  split_slash (intercalate l) = l.
Proof. exact (split_joined SL intercalate (fun _ => eq_refl) (fun _ _ _ => eq_refl)). Qed.

Lemma intercalate_app : forall a b, a <> [] -> b <> [] ->
  intercalate (a ++ b) = intercalate a ++ SL :: intercalate b.
Proof.
  induction a as [|x a IH]; intros b Ha Hb; [congruence|].
  destruct a as [|y a].
  - simpl. destruct b; [congruence|reflexivity].
  - change (intercalate ((x :: y :: a) ++ b)) with (x ++ SL :: intercalate ((y :: a) ++ b)).
    rewrite IH by (assumption || discriminate).
    change (intercalate (x :: y :: a)) with (x ++ SL :: intercalate (y :: a)).
    rewrite <- app_assoc. reflexivity.
Qed.

Lemma comps_of_app : forall a b, comps_of (a ++ SL :: b) = comps_of a ++ comps_of b.
Proof. intros. unfold comps_of, split_slash. rewrite split_on_app, filter_app. reflexivity. Qed.

Lemma comps_of_cons_slash : forall x, comps_of (SL :: x) = comps_of x.
Proof. intros. exact (comps_of_app [] x). Qed.

Lemma comps_of_snoc_slash : forall x, comps_of (x ++ [SL]) = comps_of x.
Proof. intros. rewrite comps_of_app. apply app_nil_r. Qed.

Lemma plain_tests : forall c,
  plain c <-> isnil c = false /\ is_dot c = false /\ is_dotdot c = false /\ ~ In SL c.
Proof.
  intros c. unfold plain, is_dot, is_dotdot. rewrite !str_eqb_false.
  assert (isnil c = false <-> c <> []) as -> by (destruct c; simpl; split; congruence).
  reflexivity.
Qed.

Lemma plain_nonnil : forall c, plain c -> isnil c = false.
Proof. intros c H. apply plain_tests in H. tauto. Qed.

Lemma plain_noslash : forall ps, Forall plain ps -> Forall (fun c => ~ In SL c) ps.
Proof. apply Forall_impl. intros c H. apply plain_tests in H. tauto. Qed.

Lemma plain_no_leading_slash : forall c, plain c -> starts_slash c = false.
Proof.
  intros c (_ & _ & _ & H). destruct c as [|x c]; [reflexivity|]. simpl.
  destruct (N.eqb_spec x SL) as [->|_]; [|reflexivity]. destruct H. left. reflexivity.
Qed.

Lemma plainb_spec : forall c, plainb c = true -> plain c.
Proof.
  intros c H. unfold plainb in H. rewrite !andb_true_iff, !negb_true_iff in H.
  destruct H as [[[Hn Hd] Hdd] Hs]. apply plain_tests. repeat split; try assumption.
  intro I. rewrite <- not_true_iff_false, existsb_exists in Hs.
  apply Hs. exists SL. split; [assumption|apply N.eqb_refl].
Qed.

Lemma filter_plain : forall ps, Forall plain ps -> filter (fun c => negb (isnil c)) ps = ps.
Proof.
  induction 1 as [|c ps Hc _ IH]; simpl; [reflexivity|].
  rewrite (plain_nonnil c Hc), IH. reflexivity.
Qed.

Lemma comps_of_render : forall k ps, Forall plain ps ->
  comps_of (repeat SL k ++ intercalate ps) = ps.
Proof.
  induction k as [|k IH]; intros ps H; simpl.
  - destruct ps as [|a r]; [reflexivity|]. unfold comps_of.
    rewrite split_intercalate by (apply plain_noslash; assumption) || discriminate.
    apply filter_plain. assumption.
  - rewrite comps_of_cons_slash. apply IH. assumption.
Qed.

Lemma intercalate_head_plain : forall ps, Forall plain ps -> ps <> [] ->
  intercalate ps <> [] /\ starts_slash (intercalate ps) = false.
Proof.
  intros ps H Hn. destruct H as [|a r Ha _]; [congruence|].
  pose proof (plain_no_leading_slash a Ha) as Hs. apply plain_nonnil in Ha.
  destruct a; [discriminate|]. destruct r; split; (discriminate || exact Hs).
Qed.

Lemma norm_app : forall abs l stack r,
  norm_comps abs stack (l ++ r) = norm_comps abs (rev (norm_comps abs stack l)) r.
Proof.
  induction l as [|x l IH]; intros stack r; simpl.
  - rewrite rev_involutive. reflexivity.
  - destruct (isnil x || is_dot x); [apply IH|].
    destruct (negb (is_dotdot x) || _ || _); apply IH.
Qed.

Lemma norm_plain_cons : forall c stack r, plain c ->
  norm_comps true stack (c :: r) = norm_comps true (c :: stack) r.
Proof.
  intros c stack r H. apply plain_tests in H as (Hn & Hd & Hdd & _).
  simpl. rewrite Hn, Hd, Hdd. reflexivity.
Qed.

Lemma norm_plain_all : forall ps stack, Forall plain ps ->
  norm_comps true stack ps = rev stack ++ ps.
Proof.
  induction ps as [|c ps IH]; intros stack H.
  - simpl. rewrite app_nil_r. reflexivity.
  - inversion H; subst. rewrite norm_plain_cons, IH by assumption.
    simpl. rewrite <- app_assoc. reflexivity.
Qed.

(* on an absolute path the loop keeps its stack free of '.', '..' and empty names:
   '..' always finds a plain name to pop, or nothing *)
Lemma norm_plain : forall comps stack,
  Forall plain stack -> Forall (fun c => ~ In SL c) comps ->
  Forall plain (norm_comps true stack comps).
Proof.
  induction comps as [|c r IH]; intros stack Hs Hc; simpl; [apply Forall_rev; assumption|].
  inversion Hc as [|? ? Hc1 Hc2]; subst.
  destruct (isnil c) eqn:En, (is_dot c) eqn:Ed; simpl; try (apply IH; assumption).
  destruct (is_dotdot c) eqn:Edd; simpl.
  - destruct Hs as [|t st Ht Hst]; simpl; [apply IH; auto|].
    apply plain_tests in Ht as (_ & _ & -> & _). apply IH; assumption.
  - apply IH; [|assumption]. constructor; [|assumption]. apply plain_tests. auto.
Qed.

Definition ncomps (p : str) : list str := norm_comps true [] (split_slash p).

Lemma ncomps_plain : forall p, Forall plain (ncomps p).
Proof. intros p. apply norm_plain; [constructor|apply split_on_nodelim]. Qed.

Lemma ncomps_app : forall x c,
  ncomps (x ++ SL :: c) = norm_comps true (rev (ncomps x)) (split_slash c).
Proof. intros. unfold ncomps, split_slash. rewrite split_on_app. apply norm_app. Qed.

Lemma ncomps_snoc_slash : forall x, ncomps (x ++ [SL]) = ncomps x.
Proof. intros. rewrite ncomps_app. apply rev_involutive. Qed.

Lemma init_slashes_abs : forall p, starts_slash p = true -> exists k, init_slashes p = S k.
Proof.
  intros p H. unfold init_slashes. rewrite H.
  destruct (starts_slash (tl p) && negb (starts_slash (tl (tl p)))); eauto.
Qed.

Lemma normpath_abs : forall p, starts_slash p = true ->
  normpath p = repeat SL (init_slashes p) ++ intercalate (ncomps p).
Proof.
  intros p H. destruct (init_slashes_abs p H) as [k E].
  destruct p as [|c t]; [discriminate|]. unfold normpath. rewrite E. reflexivity.
Qed.

Lemma normpath_starts_slash : forall p, starts_slash p = true -> starts_slash (normpath p) = true.
Proof.
  intros p H. rewrite normpath_abs by assumption.
  destruct (init_slashes_abs p H) as [k ->]. reflexivity.
Qed.

Lemma comps_of_normpath : forall p, starts_slash p = true -> comps_of (normpath p) = ncomps p.
Proof. intros p H. rewrite normpath_abs by assumption. apply comps_of_render, ncomps_plain. Qed.

Lemma abs_nonnil : forall d, starts_slash d = true -> d <> [].
Proof. intros d H E. subst. discriminate. Qed.

Lemma join2_abs : forall d u, starts_slash d = true -> starts_slash (join2 d u) = true.
Proof.
  intros d u H. unfold join2. destruct (starts_slash u) eqn:E; [assumption|].
  destruct d as [|c d]; [discriminate|].
  destruct (isnil (c :: d) || ends_slash (c :: d)); exact H.
Qed.

(* join puts exactly one '/' between x, less a trailing '/', and a relative c *)
Lemma join2_sep : forall x c, x <> [] -> starts_slash c = false ->
  exists x0, join2 x c = x0 ++ SL :: c /\ (x = x0 \/ x = x0 ++ [SL]).
Proof.
  intros x c Hx Hc. unfold join2. rewrite Hc.
  destruct x as [|a x]; [congruence|]. simpl isnil. simpl orb.
  destruct (ends_slash (a :: x)) eqn:E.
  - destruct (ends_slash_inv _ E) as [x0 ->]. exists x0. rewrite <- app_assoc. auto.
  - exists (a :: x). auto.
Qed.

Lemma ncomps_join : forall x c, starts_slash x = true -> starts_slash c = false ->
  ncomps (join2 x c) = norm_comps true (rev (ncomps x)) (split_slash c).
Proof.
  intros x c Hx Hc. destruct (join2_sep x c (abs_nonnil x Hx) Hc) as (x0 & -> & [->| ->]).
  - apply ncomps_app.
  - rewrite ncomps_snoc_slash. apply ncomps_app.
Qed.

Lemma ncomps_join_plain : forall x df, starts_slash x = true -> plain df ->
  ncomps (join2 x df) = ncomps x ++ [df].
Proof.
  intros x df Hx Hp. rewrite ncomps_join by (assumption || apply plain_no_leading_slash, Hp).
  unfold split_slash. rewrite split_on_id by apply Hp.
  rewrite norm_plain_cons by assumption. simpl. rewrite rev_involutive. reflexivity.
Qed.

Lemma ncomps_join_skip : forall x c, starts_slash x = true -> c = [] \/ c = [DOT] ->
  ncomps (join2 x c) = ncomps x.
Proof.
  intros x c Hx [->| ->]; rewrite ncomps_join by (assumption || reflexivity); apply rev_involutive.
Qed.

Lemma inside_spec : forall d loc, inside d loc = true <-> (loc = d \/ exists r, loc = join2 d [] ++ r).
Proof. intros d loc. unfold inside. rewrite orb_true_iff, str_eqb_eq, prefixb_iff. reflexivity. Qed.

Lemma inside_comps : forall d loc, starts_slash d = true -> inside d loc = true ->
  exists r, comps_of loc = comps_of d ++ comps_of r.
Proof.
  intros d loc Hd H. apply inside_spec in H as [->|[r ->]].
  - exists []. symmetry. apply app_nil_r.
  - exists r. destruct (join2_sep d [] (abs_nonnil d Hd) eq_refl) as (d0 & -> & [->| ->]);
      rewrite <- app_assoc, ?comps_of_snoc_slash; apply comps_of_app.
Qed.

(* "inside the document root": absolute, and its components are those of the
   document root followed by plain names only *)
Definition contained (d loc : str) : Prop :=
  starts_slash loc = true /\
  exists rest, comps_of loc = comps_of d ++ rest /\ Forall plain rest.

(* it is enough that the components are those of some normalised absolute path that extends
   the document root's: what follows the root is plain then *)
Lemma contained_intro : forall d loc p rest, starts_slash loc = true ->
  comps_of loc = ncomps p -> ncomps p = comps_of d ++ rest -> contained d loc.
Proof.
  intros d loc p rest Hs Hc Hp. split; [assumption|]. exists rest. split; [congruence|].
  pose proof (ncomps_plain p) as H. rewrite Hp in H. apply Forall_app in H. tauto.
Qed.

Lemma contained_normpath : forall d p rest, starts_slash p = true ->
  ncomps p = comps_of d ++ rest -> contained d (normpath p).
Proof.
  intros d p rest Hs Hp.
  exact (contained_intro d _ p rest (normpath_starts_slash p Hs) (comps_of_normpath p Hs) Hp).
Qed.

Lemma location_comps : forall d u, starts_slash d = true ->
  starts_slash (location d u) = true /\ comps_of (location d u) = ncomps (join2 d u).
Proof.
  intros d u Hd.
  assert (forall c, starts_slash (join2 d c) = true) as Hj by (intro; apply join2_abs, Hd).
  unfold location. destruct u as [|c u]; rewrite comps_of_normpath by apply Hj.
  - rewrite !ncomps_join_skip by auto. auto using normpath_starts_slash.
  - auto using normpath_starts_slash.
Qed.

Section Fs.
  Variables fexists isfile isdir : str -> bool.
  Variable unq : str -> str.

  Lemma served_serve_file : forall loc, served (serve_file fexists isdir loc) = Some loc.
  Proof. intros. unfold serve_file. destruct (fexists loc && negb (isdir loc)); reflexivity. Qed.

  Lemma try_defaults_some : forall d u defaults o,
    try_defaults fexists isdir d u defaults = Some o ->
    exists df, In df defaults /\ served o = Some (normpath (join2 (join2 d u) df)).
  Proof.
    induction defaults as [|df r IH]; intros o H; simpl in H; [discriminate|].
    destruct (fexists (normpath (join2 (join2 d u) df))).
    - injection H as <-. exists df. split; [left; reflexivity|apply served_serve_file].
    - destruct (IH _ H) as [df' [Hin Hs]]. exists df'. split; [right; assumption|assumption].
  Qed.

  (* what is served passed the test, and is the location, a default document under it, or the
     directory to list *)
  Lemma static_served : forall mount d defaults dirlisting reqpath loc,
    served (static_request fexists isfile isdir unq mount d defaults dirlisting reqpath) = Some loc ->
    exists u, inside d (location d u) = true /\
      (loc = location d u \/
       (exists df, In df defaults /\ loc = normpath (join2 (join2 d u) df)) \/
       loc = normpath (join2 d u)).
  Proof.
    intros mount d defaults dirlisting reqpath loc H. unfold static_request in H.
    destruct (unmount mount reqpath) as [p|]; [|discriminate].
    exists (unq (strip_sl p)). set (u := unq (strip_sl p)) in *.
    destruct (inside d (location d u)); simpl in H; [|discriminate]. split; [reflexivity|].
    destruct (fexists (location d u)); simpl in H; [|discriminate].
    destruct (isfile (location d u)).
    { rewrite served_serve_file in H. injection H as <-. auto. }
    destruct (isdir (location d u)); [|discriminate].
    destruct (try_defaults fexists isdir d u defaults) as [o|] eqn:Et.
    - destruct (try_defaults_some _ _ _ _ Et) as (df & Hin & Hs).
      rewrite Hs in H. injection H as <-. eauto.
    - destruct dirlisting; [|discriminate]. injection H as <-. auto.
  Qed.

  (* All three are normalised absolute paths, or have the components of one, which begin with
     those of join(d, u); the test has shown these to extend the document root's. *)
  Theorem static_contained : forall mount d defaults dirlisting reqpath loc,
    starts_slash d = true -> Forall plain defaults ->
    served (static_request fexists isfile isdir unq mount d defaults dirlisting reqpath) = Some loc ->
    contained d loc.
  Proof.
    intros mount d defaults dirlisting reqpath loc Hd Hdf H.
    destruct (static_served _ _ _ _ _ _ H) as (u & Hi & Hloc).
    destruct (location_comps d u Hd) as [Hla Hlc].
    destruct (inside_comps d _ Hd Hi) as [r Hr]. rewrite Hlc in Hr.
    pose proof (join2_abs d u Hd) as Hq.
    destruct Hloc as [->|[(df & Hin & ->)| ->]].
    - exact (contained_intro _ _ _ _ Hla Hlc Hr).
    - rewrite Forall_forall in Hdf. apply Hdf in Hin.
      apply (contained_normpath d _ (comps_of r ++ [df])); [apply join2_abs, Hq|].
      rewrite ncomps_join_plain, Hr, app_assoc by assumption. reflexivity.
    - exact (contained_normpath d _ _ Hq Hr).
  Qed.

End Fs.

Lemma init_slashes_app : forall d y, starts_slash d = true -> ends_slash d = false ->
  init_slashes (d ++ SL :: y) = init_slashes d.
Proof.
  intros d y Hs He. unfold init_slashes, ends_slash in *.
  destruct d as [|a [|b [|c d]]]; try discriminate; simpl in *.
  - congruence.
  - rewrite Hs, He. reflexivity.
  - reflexivity.
Qed.

Lemma normpath_under : forall d ps,
  starts_slash d = true -> ends_slash d = false -> normpath d = d ->
  Forall plain ps -> ps <> [] ->
  normpath (d ++ SL :: intercalate ps) = d ++ SL :: intercalate ps.
Proof.
  intros d ps Hs He Hn Hp Hne.
  rewrite normpath_abs in * by (destruct d; [discriminate|exact Hs]).
  rewrite init_slashes_app by assumption.
  rewrite ncomps_app, split_intercalate, norm_plain_all, rev_involutive
    by (assumption || apply plain_noslash, Hp).
  rewrite intercalate_app, app_assoc, Hn; [reflexivity| |assumption].
  (* d has a component: otherwise it would consist of slashes only *)
  intro E. rewrite E in Hn. destruct (init_slashes_abs d Hs) as [k Ek].
  rewrite Ek, app_nil_r in Hn. simpl in Hn. rewrite repeat_cons in Hn.
  rewrite <- Hn, ends_slash_app in He. discriminate.
Qed.

Lemma location_benign : forall d ps,
  starts_slash d = true -> ends_slash d = false -> normpath d = d ->
  Forall plain ps -> ps <> [] ->
  location d (intercalate ps) = d ++ SL :: intercalate ps /\
  inside d (location d (intercalate ps)) = true.
Proof.
  intros d ps Hs He Hn Hp Hne.
  destruct (intercalate_head_plain ps Hp Hne) as [Hu1 Hu2].
  assert (forall c, starts_slash c = false -> join2 d c = d ++ SL :: c) as Hj.
  { intros c Hc. unfold join2. rewrite Hc, He. destruct d; [discriminate|reflexivity]. }
  assert (location d (intercalate ps) = d ++ SL :: intercalate ps) as ->.
  { unfold location. destruct (intercalate ps) eqn:Eu; [congruence|]. rewrite <- Eu in *.
    rewrite Hj by assumption. apply normpath_under; assumption. }
  split; [reflexivity|]. apply inside_spec. right. exists (intercalate ps).
  rewrite Hj, <- app_assoc by reflexivity. reflexivity.
Qed.
