(* Proofs about Model/StreamWrite.v (property C11).
   One connection: what one poller iteration of the patched code does (tick_idle, tick_accept, tick_refuse);
   the invariant [sound] of a run, kept by every step (step_sound, run_sound); why a step closes
   (graceful_close); an accepting OS drains the buffer (drains, progress).
   The Server: every table operation [moves] its socket by the per-connection step and leaves the others alone
   (s_op_ref), so the tables [follow] the per-connection model socket by socket (server_follows). *)
From Coq Require Import List NArith Arith Bool Lia.
From Circ Require Import Lib.ListFacts Lib.ListMem Model.StreamWrite Model.StreamWriteObs.
Import ListNotations.

Definition pay (o : op) : list N := match o with Write d => d | _ => [] end.

Definition has_fatal (evs : list ev) : bool := existsb fatal_ev evs.

Lemma accepted_app a b : accepted (a ++ b) = accepted a ++ accepted b.
Proof.
  induction a as [|e a IH]; [reflexivity|].
  destruct e; cbn [app accepted]; rewrite ?IH, ?app_assoc; reflexivity.
Qed.

Lemma written_cons o r : written (o :: r) = pay o ++ written r.
Proof. destruct o; reflexivity. Qed.

Lemma written_app a b : written (a ++ b) = written a ++ written b.
Proof.
  induction a as [|o a IH]; [reflexivity|].
  cbn [app]. rewrite !written_cons, IH, app_assoc. reflexivity.
Qed.

Lemma run_app p st a b :
  run p st (a ++ b) =
  let '(st1, e1) := run p st a in let '(st2, e2) := run p st1 b in (st2, e1 ++ e2).
Proof.
  revert st; induction a as [|o a IH]; intros st; cbn [app run].
  - destruct (run p st b); reflexivity.
  - destruct (step p st o) as [st1 e1]. rewrite IH.
    destruct (run p st1 a) as [st2 e2]. destruct (run p st2 b) as [st3 e3].
    rewrite app_assoc. reflexivity.
Qed.

Lemma sock_closed_app a b : sock_closed (a ++ b) = sock_closed a || sock_closed b.
Proof. apply existsb_app. Qed.

Lemma signalled_app a b : signalled (a ++ b) = signalled a || signalled b.
Proof. apply existsb_app. Qed.

Lemma concat_snoc (b : list (list N)) d : concat (b ++ [d]) = concat b ++ d.
Proof. rewrite concat_app. cbn [concat]. rewrite app_nil_r. reflexivity. Qed.

Lemma step_closed k o : step (fixed k) (Closed empty) o = (Closed empty, []).
Proof. destruct o as [d| |oc]; destruct k; reflexivity. Qed.

Lemma run_closed k ops : run (fixed k) (Closed empty) ops = (Closed empty, []).
Proof. induction ops as [|o r IH]; [reflexivity|]. cbn [run]. rewrite step_closed, IH. reflexivity. Qed.

(* how much of the payload [d] a send() answered with [Accept kk] takes, and what stays buffered after it *)
Definition took (kk : N) (d : list N) : nat := N.to_nat (N.min kk (N.of_nat (length d))).

Definition unsent (n : nat) (d : list N) (rest : list (list N)) : list (list N) :=
  if n <? length d then skipn n d :: rest else rest.

Lemma took_le kk d : took kk d <= length d.
Proof. unfold took. lia. Qed.

Lemma took_all kk d : (N.of_nat (length d) <= kk)%N -> took kk d = length d.
Proof. unfold took. lia. Qed.

Lemma unsent_all d rest : unsent (length d) d rest = rest.
Proof. unfold unsent. rewrite Nat.ltb_irrefl. reflexivity. Qed.

Lemma sent_unsent n d rest : firstn n d ++ concat (unsent n d rest) = d ++ concat rest.
Proof.
  unfold unsent. destruct (n <? length d) eqn:E.
  - cbn [concat]. rewrite app_assoc, firstn_skipn. reflexivity.
  - apply Nat.ltb_ge in E. rewrite firstn_all2 by exact E. reflexivity.
Qed.

Lemma fixed_requeue k : requeue (fixed k) = transient.
Proof. destruct k; reflexivity. Qed.

Lemma fixed_ignore k e : ignore (fixed k) e = false.
Proof. destruct k; reflexivity. Qed.

Lemma tick_idle p oc s : writing s = false -> tick p oc s = (Open s, []).
Proof. intros W. unfold tick. rewrite W. reflexivity. Qed.

Lemma tick_accept p kk s d rest : writing s = true -> buf s = d :: rest ->
  tick p (Accept kk) s = after_write (set_buf s (unsent (took kk d) d rest)) [Send d (took kk d)].
Proof. intros W B. unfold tick. rewrite W, B. reflexivity. Qed.

(* a transient errno puts the payload back; any other closes, Client's EPIPE/ENOTCONN without an error event *)
Lemma tick_refuse k e s d rest : writing s = true -> buf s = d :: rest ->
  tick (fixed k) (Refuse e) s =
  if transient e then (Open s, [SendErr d e])
  else (Closed empty, SendErr d e :: (if quiet (fixed k) e then closing else EvError :: closing)).
Proof.
  intros W B. destruct s as [b cr w]. cbn [buf writing] in W, B. subst b w.
  unfold tick. cbn [buf writing negb]. rewrite fixed_requeue, fixed_ignore.
  destruct (transient e); [reflexivity|]. destruct (quiet (fixed k) e); reflexivity.
Qed.

Lemma after_write_open s evs s' : fst (after_write s evs) = Open s' -> buf s' = buf s.
Proof.
  unfold after_write. destruct (buf s) eqn:B; [destruct (closereq s)|]; cbn [fst]; intros E.
  - discriminate E.
  - injection E as <-. reflexivity.
  - injection E as <-. exact B.
Qed.

Definition nonempty {A} (l : list A) : bool := match l with [] => false | _ :: _ => true end.

Lemma nonempty_true {A} (l : list A) : nonempty l = true <-> l <> [].
Proof. destruct l; cbn [nonempty]; split; congruence. Qed.

Lemma nonempty_snoc {A} (b : list A) d : nonempty (b ++ [d]) = true.
Proof. destruct b; reflexivity. Qed.

(* the state half of [sound]: write() and the tail of _on_write keep the poller's writer interest in step with the
   buffer, and close() on an empty buffer closes at once, so a recorded close request is one that waits for bytes *)
Definition inv (s : ostate) : Prop :=
  writing s = nonempty (buf s) /\ (closereq s = true -> nonempty (buf s) = true).

Lemma inv_init : inv empty.
Proof. split; [reflexivity|discriminate]. Qed.

Definition before_close (e : ev) : bool :=
  match e with Send _ _ | SendErr _ _ | EvError => true | SockClose | EvDisc | Unmodelled => false end.

Lemma no_close_no_unmodelled a : forallb before_close a = true ->
  sock_closed a = false /\ existsb is_unmodelled a = false.
Proof.
  induction a as [|e a IH]; [split; reflexivity|].
  destruct e; cbn [forallb before_close andb]; try discriminate; exact IH.
Qed.

(* What holds of a run of the patched code that has been handed the bytes [w] (buffered at the start or
   written since).  Open: [inv], and accepted ++ buffered = w.  Closed: no state is kept, the accepted bytes
   are a prefix of w, and the descriptor was closed after everything else, once. *)
Definition sound (w : list N) (r : state * list ev) : Prop :=
  match fst r with
  | Open s => inv s /\ accepted (snd r) ++ concat (buf s) = w /\ forallb before_close (snd r) = true
  | Closed c => c = empty /\ (exists rest, accepted (snd r) ++ rest = w) /\
                exists a, snd r = a ++ closing /\ forallb before_close a = true
  end.

Lemma sound_prepend e1 w r : forallb before_close e1 = true -> sound w r ->
  sound (accepted e1 ++ w) (fst r, e1 ++ snd r).
Proof.
  intros H1. destruct r as [[s|c] e]; unfold sound; cbn [fst snd].
  - intros (Hi & A & B). split; [exact Hi|]. split.
    + rewrite accepted_app, <- app_assoc, A. reflexivity.
    + rewrite forallb_app, H1, B. reflexivity.
  - intros (Hc & [rest A] & [a [E B]]). split; [exact Hc|]. split.
    + exists rest. rewrite accepted_app, <- app_assoc, A. reflexivity.
    + exists (e1 ++ a). rewrite E, app_assoc, forallb_app, H1, B. split; reflexivity.
Qed.

Lemma after_write_sound s evs w :
  writing s = true -> forallb before_close evs = true -> accepted evs ++ concat (buf s) = w ->
  sound w (after_write s evs).
Proof.
  intros W E A. unfold after_write, sound. destruct (buf s) as [|d b] eqn:B; [destruct (closereq s)|]; cbn [fst snd].
  - split; [reflexivity|]. split; [|exists evs; split; [reflexivity|exact E]].
    exists []. rewrite accepted_app, app_nil_r. exact A.
  - split; [exact inv_init|]. split; [exact A|exact E].
  - unfold inv. rewrite W, B. split; [split; reflexivity|]. split; [exact A|exact E].
Qed.

Lemma step_sound k s o : inv s -> sound (concat (buf s) ++ pay o) (step (fixed k) (Open s) o).
Proof.
  intros Hi. pose proof Hi as [Hw Hc]. destruct o as [d| |oc]; cbn [step pay].
  - split; [split; cbn [buf writing]; [symmetry|intros _]; apply nonempty_snoc|].
    split; [apply concat_snoc|reflexivity].
  - rewrite app_nil_r. destruct (buf s) as [|d b] eqn:B.
    + split; [reflexivity|]. split; [exists []|exists []; split]; reflexivity.
    + split; [split; [exact Hw|reflexivity]|]. split; reflexivity.
  - rewrite app_nil_r. destruct (writing s) eqn:W.
    2:{ rewrite tick_idle by exact W. split; [exact Hi|]. split; reflexivity. }
    destruct (buf s) as [|d rest] eqn:B; [discriminate Hw|]. destruct oc as [kk|e].
    + rewrite (tick_accept _ kk s d rest W B). apply after_write_sound; [exact W|reflexivity|].
      cbn [accepted set_buf buf]. rewrite app_nil_r. apply sent_unsent.
    + rewrite (tick_refuse k e s d rest W B). destruct (transient e).
      * split; [exact Hi|]. rewrite B. split; reflexivity.
      * split; [reflexivity|]. split; [exists (concat (d :: rest)); destruct (quiet (fixed k) e); reflexivity|].
        exists (SendErr d e :: if quiet (fixed k) e then [] else [EvError]).
        destruct (quiet (fixed k) e); split; reflexivity.
Qed.

Lemma run_sound k : forall ops s, inv s -> sound (concat (buf s) ++ written ops) (run (fixed k) (Open s) ops).
Proof.
  induction ops as [|o r IH]; intros s Hi; cbn [run].
  - split; [exact Hi|]. split; [symmetry; apply app_nil_r|reflexivity].
  - pose proof (step_sound k s o Hi) as S. rewrite written_cons, app_assoc.
    destruct (step (fixed k) (Open s) o) as [[s1|c1] e1]; unfold sound in S; cbn [fst snd] in S.
    + destruct S as (Hi1 & A1 & B1). specialize (IH s1 Hi1). rewrite <- A1, <- app_assoc.
      destruct (run (fixed k) (Open s1) r) as [st2 e2]. exact (sound_prepend e1 _ _ B1 IH).
    + destruct S as (-> & [rest A1] & L). rewrite run_closed, app_nil_r.
      split; [reflexivity|]. split; [|exact L]. exists (rest ++ written r). cbn [snd]. rewrite app_assoc, A1. reflexivity.
Qed.

Lemma run_init k ops : sound (written ops) (run (fixed k) init ops).
Proof. exact (run_sound k ops empty inv_init). Qed.

(* a step that closes the endpoint without a fatal refusal was asked to, and has handed over everything *)
Lemma graceful_close k s o : inv s ->
  fst (step (fixed k) (Open s) o) = Closed empty -> has_fatal (snd (step (fixed k) (Open s) o)) = false ->
  accepted (snd (step (fixed k) (Open s) o)) = concat (buf s) ++ pay o /\
  (closereq s = true \/ o = Close) /\ o <> Write (pay o) (* o is no Write, whatever its payload *).
Proof.
  intros [Hw _]. destruct o as [d| |oc]; cbn [step pay].
  - discriminate.
  - destruct (buf s); [|discriminate]. intros _ _. split; [reflexivity|]. split; [right; reflexivity|discriminate].
  - destruct (writing s) eqn:W; [|rewrite tick_idle by exact W; discriminate].
    destruct (buf s) as [|d rest] eqn:B; [discriminate Hw|]. destruct oc as [kk|e].
    + rewrite (tick_accept _ kk s d rest W B). pose proof (sent_unsent (took kk d) d rest) as A.
      unfold after_write. cbn [set_buf buf closereq].
      destruct (unsent (took kk d) d rest); [destruct (closereq s)|]; try discriminate.
      intros _ _. split; [|split; [left; reflexivity|discriminate]].
      cbn [fst snd app accepted concat] in *. rewrite !app_nil_r in *. exact A.
    + rewrite (tick_refuse k e s d rest W B). destruct (transient e) eqn:T; [discriminate|].
      intros _ F. unfold has_fatal in F. cbn [snd existsb fatal_ev] in F. rewrite T in F. discriminate F.
Qed.

Lemma closing_is_last a : forallb before_close a = true ->
  forall x y, a ++ closing = x ++ SockClose :: y -> y = [EvDisc].
Proof.
  induction a as [|e a IH]; intros H x y E.
  - destruct x as [|e0 [|e1 [|e2 x]]]; cbn in E; [|discriminate E..]. injection E as <-. reflexivity.
  - cbn [forallb] in H. apply andb_true_iff in H. destruct H as [He Ha].
    destruct x as [|e0 x]; cbn [app] in E.
    + injection E as -> _. discriminate He.
    + injection E as _ E. exact (IH Ha x y E).
Qed.

Definition drained : ostate := empty.

Lemma drains_from k kk : forall b s, buf s = b -> inv s ->
  Forall (fun d => (N.of_nat (length d) <= kk)%N) b ->
  let r := run (fixed k) (Open s) (repeat (Tick (Accept kk)) (length b)) in
  fst r = (if closereq s then Closed empty else Open drained) /\ accepted (snd r) = concat b /\
  sock_closed (snd r) = closereq s.
Proof.
  induction b as [|d rest IH]; intros s B [Hw Hc] HF; rewrite B in Hw, Hc; cbn [nonempty length repeat run] in *.
  - (* nothing buffered: no writer interest, no pending close *)
    destruct s as [b [|] w]; cbn [buf closereq writing] in *; [discriminate (Hc eq_refl)|].
    subst. repeat split; reflexivity.
  - inversion HF as [|? ? Hd Hrest]; subst. cbn [step].
    rewrite (tick_accept _ kk s d rest Hw B), (took_all kk d Hd), unsent_all.
    unfold after_write. cbn [set_buf buf closereq]. destruct rest as [|d2 rest2].
    + destruct (closereq s); cbn [length repeat run fst snd concat accepted app];
        rewrite ?app_nil_r, firstn_all; repeat split; reflexivity.
    + specialize (IH (set_buf s (d2 :: rest2)) eq_refl (conj Hw (fun _ => eq_refl)) Hrest).
      destruct (run (fixed k) (Open (set_buf s (d2 :: rest2))) _) as [st2 e2].
      cbn [fst snd closereq set_buf] in *. destruct IH as (I1 & I2 & I3). split; [exact I1|]. split.
      * cbn [app accepted]. rewrite firstn_all, I2. reflexivity.
      * exact I3.
Qed.

Lemma drains k ops s evs1 kk :
  run (fixed k) init ops = (Open s, evs1) ->
  Forall (fun d => (N.of_nat (length d) <= kk)%N) (buf s) ->
  let r := run (fixed k) init (ops ++ repeat (Tick (Accept kk)) (length (buf s))) in
  fst r = (if closereq s then Closed empty else Open drained) /\
  accepted (snd r) = written ops /\
  sock_closed (snd r) = closereq s.
Proof.
  intros R HF. cbn zeta. rewrite run_app, R.
  pose proof (run_init k ops) as S. rewrite R in S. destruct S as (Hi & A & L).
  apply no_close_no_unmodelled in L. destruct L as [L _]. cbn [fst snd] in *.
  pose proof (drains_from k kk (buf s) s eq_refl Hi HF) as D. cbn zeta in D.
  destruct (run (fixed k) (Open s) _) as [st2 e2]. cbn [fst snd] in *. destruct D as (D1 & D2 & D3).
  split; [exact D1|]. split.
  - rewrite accepted_app, D2. exact A.
  - rewrite sock_closed_app, L, D3. reflexivity.
Qed.

(* every accepting send makes progress: the buffered amount (bytes + payloads) strictly decreases *)
Definition load (b : list (list N)) : nat := length (concat b) + length b.

Lemma progress k s kk s' :
  writing s = true -> buf s <> [] -> (1 <= kk)%N ->
  fst (step (fixed k) (Open s) (Tick (Accept kk))) = Open s' -> load (buf s') < load (buf s).
Proof.
  intros W B K. destruct (buf s) as [|d rest] eqn:E; [contradiction|].
  cbn [step]. rewrite (tick_accept _ kk s d rest W E). intros A.
  apply after_write_open in A. rewrite A. cbn [set_buf buf].
  pose proof (took_le kk d) as Hn. unfold load, unsent. destruct (took kk d <? length d) eqn:L.
  - (* partial send: at least one byte went *)
    apply Nat.ltb_lt in L. assert (1 <= took kk d) by (unfold took in *; lia).
    cbn [concat length]. rewrite !app_length, skipn_length. lia.
  - cbn [concat length]. rewrite app_length. lia.
Qed.

Lemma last_cons {A} (l : list A) : forall x d, last (x :: l) d = last l x.
Proof.
  induction l as [|y l IH]; intros x d; [reflexivity|]. exact (eq_trans (IH y d) (eq_sym (IH y x))).
Qed.

(* the per-operation trace used by the correspondence check is the same run *)
Lemma trace_is_run p : forall ops st,
  concat (map fst (trace p st ops)) = snd (run p st ops) /\
  last (map snd (trace p st ops)) st = fst (run p st ops).
Proof.
  induction ops as [|o r IH]; intros st; cbn [trace run map concat fst snd].
  - split; reflexivity.
  - destruct (step p st o) as [st1 e1]. specialize (IH st1).
    destruct (run p st1 r) as [st2 e2]. cbn [fst snd map concat] in *. destruct IH as [I1 I2].
    split; [rewrite I1; reflexivity|]. rewrite last_cons. exact I2.
Qed.

(* runs on which the code before the patches fails (evaluated in Props/C11.v): a payload refused with EAGAIN
   is lost (Client, File); Client goes on sending after ECONNRESET (104); a closed File keeps a late write and
   a late close *)
Definition lost_witness : list op :=
  [Write [1%N]; Write [2%N]; Tick (Refuse EAGAIN); Tick (Accept 5%N)].

Definition reset_witness : list op :=
  [Write [1%N]; Write [2%N]; Tick (Refuse 104%N); Tick (Accept 5%N)].

Definition late_witness : list op := [Close; Write [7%N]; Close].

(* data of the Examples in Props/C11.v *)
Definition ex_ops : list op :=
  [Write [1; 2; 3]%N; Write []; Write [4; 5]%N; Tick (Refuse EAGAIN); Tick (Accept 2); Close;
   Tick (Accept 9); Tick (Refuse EINTR); Tick (Accept 0); Tick (Accept 9); Write [6]%N; Tick (Accept 9)].

Lemma mem_In t l : mem t l = true <-> In t l.
Proof. apply existsb_eqb_In. Qed.

Lemma mem_notIn t l : mem t l = false <-> ~ In t l.
Proof. apply existsb_eqb_notIn. Qed.

Lemma mem_cons s x l : mem s (x :: l) = Nat.eqb s x || mem s l.
Proof. reflexivity. Qed.

Lemma mem_app s a b : mem s (a ++ b) = mem s a || mem s b.
Proof. apply existsb_app. Qed.

Lemma mem_remove1_neq s t l : s <> t -> mem s (remove1 t l) = mem s l.
Proof.
  intros N. apply existsb_eqb_ext. split; [apply In_remove1|apply In_remove1_neq, N].
Qed.

Lemma mem_remove1_eq t l : NoDup l -> mem t (remove1 t l) = false.
Proof. intros H. apply mem_notIn, remove1_notIn, H. Qed.

Lemma mem_add1_eq t l : mem t (add1 t l) = true.
Proof.
  unfold add1. destruct (mem t l) eqn:E; [exact E|].
  rewrite mem_app, mem_cons, Nat.eqb_refl. apply orb_true_r.
Qed.

Lemma mem_add1_neq s t l : s <> t -> mem s (add1 t l) = mem s l.
Proof.
  intros N. apply Nat.eqb_neq in N. unfold add1. destruct (mem t l); [reflexivity|].
  rewrite mem_app, mem_cons, N. apply orb_false_r.
Qed.

Lemma NoDup_add1 t l : NoDup l -> NoDup (add1 t l).
Proof.
  intros H. unfold add1. destruct (mem t l) eqn:E; [exact H|].
  apply NoDup_snoc; [exact H|]. apply mem_notIn, E.
Qed.

Lemma dget_dset_eq t v b : dget t (dset t v b) = v.
Proof.
  induction b as [|[x w] r IH]; cbn [dset dget].
  - rewrite Nat.eqb_refl. reflexivity.
  - destruct (Nat.eqb t x) eqn:E; cbn [dget]; [rewrite Nat.eqb_refl|rewrite E]; [reflexivity|exact IH].
Qed.

Lemma dget_dset_neq s t v b : s <> t -> dget s (dset t v b) = dget s b.
Proof.
  intros N. apply Nat.eqb_neq in N. induction b as [|[x w] r IH]; cbn [dset dget].
  - rewrite N. reflexivity.
  - destruct (Nat.eqb t x) eqn:E; cbn [dget].
    + apply Nat.eqb_eq in E. subst x. rewrite N. reflexivity.
    + rewrite IH. reflexivity.
Qed.

Lemma dget_ddel_eq t b : dget t (ddel t b) = [].
Proof.
  unfold ddel. induction b as [|[x w] r IH]; [reflexivity|]. cbn [filter fst].
  destruct (Nat.eqb t x) eqn:E; cbn [negb]; [exact IH|]. cbn [dget]. rewrite E. exact IH.
Qed.

Lemma dget_ddel_neq s t b : s <> t -> dget s (ddel t b) = dget s b.
Proof.
  intros N. apply Nat.eqb_neq in N. unfold ddel. induction b as [|[x w] r IH]; [reflexivity|]. cbn [filter fst].
  destruct (Nat.eqb t x) eqn:E; cbn [negb dget].
  - apply Nat.eqb_eq in E. subst x. rewrite N. exact IH.
  - rewrite IH. reflexivity.
Qed.

Lemma projev_app s a b : projev s (a ++ b) = projev s a ++ projev s b.
Proof.
  induction a as [|[t e] a IH]; [reflexivity|]. cbn [app projev]. destruct (Nat.eqb t s); rewrite IH; reflexivity.
Qed.

Lemma projev_tag s t evs : projev s (tag t evs) = if Nat.eqb t s then evs else [].
Proof.
  unfold tag. induction evs as [|e r IH]; cbn [map projev].
  - destruct (Nat.eqb t s); reflexivity.
  - rewrite IH. destruct (Nat.eqb t s); reflexivity.
Qed.

Lemma proj_app s a b : proj s (a ++ b) = proj s a ++ proj s b.
Proof.
  induction a as [|[t o|] r IH]; [reflexivity|cbn [app proj]; destruct (Nat.eqb t s)|cbn [app proj]];
    rewrite IH; reflexivity.
Qed.

Definition wf (m : srv) : Prop := NoDup (clients m) /\ NoDup (closeq m) /\ NoDup (writers m).

Lemma wf_with_buffers m b : wf m -> wf (with_buffers m b).
Proof. intros H. exact H. Qed.

Ltac tables := cbn [fst snd clients buffers closeq writers with_buffers].

(* the view of a socket other than the one operated on (N : s <> t): no table update touches its entries *)
Ltac other N :=
  unfold view; tables;
  rewrite ?(mem_remove1_neq _ _ _ N), ?(mem_add1_neq _ _ _ N), ?(dget_dset_neq _ _ _ _ N),
          ?(dget_ddel_neq _ _ _ N); reflexivity.

(* [r] is what an operation on socket t makes of the tables m: they stay well-formed, socket t makes the
   per-connection transition [q], every other socket keeps its state *)
Definition moves (m : srv) (t : nat) (r : srv * list ev) (q : state * list ev) : Prop :=
  wf (fst r) /\ (view (fst r) t, snd r) = q /\ forall s, s <> t -> view (fst r) s = view m s.

Lemma moves_stay m t evs q : wf m -> (view m t, evs) = q -> moves m t (m, evs) q.
Proof. intros W E. split; [exact W|]. split; [exact E|reflexivity]. Qed.

Lemma moves_from m0 m t r q : (forall s, s <> t -> view m0 s = view m s) -> moves m0 t r q -> moves m t r q.
Proof.
  intros F (A & B & C). split; [exact A|]. split; [exact B|]. intros s N. rewrite (C s N). exact (F s N).
Qed.

Lemma moves_pre m t r pre st x :
  moves m t r (st, x) -> moves m t (let '(m1, e1) := r in (m1, pre ++ e1)) (st, pre ++ x).
Proof.
  destruct r as [m1 e1]. intros (A & B & C). cbn [fst snd] in *. injection B as <- <-.
  split; [exact A|]. split; [reflexivity|exact C].
Qed.

Lemma s_close1_ref m t : wf m -> mem t (clients m) = true -> moves m t (s_close1 m t) (Closed empty, closing).
Proof.
  intros (W1 & W2 & W3) C. unfold s_close1. rewrite C. split; [|split].
  - exact (conj (NoDup_remove1 _ _ W1) (conj (NoDup_remove1 _ _ W2) (NoDup_remove1 _ _ W3))).
  - unfold view. tables. rewrite !mem_remove1_eq, dget_ddel_eq by assumption. reflexivity.
  - intros s N. other N.
Qed.

Lemma s_after_ref m t b evs :
  wf m -> mem t (clients m) = true -> mem t (writers m) = true -> dget t (buffers m) = b ->
  moves m t (s_after m t evs) (after_write {| buf := b; closereq := mem t (closeq m); writing := true |} evs).
Proof.
  intros W C Wr B. pose proof W as (W1 & W2 & W3). unfold s_after, after_write. cbn [buf closereq]. rewrite B.
  destruct b as [|d0 b0]; [destruct (mem t (closeq m)) eqn:Q|].
  - apply moves_pre.
    apply moves_from with (m0 := {| clients := clients m; buffers := buffers m; closeq := remove1 t (closeq m);
                                    writers := writers m |}); [intros s N; other N|].
    apply s_close1_ref; [exact (conj W1 (conj (NoDup_remove1 _ _ W2) W3))|exact C].
  - split; [exact (conj W1 (conj W2 (NoDup_remove1 _ _ W3)))|]. split; [|intros s N; other N].
    unfold view. tables. rewrite C, B, Q, mem_remove1_eq by exact W3. reflexivity.
  - apply moves_stay; [exact W|]. unfold view. rewrite C, B, Wr. reflexivity.
Qed.

Lemma s_after_set m t b evs : wf m -> mem t (clients m) = true -> mem t (writers m) = true ->
  moves m t (s_after (with_buffers m (dset t b (buffers m))) t evs)
        (after_write {| buf := b; closereq := mem t (closeq m); writing := true |} evs).
Proof.
  intros W C Wr. apply moves_from with (m0 := with_buffers m (dset t b (buffers m))); [intros s N; other N|].
  apply (s_after_ref (with_buffers m _)); [exact W|exact C|exact Wr|apply dget_dset_eq].
Qed.

Definition s_op (m : srv) (t : nat) (o : op) : srv * list ev :=
  match o with Write d => s_write m t d | Close => s_close m t | Tick oc => s_tick m t oc end.

Lemma s_op_ref m t o : wf m -> moves m t (s_op m t o) (step (fixed Server) (view m t) o).
Proof.
  intros W. pose proof W as (W1 & W2 & W3). destruct o as [d| |oc]; cbn [s_op].
  - unfold s_write. destruct (mem t (clients m)) eqn:C.
    + split; [exact (conj W1 (conj W2 (NoDup_add1 _ _ W3)))|]. split; [|intros s N; other N].
      unfold view. tables. rewrite C, dget_dset_eq, mem_add1_eq. reflexivity.
    + apply moves_stay; [exact W|]. unfold view. rewrite C. reflexivity.
  - unfold s_close. destruct (mem t (clients m)) eqn:C.
    2:{ apply moves_stay; [exact W|]. unfold view. rewrite C. reflexivity. }
    unfold view. rewrite C. cbn [step buf]. destruct (dget t (buffers m)) as [|d0 b0] eqn:B.
    + apply s_close1_ref; assumption.
    + split; [exact (conj W1 (conj (NoDup_add1 _ _ W2) W3))|]. split; [|intros s N; other N].
      unfold view. tables. rewrite C, B, mem_add1_eq. reflexivity.
  - unfold s_tick. destruct (mem t (writers m)) eqn:Wr; cbn [negb].
    2:{ apply moves_stay; [exact W|]. unfold view.
        destruct (mem t (clients m)); cbn [step]; [rewrite tick_idle by exact Wr|cbn [writing]; rewrite Wr];
          reflexivity. }
    destruct (mem t (clients m)) eqn:C; cbn [negb].
    2:{ apply moves_stay; [exact W|]. unfold view. rewrite C, Wr. reflexivity. }
    unfold view. rewrite C, Wr. cbn [step]. destruct (dget t (buffers m)) as [|d rest] eqn:B.
    + apply s_after_ref; assumption.
    + destruct oc as [kk|e].
      * rewrite (tick_accept _ kk _ d rest) by reflexivity. apply s_after_set; assumption.
      * rewrite (tick_refuse Server e _ d rest) by reflexivity. destruct (transient e).
        -- apply (s_after_set m t (d :: rest)); assumption.
        -- apply (moves_pre _ _ _ [SendErr d e; EvError]).
           apply moves_from with (m0 := with_buffers m (dset t rest (buffers m))); [intros s N; other N|].
           apply s_close1_ref; [exact W|exact C].
Qed.

Lemma run_single p st o : run p st [o] = step p st o.
Proof. cbn [run]. destruct (step p st o) as [st1 e1]. rewrite app_nil_r. reflexivity. Qed.

(* the refinement: the tables [r], reached from m by the operations ops, hold for every socket the state, and have
   produced for it the events, of its own per-connection model run on its share of ops *)
Definition follows (m : srv) (r : srv * list (nat * ev)) (ops : list mop) : Prop :=
  wf (fst r) /\ forall s, (view (fst r) s, projev s (snd r)) = run (fixed Server) (view m s) (proj s ops).

Lemma follows_app m m1 m2 e1 e2 a b :
  follows m (m1, e1) a -> follows m1 (m2, e2) b -> follows m (m2, e1 ++ e2) (a ++ b).
Proof.
  intros (_ & A) (W & B). split; [exact W|]. intros s. specialize (A s). specialize (B s). cbn [fst snd] in *.
  rewrite proj_app, run_app, <- A, <- B, projev_app. reflexivity.
Qed.

Lemma follows_on m t o r : moves m t r (step (fixed Server) (view m t) o) ->
  follows m (let '(m1, e) := r in (m1, tag t e)) [On t o].
Proof.
  destruct r as [m1 e]. intros (W & B & C). split; [exact W|]. intros s. cbn [fst snd proj] in *.
  rewrite projev_tag. destruct (Nat.eqb t s) eqn:E.
  - apply Nat.eqb_eq in E. subst s. rewrite run_single. exact B.
  - apply Nat.eqb_neq in E. rewrite C by congruence. reflexivity.
Qed.

Lemma mstep_on m t o : mstep m (On t o) = let '(m1, e) := s_op m t o in (m1, tag t e).
Proof. destruct o; reflexivity. Qed.

Lemma s_close_list_ref : forall l m, wf m -> follows m (s_close_list m l) (map (fun t => On t Close) l).
Proof.
  induction l as [|t r IH]; intros m W; cbn [s_close_list map].
  - split; [exact W|reflexivity].
  - pose proof (follows_on m t Close _ (s_op_ref m t Close W)) as O. cbn [s_op] in O.
    destruct (s_close m t) as [m1 e1]. specialize (IH m1 (proj1 O)). destruct (s_close_list m1 r) as [m2 e2].
    exact (follows_app _ _ _ _ _ [On t Close] _ O IH).
Qed.

Lemma proj_closes s l : NoDup l -> proj s (map (fun t => On t Close) l) = if mem s l then [Close] else [].
Proof.
  induction 1 as [|t r Ht Hr IH]; [reflexivity|]. cbn [map proj]. rewrite mem_cons, (Nat.eqb_sym s t), IH.
  destruct (Nat.eqb t s) eqn:E; [|reflexivity].
  apply Nat.eqb_eq in E. subst s. apply mem_notIn in Ht. rewrite Ht. reflexivity.
Qed.

Lemma mstep_ref m o : wf m -> follows m (mstep m o) [o].
Proof.
  intros W. destruct o as [t o|].
  - rewrite mstep_on. apply follows_on, s_op_ref, W.
  - destruct (s_close_list_ref (clients m) m W) as (L1 & L2). split; [exact L1|]. intros s. cbn [mstep proj].
    rewrite L2, (proj_closes s _ (proj1 W)). destruct (mem s (clients m)) eqn:C; [reflexivity|].
    (* a socket that is not connected ignores close() *)
    unfold view. rewrite C. reflexivity.
Qed.

Lemma server_follows : forall ops m, wf m -> follows m (mrun m ops) ops.
Proof.
  induction ops as [|o r IH]; intros m W; [split; [exact W|reflexivity]|].
  cbn [mrun]. pose proof (mstep_ref m o W) as R. destruct (mstep m o) as [m1 e1].
  specialize (IH m1 (proj1 R)). destruct (mrun m1 r) as [m2 e2]. exact (follows_app _ _ _ _ _ [o] r R IH).
Qed.

Lemma wf_fresh l : NoDup l -> wf (fresh l).
Proof. intros H. exact (conj H (conj (NoDup_nil _) (NoDup_nil _))). Qed.

Lemma view_fresh l s : In s l -> view (fresh l) s = init.
Proof. intros H. apply mem_In in H. unfold view, fresh. tables. rewrite H. reflexivity. Qed.

