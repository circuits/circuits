(* Proofs for the timer model (C09), in three parts.
   The monitor: what the acceptance of a history says about one timer (the monitor treats the timers separately).
   The refinement: every run of the model is accepted, and the specification state computed from the history is
   the abstraction of the concrete timer table.
   The removal: the two-stage unregistration of a timer that is not alive completes within two ticks. *)
From Coq Require Import List ZArith Bool Lia ZifyBool.
From Circ Require Import Lib.ListMem Lib.ListFacts Model.Timers.
Import ListNotations.
Open Scope Z_scope.

Lemma upd_length : forall A (l : list A) i f, length (upd l i f) = length l.
Proof. induction l; destruct i; simpl; intros; auto. Qed.

Lemma nth_error_upd : forall A (l : list A) i j f,
  nth_error (upd l j f) i = if Nat.eqb i j then option_map f (nth_error l i) else nth_error l i.
Proof. induction l; destruct i, j; simpl; auto. destruct (Nat.eqb i j); auto. Qed.

Lemma nth_error_upd_some : forall A (l : list A) i j f x,
  nth_error l i = Some x -> nth_error (upd l j f) i = Some (if Nat.eqb i j then f x else x).
Proof. intros. rewrite nth_error_upd, H. destruct (Nat.eqb i j); reflexivity. Qed.

Lemma nth_error_upd_same : forall A (l : list A) i f x,
  nth_error l i = Some x -> nth_error (upd l i f) i = Some (f x).
Proof. intros. rewrite (nth_error_upd_some _ _ _ _ _ _ H), Nat.eqb_refl. reflexivity. Qed.

Lemma upd_none : forall A (l : list A) i f, nth_error l i = None -> upd l i f = l.
Proof. induction l; destruct i; simpl; intros; try discriminate; auto. f_equal; auto. Qed.

Lemma upd_id : forall A (l : list A) i f x, nth_error l i = Some x -> f x = x -> upd l i f = l.
Proof.
  induction l; destruct i; simpl; intros; try discriminate; auto.
  - inversion H; subst. rewrite H0. auto.
  - f_equal. eauto.
Qed.

Lemma map_upd_at : forall A B (g : A -> B) (f : A -> A) (f' : B -> B) (l : list A) i x,
  nth_error l i = Some x -> g (f x) = f' (g x) -> map g (upd l i f) = upd (map g l) i f'.
Proof.
  induction l; destruct i; simpl; intros; try discriminate.
  - inversion H; subst. rewrite H0. auto.
  - f_equal. eauto.
Qed.

Lemma map_upd : forall A B (g : A -> B) (f : A -> A) (f' : B -> B) (l : list A) i,
  (forall x, g (f x) = f' (g x)) -> map g (upd l i f) = upd (map g l) i f'.
Proof.
  intros. destruct (nth_error l i) eqn:E.
  - eapply map_upd_at; eauto.
  - rewrite !upd_none; auto. rewrite nth_error_map, E. reflexivity.
Qed.

Lemma map_upd_same : forall A B (g : A -> B) (f : A -> A) (l : list A) i,
  (forall x, g (f x) = g x) -> map g (upd l i f) = map g l.
Proof. induction l; destruct i; simpl; intros; auto; f_equal; auto. Qed.

Lemma memb_In : forall x l, memb x l = true <-> In x l.
Proof. intros. apply existsb_eqb_In. Qed.

Lemma nodupb_NoDup : forall l, nodupb l = true <-> NoDup l.
Proof.
  induction l; simpl.
  - split; auto. constructor.
  - rewrite andb_true_iff, negb_true_iff, IHl. unfold memb. rewrite existsb_eqb_notIn. split.
    + intros [M N]. constructor; auto.
    + intros N. inversion N; subst. split; auto.
Qed.

Definition touches (i : nat) (r : lrec) : bool :=
  match r with
  | LReset j _ _ => Nat.eqb i j
  | LUnreq j _ => Nat.eqb i j
  | LRereg j _ => Nat.eqb i j
  | LIter _ fired _ => memb i fired
  | _ => false
  end.

Definition is_rereg (i : nat) (r : lrec) : bool :=
  match r with LRereg j _ => Nat.eqb i j | _ => false end.

(* [mon_step] seen from timer i alone: what the record r makes of the monitor's entry x for it ([step_nth]) *)
Definition eff (i : nat) (r : lrec) (x : stimer) : stimer :=
  if touches i r then
    match r with
    | LReset _ t niv => s_rearm t niv x
    | LUnreq _ _ => s_kill x
    | LRereg _ _ => s_revive x
    | LIter t _ _ => s_fired t x
    | _ => x
    end
  else x.

Lemma fire_ok_iff : forall ms t i, fire_ok ms t i = true <->
  exists x, nth_error ms i = Some x /\ s_alive x = true /\ s_t0 x + s_iv x <= t.
Proof.
  intros. unfold fire_ok, s_exp. split.
  - destruct (nth_error ms i) as [x|]; try discriminate. exists x. repeat split; auto; lia.
  - intros [x [N [A L]]]. rewrite N. lia.
Qed.

Lemma sdue_from_In : forall t ms k i,
  In i (sdue_from t k ms) <-> exists j, i = (k + j)%nat /\ fire_ok ms t j = true.
Proof.
  induction ms as [|a ms IH]; simpl; intros.
  - split; [tauto|]. intros [[|j] [_ H]]; discriminate.
  - split.
    + intros H.
      assert (H' : (fire_ok (a :: ms) t 0 = true /\ k = i) \/ In i (sdue_from t (S k) ms)).
      { unfold fire_ok. simpl. destruct (s_alive a && (s_exp a <=? t)); simpl in H; tauto. }
      destruct H' as [[E <-] | H'].
      * exists O. split; [lia | exact E].
      * apply IH in H' as [j [-> H']]. exists (S j). split; [lia | exact H'].
    + intros [[|j] [-> H]].
      * unfold fire_ok in H. simpl in H. rewrite H. left. lia.
      * assert (In (k + S j)%nat (sdue_from t (S k) ms)) by (apply IH; exists j; split; [lia | exact H]).
        destruct (s_alive a && (s_exp a <=? t)); simpl; auto.
Qed.

Lemma sdue_from_NoDup : forall t ms k, NoDup (sdue_from t k ms).
Proof.
  induction ms; simpl; intros. constructor.
  destruct (s_alive a && (s_exp a <=? t)); auto.
  constructor; auto. rewrite sdue_from_In. intros [j [H _]]. lia.
Qed.

Lemma sdue_fire_ok : forall t ms i, In i (sdue_from t 0 ms) <-> fire_ok ms t i = true.
Proof.
  intros. rewrite sdue_from_In. split.
  - intros [j [-> H]]. exact H.
  - intros. exists i. auto.
Qed.

Lemma mon_run_app : forall num den a b ms,
  mon_run num den ms (a ++ b) =
  match mon_run num den ms a with Some m => mon_run num den m b | None => None end.
Proof.
  induction a; simpl; intros; auto. destruct (mon_step num den ms a); auto.
Qed.

Section Mon.
Context {num den : Z}.

Lemma accepted_split : forall pre r post ms0 m,
  mon_run num den ms0 (pre ++ r :: post) = Some m ->
  exists ms ms', mon_run num den ms0 pre = Some ms /\ mon_step num den ms r = Some ms' /\
                 mon_run num den ms' post = Some m.
Proof.
  intros. rewrite mon_run_app in H. destruct (mon_run num den ms0 pre) eqn:E; try discriminate.
  simpl in H. destruct (mon_step num den l r) eqn:E2; try discriminate. eauto.
Qed.

Lemma iter_iff : forall ms t fired w ms', mon_step num den ms (LIter t fired w) = Some ms' <->
  (NoDup fired /\ (forall i, In i fired <-> fire_ok ms t i = true) /\
   match w with None => True | Some w' => fired = [] /\ wait_ok num den ms t w' = true end) /\
  ms' = fold_left (fun m i => upd m i (s_fired t)) fired ms.
Proof.
  intros. simpl. set (c := _ && _ && _ && _).
  transitivity (c = true /\ ms' = fold_left (fun m i => upd m i (s_fired t)) fired ms).
  { destruct c; split; intros H; try discriminate.
    - inversion H. auto.
    - destruct H as [_ ->]. auto.
    - destruct H. discriminate. }
  apply and_iff_compat_r. subst c. rewrite !andb_true_iff, !forallb_forall, nodupb_NoDup. split.
  - intros [[[ND F1] F2] W]. split; auto. split.
    + intros i. split; auto. intros. apply memb_In, F2, sdue_fire_ok. auto.
    + destruct w; auto. destruct fired; [auto | discriminate].
  - intros [ND [F W]]. repeat split; auto.
    + intros i Hi. apply F. auto.
    + intros i Hi. apply memb_In, F, sdue_fire_ok. auto.
    + destruct w; auto. destruct W as [-> W]. auto.
Qed.

Lemma fired_due {ms t fired w ms'} i : mon_step num den ms (LIter t fired w) = Some ms' ->
  (In i fired <-> exists x, nth_error ms i = Some x /\ s_alive x = true /\ s_t0 x + s_iv x <= t).
Proof. intros H. apply iter_iff in H as [[_ [H _]] _]. rewrite H. apply fire_ok_iff. Qed.

Lemma wait_ok_nth {ms t w i x} : wait_ok num den ms t w = true ->
  nth_error ms i = Some x -> s_alive x = true ->
  exists d, dur num den w = Some d /\ t + d <= s_t0 x + s_iv x.
Proof.
  unfold wait_ok. intros W N A. rewrite forallb_forall in W.
  apply nth_error_In in N. specialize (W x N). rewrite A in W. simpl in W.
  destruct (dur num den w) as [d|]; try discriminate. exists d. unfold s_exp in W. split; auto. lia.
Qed.

Lemma fold_upd_nth : forall A (f : A -> A) fired ms i x, NoDup fired -> nth_error ms i = Some x ->
  nth_error (fold_left (fun m j => upd m j f) fired ms) i = Some (if memb i fired then f x else x).
Proof.
  induction fired as [|a fired IH]; simpl; intros ms i x ND N; auto. inversion ND; subst.
  rewrite (IH _ _ _ H2 (nth_error_upd_some _ _ _ a f _ N)).
  destruct (Nat.eqb i a) eqn:E; auto. apply Nat.eqb_eq in E. subst a.
  destruct (memb i fired) eqn:M; auto. apply memb_In in M. contradiction.
Qed.

Lemma step_nth {ms r ms'} i x : mon_step num den ms r = Some ms' -> nth_error ms i = Some x ->
  nth_error ms' i = Some (eff i r x).
Proof.
  intros H N. unfold eff. destruct r; simpl.
  - simpl in H. destruct (match dl with Some d => t + iv =? floorsec d | None => true end); inversion H.
    apply nth_error_app_l. auto.
  - simpl in H. destruct (nth_error ms i0); inversion H. apply nth_error_upd_some. auto.
  - simpl in H. destruct (nth_error ms i0); inversion H. apply nth_error_upd_some. auto.
  - apply iter_iff in H as [[ND _] ->]. apply fold_upd_nth; auto.
  - inversion H; subst. auto.
  - simpl in H. destruct (nth_error ms i0); inversion H. apply nth_error_upd_some. auto.
Qed.

Lemma create_state {ms t iv p dl ms'} : mon_step num den ms (LCreate t iv p dl) = Some ms' ->
  nth_error ms' (length ms) = Some (mkS t iv p true) /\
  match dl with Some d => t + iv = floorsec d | None => True end.
Proof.
  simpl. intros. destruct (match dl with Some d => t + iv =? floorsec d | None => true end) eqn:E; inversion H.
  split.
  - rewrite nth_error_app2, Nat.sub_diag by lia. reflexivity.
  - destruct dl; auto. lia.
Qed.

Lemma eff_untouched : forall i r x, touches i r = false -> eff i r x = x.
Proof. intros i r x T. unfold eff. rewrite T. reflexivity. Qed.

Lemma eff_dead : forall i r x, is_rereg i r = false -> s_alive x = false -> s_alive (eff i r x) = false.
Proof.
  intros i r x RR A. unfold eff. destruct (touches i r) eqn:T; auto. destruct r; simpl in *; auto; try congruence.
  unfold s_fired. destruct (s_p x); auto.
Qed.

(* what the monitor knows of timer i, in state x before the records l, after them *)
Definition track (i : nat) (l : list lrec) (x : stimer) : stimer := fold_left (fun y r => eff i r y) l x.

Lemma track_untouched i l x : (forall r, In r l -> touches i r = false) -> track i l x = x.
Proof. induction l as [|r l IH]; simpl; intros T; auto. rewrite eff_untouched; auto. Qed.

Lemma track_dead i l : forall x, (forall r, In r l -> is_rereg i r = false) -> s_alive x = false ->
  s_alive (track i l x) = false.
Proof. induction l as [|r l IH]; simpl; intros x RR A; auto. apply IH; auto. apply eff_dead; auto. Qed.

Lemma run_nth {l} : forall {ms ms' i x}, mon_run num den ms l = Some ms' -> nth_error ms i = Some x ->
  nth_error ms' i = Some (track i l x).
Proof.
  induction l as [|r l IH]; simpl; intros ms ms' i x H N. { inversion H; subst; auto. }
  destruct (mon_step num den ms r) as [ms1|] eqn:E; try discriminate.
  exact (IH _ _ _ _ H (step_nth i x E N)).
Qed.

(* the core of C09_first_firing, C09_reset, C09_persistent_gap (left to right, over a stretch that does not touch
   the timer), of C09_oneshot_once and C09_unregistered_silent (left to right, over a stretch that does not register it
   again) and of C09_due_fires (right to left, with mid = []): timer i, in state x before mid, fires in the iteration
   after mid iff its state then is alive and due *)
Theorem iter_track {mid t fired w post ms m i x} :
  mon_run num den ms (mid ++ LIter t fired w :: post) = Some m -> nth_error ms i = Some x ->
  (In i fired <-> s_alive (track i mid x) = true /\ s_exp (track i mid x) <= t).
Proof.
  intros H N. apply accepted_split in H as [ma [mb [A [B _]]]].
  apply iter_iff in B as [[_ [B _]] _]. rewrite B. unfold fire_ok. rewrite (run_nth A N). lia.
Qed.

End Mon.

Lemma abs_set_pend : forall x, abs (t_set_pend x) = s_kill (abs x).
Proof. intros. unfold abs, t_set_pend, s_kill. simpl. rewrite andb_false_r. auto. Qed.

Lemma abs_removed : forall x, abs (t_removed x) = abs x.
Proof.
  intros. unfold t_removed. destruct (t_pend x) eqn:E; auto.
  unfold abs. simpl. rewrite E. simpl. rewrite andb_false_r. auto.
Qed.

Lemma abs_rereg : forall x, abs (t_rereg x) = s_revive (abs x).
Proof. intros. reflexivity. Qed.

Lemma abs_reset : forall nw niv x, abs (t_reset nw niv x) = s_rearm nw niv (abs x).
Proof. intros. unfold abs, t_reset, s_rearm. simpl. f_equal. destruct niv; lia. Qed.

(* unregister() kills the timer in the specification's eyes; f' stands for any update that does the same there *)
Lemma unregister_abs : forall s i tm f', nth_error (timers s) i = Some tm -> f' (abs tm) = s_kill (abs tm) ->
  map abs (timers (unregister s i)) = upd (map abs (timers s)) i f'.
Proof.
  intros. unfold unregister. rewrite H.
  destruct (t_reg tm && negb (t_pend tm)) eqn:E.
  - simpl. eapply map_upd_at; eauto. rewrite abs_set_pend. auto.
  - symmetry. eapply upd_id. { rewrite nth_error_map, H. reflexivity. }
    rewrite H0. unfold s_kill, abs. simpl. rewrite E. auto.
Qed.

Lemma unregister_rlog : forall s i, rlog (unregister s i) = rlog s.
Proof. intros. unfold unregister. destruct (nth_error (timers s) i); auto. destruct (_ && _); auto. Qed.
Lemma unregister_now : forall s i, now (unregister s i) = now s.
Proof. intros. unfold unregister. destruct (nth_error (timers s) i); auto. destruct (_ && _); auto. Qed.

Lemma is_due_abs : forall nw tm, is_due nw tm = s_alive (abs tm) && (s_exp (abs tm) <=? nw).
Proof.
  intros. unfold is_due, abs, s_exp. simpl.
  replace (t_exp tm - t_int tm + t_int tm) with (t_exp tm) by lia. auto.
Qed.

Lemma due_from_abs : forall nw l k, due_from nw k l = sdue_from nw k (map abs l).
Proof. induction l; simpl; intros; auto. rewrite is_due_abs. rewrite !IHl. auto. Qed.

Lemma due_from_nil : forall nw l k tm, due_from nw k l = [] -> In tm l -> is_due nw tm = false.
Proof.
  induction l as [|a l IH]; simpl; intros k tm H I. { tauto. }
  destruct (is_due nw a) eqn:E; try discriminate. destruct I as [<- | I]; eauto.
Qed.

Lemma reorder_spec : forall sch due due' sch', reorder sch due = (due', sch') -> NoDup due ->
  (forall x, In x due' <-> In x due) /\ NoDup due'.
Proof.
  unfold reorder. intros sch due due' sch' H ND.
  destruct (forallb (fun x => memb x (firstn (length due) sch)) due &&
            forallb (fun x => memb x due) (firstn (length due) sch) &&
            nodupb (firstn (length due) sch)) eqn:E; inversion H; subst; clear H.
  - rewrite !andb_true_iff, !forallb_forall, nodupb_NoDup in E. destruct E as [[E1 E2] E3].
    split; auto. intros x. split; intros Hx; apply memb_In; auto.
  - split; [tauto | auto].
Qed.

Lemma fire_timer_abs : forall s i,
  map abs (timers (fire_timer s i)) = upd (map abs (timers s)) i (s_fired (now s))
  /\ rlog (fire_timer s i) = rlog s /\ now (fire_timer s i) = now s.
Proof.
  intros. unfold fire_timer. destruct (nth_error (timers s) i) eqn:E.
  - destruct (t_persist t) eqn:P.
    + simpl. repeat split; auto. eapply map_upd_at; eauto.
      rewrite abs_reset. unfold s_fired. simpl. rewrite P. auto.
    + rewrite unregister_rlog, unregister_now. simpl. repeat split; auto.
      apply (unregister_abs (push_ev s (ETimer i)) i t); auto. unfold s_fired. simpl. rewrite P. auto.
  - repeat split; auto. symmetry. apply upd_none. rewrite nth_error_map, E. auto.
Qed.

Lemma fire_fold_abs : forall l s,
  map abs (timers (fold_left fire_timer l s)) =
    fold_left (fun m i => upd m i (s_fired (now s))) l (map abs (timers s))
  /\ rlog (fold_left fire_timer l s) = rlog s.
Proof.
  induction l; simpl; intros; auto.
  destruct (fire_timer_abs s a) as [H1 [H2 H3]].
  destruct (IHl (fire_timer s a)) as [I1 I2].
  rewrite I1, I2, H1, H2, H3. auto.
Qed.

Lemma idle_wait_same : forall s d, timers (idle_wait s d) = timers s /\ rlog (idle_wait s d) = rlog s.
Proof.
  intros. unfold idle_wait. destruct (stims s) as [|[[a b] c] r]; destruct d; simpl; auto.
  destruct (a <? now s + z); simpl; auto.
Qed.

Definition gen_budget (s : st) (more : bool) : tlv :=
  if more || negb match queue s with [] => true | _ => false end then Fin 0
  else match tasks s with [] => Inf | _ => Tmo end.

Definition gen_wait (tl : tlv) : option tlv :=
  match tl with Fin d => if d <=? 0 then None else Some tl | _ => Some tl end.

(* do_gen: the due timers fire in the recorded order, the iteration is logged, then the loop waits (or not) *)
Lemma do_gen_eq : forall p s more due sch', reorder (sched s) (due_from (now s) 0 (timers s)) = (due, sch') ->
  let w := gen_wait (reduce_all (p_tmo_num p) (p_tmo_den p) (now s) (timers s)
                       match due with [] => gen_budget s more | _ => Fin 0 end) in
  let s1 := add_log (fold_left fire_timer due (set_sched s sch')) (LIter (now s) due w) in
  do_gen p s more = match w with Some w' => idle_wait s1 (dur (p_tmo_num p) (p_tmo_den p) w') | None => s1 end.
Proof.
  intros p s more due sch' E. unfold do_gen, gen_budget. rewrite E.
  destruct (reduce_all _ _ _ _ _) as [|d|]; simpl; try reflexivity. destruct (d <=? 0); reflexivity.
Qed.

Lemma gen_wait_some : forall tl w, gen_wait tl = Some w -> w = tl.
Proof. intros [|d|] w; simpl; try congruence. destruct (d <=? 0); congruence. Qed.

Section Refine.
Variables num den : Z.
Hypothesis Hden : 0 < den.

(* the invariant of the refinement part: every operation of the model keeps it (the _R lemmas below), and
   [run_conforms] is what it says at the end of a run *)
Definition R (s : st) : Prop := mon_run num den [] (history s) = Some (map abs (timers s)).

Lemma R_nolog : forall s s', timers s' = timers s -> rlog s' = rlog s -> R s -> R s'.
Proof. unfold R, history. intros. rewrite H, H0. auto. Qed.

Lemma R_log : forall s s' r, R s -> rlog s' = r :: rlog s ->
  mon_step num den (map abs (timers s)) r = Some (map abs (timers s')) -> R s'.
Proof.
  unfold R, history. intros. rewrite H0. simpl. rewrite mon_run_app, H. simpl. rewrite H1. auto.
Qed.

Lemma create_R : forall s iv p dl, R s ->
  match dl with Some d => now s + iv = floorsec d | None => True end -> R (create s iv p dl).
Proof.
  intros. eapply R_log; eauto. reflexivity. simpl.
  assert (E : match dl with Some d => now s + iv =? floorsec d | None => true end = true).
  { destruct dl; auto. lia. }
  rewrite E. f_equal. rewrite map_app. simpl. f_equal. unfold abs. simpl. f_equal. f_equal. lia.
Qed.

Lemma reset_R : forall s i niv, R s ->
  R match nth_error (timers s) i with
    | Some _ => add_log (set_timers s (upd (timers s) i (t_reset (now s) niv))) (LReset i (now s) niv)
    | None => s end.
Proof.
  intros. destruct (nth_error (timers s) i) eqn:E; auto.
  eapply R_log; eauto. reflexivity. simpl. rewrite nth_error_map, E. simpl. f_equal.
  symmetry. apply map_upd, abs_reset.
Qed.

Lemma do_op_R : forall o s, R s -> R (do_op s o).
Proof.
  intros o s H. destruct o; simpl.
  - apply create_R; auto.
  - apply create_R; auto. lia.
  - apply reset_R; auto.
  - apply reset_R; auto.
  - destruct (nth_error (timers s) i) eqn:E; auto.
    eapply R_log; eauto. simpl. rewrite unregister_rlog. reflexivity.
    simpl. rewrite nth_error_map, E. simpl. f_equal. symmetry. eapply unregister_abs; eauto.
  - eapply R_nolog; eauto.
  - eapply R_nolog; eauto.
  - destruct (nth_error (timers s) i) eqn:E; auto.
    destruct (negb (t_reg t) && negb (t_pend t)); auto.
    eapply R_log; eauto. reflexivity. simpl. rewrite nth_error_map, E. simpl. f_equal.
    symmetry. apply map_upd, abs_rereg.
Qed.

Lemma do_ops_R : forall l s, R s -> R (do_ops s l).
Proof. unfold do_ops. induction l; simpl; intros; auto. apply IHl. apply do_op_R; auto. Qed.

(* the budget c allows a wait of at most v *)
Definition tl_le (c : tlv) (v : Z) : Prop :=
  match c with Fin d => d <= v | Tmo => num <= v * den | Inf => False end.

(* reduce_time_left(v) keeps every bound the budget met before, and meets the bound v *)
Lemma reduce_tl_le : forall c v w, tl_le c w \/ 0 <= v <= w -> tl_le (reduce num den c v) w.
Proof.
  intros c v w H. unfold reduce. destruct (v <? 0) eqn:E. { destruct H; [auto | lia]. }
  destruct c; simpl in *.
  - lia.
  - destruct (v <? d) eqn:E1; simpl; lia.
  - destruct (v * den <? num) eqn:E1; simpl; nia.
Qed.

Lemma reduce_all_mono : forall nw l c w, tl_le c w -> tl_le (reduce_all num den nw l c) w.
Proof.
  unfold reduce_all. induction l; simpl; intros; auto.
  apply IHl. destruct (t_reg a && (nw <? t_exp a)); auto. apply reduce_tl_le; auto.
Qed.

Lemma reduce_all_le : forall nw l c tm, In tm l -> t_reg tm = true -> nw < t_exp tm ->
  tl_le (reduce_all num den nw l c) (t_exp tm - nw).
Proof.
  unfold reduce_all. induction l; simpl; intros c tm I Rg L. { tauto. }
  destruct I as [<- | I]; auto.
  assert (E : t_reg a && (nw <? t_exp a) = true) by lia. rewrite E.
  apply reduce_all_mono, reduce_tl_le. lia.
Qed.

Lemma reduce_all_zero : forall nw l, reduce_all num den nw l (Fin 0) = Fin 0.
Proof.
  unfold reduce_all. induction l; simpl; auto.
  destruct (t_reg a && (nw <? t_exp a)); auto.
  assert (E : reduce num den (Fin 0) (t_exp a - nw) = Fin 0).
  { unfold reduce. destruct (t_exp a - nw <? 0); auto. }
  rewrite E. auto.
Qed.

Lemma ceil_div_le : forall v, num <= v * den -> ceil_div num den <= v.
Proof.
  intros. unfold ceil_div. assert ((num + den - 1) / den < v + 1); [|lia].
  apply Z.div_lt_upper_bound; auto. nia.
Qed.

Lemma tl_le_dur : forall w v, tl_le w v -> exists d, dur num den w = Some d /\ d <= v.
Proof.
  intros. destruct w; simpl in *; try tauto; eexists; split; eauto. apply ceil_div_le; auto.
Qed.

(* the sleep bound inside one iteration: when no timer is due, the budget left by the timers' handlers does not
   pass the expiry of an alive timer, whatever it was before *)
Lemma wait_ok_reduce_all : forall nw l c, due_from nw 0 l = [] ->
  wait_ok num den (map abs l) nw (reduce_all num den nw l c) = true.
Proof.
  intros nw l c Hdue. unfold wait_ok. apply forallb_forall. intros x Hx.
  apply in_map_iff in Hx as [tm [<- Hin]]. pose proof (due_from_nil _ _ _ _ Hdue Hin) as D.
  unfold is_due in D. unfold abs at 1. simpl. destruct (t_reg tm && negb (t_pend tm)) eqn:A; auto. simpl.
  destruct (tl_le_dur (reduce_all num den nw l c) (t_exp tm - nw)) as [d [E L]].
  { apply reduce_all_le; auto; lia. }
  rewrite E. unfold abs, s_exp. simpl. lia.
Qed.

End Refine.

Lemma run_inv (P : st -> Prop) p : (forall s, P s -> P (tick p s)) -> forall n s, P s -> P (fst (run p s n)).
Proof.
  intros K. induction n; simpl; intros s H; auto.
  destruct (halted s); auto.
  pose proof (IHn (tick p s) (K s H)). destruct (run p (tick p s) n). auto.
Qed.

Section Run.
Variable p : prog.
Hypothesis Hden : 0 < p_tmo_den p.
Let num := p_tmo_num p.
Let den := p_tmo_den p.
Let RR := R num den.

Lemma do_gen_R : forall s more, RR s -> RR (do_gen p s more).
Proof.
  intros s more HR.
  destruct (reorder (sched s) (due_from (now s) 0 (timers s))) as [due sch'] eqn:RE.
  rewrite (do_gen_eq p s more due sch' RE). cbv zeta. fold num den.
  apply reorder_spec in RE as [IFF ND]; [|rewrite due_from_abs; apply sdue_from_NoDup].
  set (w := gen_wait _).
  assert (R1 : RR (add_log (fold_left fire_timer due (set_sched s sch')) (LIter (now s) due w))).
  { destruct (fire_fold_abs due (set_sched s sch')) as [F1 F2]. simpl in F1.
    eapply R_log; eauto. { simpl. rewrite F2. reflexivity. }
    simpl timers. rewrite F1. apply iter_iff. split; auto. split; auto. split.
    - intros i. rewrite IFF, due_from_abs. apply sdue_fire_ok.
    - subst w. destruct due as [|x due'].
      + destruct (gen_wait _) as [w'|] eqn:G; auto. split; auto.
        apply gen_wait_some in G. subst w'. apply wait_ok_reduce_all; auto.
        destruct (due_from (now s) 0 (timers s)) as [|j r]; auto. destruct (proj2 (IFF j)). left. auto.
      + rewrite reduce_all_zero. exact I. }
  destruct w; auto. eapply R_nolog; [ | | exact R1]; apply idle_wait_same.
Qed.

Lemma dispatch_R : forall s e more, RR s -> RR (dispatch p s e more).
Proof.
  intros s e more H. destruct e; simpl.
  - apply do_gen_R; auto.
  - apply do_ops_R. eapply R_log; eauto; reflexivity.
  - apply do_ops_R; auto.
  - eapply R_nolog; eauto.
  - auto.
  - eapply R_nolog; eauto.
  - unfold RR, R, history in *. simpl. rewrite map_upd_same; auto. apply abs_removed.
Qed.

Lemma flush_R : forall batch s, RR s -> RR (flush p s batch).
Proof. induction batch; simpl; intros; auto. apply IHbatch. apply dispatch_R; auto. Qed.

Lemma run_steps_R : forall l s id, RR s -> RR (fst (run_steps s l id)).
Proof.
  induction l; simpl; intros; auto. destruct a; simpl; auto. apply IHl. apply do_ops_R; auto.
Qed.

Lemma step_tasks_R : forall l s acc, RR s -> RR (fst (step_tasks s l acc)).
Proof.
  induction l; simpl; intros; auto.
  assert (H0 : RR (fst (step_task s a))).
  { unfold step_task. destruct (k_sleep a). destruct (z <=? now s); auto. apply run_steps_R; auto. }
  destruct (step_task s a) as [s1 k1]. apply IHl. auto.
Qed.

Lemma deliver_due_R : forall l s, RR s -> RR (deliver_due s l).
Proof.
  induction l as [|[[a b] c] l IH]; simpl; intros.
  - eapply R_nolog; eauto.
  - destruct (a <=? now s).
    + apply IH. eapply R_nolog; eauto.
    + eapply R_nolog; eauto.
Qed.

Lemma tick_R : forall s, RR s -> RR (tick p s).
Proof.
  intros. unfold tick.
  pose proof (deliver_due_R (stims s) s H) as H0.
  set (s0 := deliver_due s (stims s)) in *.
  destruct (reorder (tsched s0) (map k_id (tasks s0))) as [ord tsch'].
  assert (H1 : RR (set_tsched (set_tasks s0 []) tsch')) by (eapply R_nolog; eauto).
  pose proof (step_tasks_R (pick_tasks (tasks s0) ord) _ [] H1) as H2.
  destruct (step_tasks (set_tsched (set_tasks s0 []) tsch') (pick_tasks (tasks s0) ord) []) as [s1 alive]. simpl in H2.
  apply flush_R. eapply R_nolog; eauto.
Qed.

Theorem run_conforms : forall t0 sts sch tsch n,
  let s := fst (run p (init t0 sts sch tsch) n) in
  spec_after p (history s) = Some (map abs (timers s)).
Proof. intros. apply (run_inv _ p tick_R). reflexivity. Qed.

Lemma run_split : forall t0 sts sch tsch n pre r post,
  let s := fst (run p (init t0 sts sch tsch) n) in
  history s = pre ++ r :: post ->
  exists ms ms', spec_after p pre = Some ms /\ mon_step num den ms r = Some ms' /\
                 mon_run num den ms' post = Some (map abs (timers s)).
Proof.
  intros. apply accepted_split. rewrite <- H. apply run_conforms.
Qed.

(* the rest of a run's history, from the specification's state after a prefix of it *)
Lemma run_from {t0 sts sch tsch n pre l ms} :
  let s := fst (run p (init t0 sts sch tsch) n) in
  history s = pre ++ l -> spec_after p pre = Some ms ->
  mon_run num den ms l = Some (map abs (timers s)).
Proof.
  intros s H S. pose proof (run_conforms t0 sts sch tsch n) as C. fold s in C.
  unfold spec_after in *. rewrite H, mon_run_app, S in C. exact C.
Qed.

End Run.

(* unregister() has two stages: _unregister_pending set and prepare_unregister queued, then out of the tree with the
   flag cleared ([gone]); [pg]: the first is taken (kept while nothing registers the timer again: [xt]) *)
Definition gone (tm : timer) : Prop := t_reg tm = false /\ t_pend tm = false.
Definition pg (tm : timer) : Prop := t_pend tm = true \/ gone tm.

(* the program never registers timer i again *)
Definition op_rr (i : nat) (o : op) : bool := match o with OReReg j => Nat.eqb i j | _ => false end.
Definition ops_ok (i : nat) (l : list op) : Prop := forall o, In o l -> op_rr i o = false.
Definition steps_ok (i : nat) (l : list gstep) : Prop := forall o, In (GOps o) l -> ops_ok i o.
Definition prog_ok (i : nat) (p : prog) : Prop :=
  (forall l, In l (p_ops p) -> ops_ok i l) /\ (forall l, In l (p_onfire p) -> ops_ok i l) /\
  (forall l, In l (p_gs p) -> steps_ok i l).
Definition tasks_ok (i : nat) (s : st) : Prop := forall k, In k (tasks s) -> steps_ok i (k_steps k).

Lemma script_ok : forall A (tbl : list (list A)) k (P : list A -> Prop), P [] -> (forall l, In l tbl -> P l) -> P (script tbl k).
Proof.
  intros. unfold script. destruct (nth_error tbl k) eqn:E; auto. apply H0. eapply nth_error_In; eauto.
Qed.

Definition PG (s : st) (i : nat) : Prop := exists tm, nth_error (timers s) i = Some tm /\ pg tm.
Definition Gone (s : st) (i : nat) : Prop := exists tm, nth_error (timers s) i = Some tm /\ gone tm.

(* for the "queued events stay queued" conjunct of [xt]: [push_ev] appends *)
Local Hint Resolve in_or_app : core.

Section Removal.
Variables (i : nat) (p : prog).
Hypothesis OK : prog_ok i p.

(* how a step may change the state, as far as the removal of timer i goes: timer i stays pending-or-gone, and gone;
   queued events stay queued; a pending flag is new only together with its prepare_unregister; the tasks keep
   running steps that do not register timer i *)
Definition xt (s s' : st) : Prop :=
  (forall tm, nth_error (timers s) i = Some tm ->
     exists tm', nth_error (timers s') i = Some tm' /\ (pg tm -> pg tm') /\ (gone tm -> gone tm')) /\
  (forall e, In e (queue s) -> In e (queue s')) /\
  (forall j tm', nth_error (timers s') j = Some tm' -> t_pend tm' = true ->
     (exists tm, nth_error (timers s) j = Some tm /\ t_pend tm = true) \/ In (EPrep j) (queue s')) /\
  (tasks_ok i s -> tasks_ok i s').

Lemma xt_refl : forall s, xt s s.
Proof. intros. repeat split; eauto. Qed.

Lemma xt_trans : forall a b c, xt a b -> xt b c -> xt a c.
Proof.
  intros a b c [A1 [A2 [A3 A4]]] [B1 [B2 [B3 B4]]]. repeat split; auto.
  - intros tm H. destruct (A1 tm H) as [tm1 [N1 [P1 G1]]]. destruct (B1 tm1 N1) as [tm2 [N2 [P2 G2]]].
    exists tm2. auto.
  - intros j tm' N P. destruct (B3 j tm' N P) as [[tm1 [N1 P1]] | H]; auto.
    destruct (A3 j tm1 N1 P1) as [H | H]; auto.
Qed.

Lemma xt_same : forall s s', timers s' = timers s -> (forall e, In e (queue s) -> In e (queue s')) ->
  (tasks_ok i s -> tasks_ok i s') -> xt s s'.
Proof. intros. repeat split; auto; intros; rewrite H in *; eauto. Qed.

Lemma xt_upd_at : forall s s' k f, timers s' = upd (timers s) k f -> tasks s' = tasks s ->
  (forall e, In e (queue s) -> In e (queue s')) ->
  (forall tm, nth_error (timers s) k = Some tm ->
     (k = i -> (pg tm -> pg (f tm)) /\ (gone tm -> gone (f tm))) /\
     (t_pend (f tm) = true -> t_pend tm = true \/ In (EPrep k) (queue s'))) ->
  xt s s'.
Proof.
  intros s s' k f T K Q H. repeat split; auto.
  - intros tm N. rewrite T, nth_error_upd, N. destruct (Nat.eqb i k) eqn:E; simpl; eauto.
    apply Nat.eqb_eq in E. subst k. exists (f tm). destruct (H tm N) as [H1 _]. destruct (H1 eq_refl). auto.
  - intros j tm' N P. rewrite T, nth_error_upd in N. destruct (Nat.eqb j k) eqn:E; eauto.
    apply Nat.eqb_eq in E. subst k. destruct (nth_error (timers s) j) as [tm|] eqn:E2; inversion N; subst.
    destruct (H tm eq_refl) as [_ H2]. destruct (H2 P); eauto.
  - unfold tasks_ok. rewrite K. auto.
Qed.

Lemma xt_app : forall s s' l, timers s' = timers s ++ l -> tasks s' = tasks s ->
  (forall tm, In tm l -> t_pend tm = false) ->
  (forall e, In e (queue s) -> In e (queue s')) -> xt s s'.
Proof.
  intros s s' l T K L Q. repeat split; auto.
  - intros tm N. rewrite T. exists tm. split; auto. apply nth_error_app_l; auto.
  - intros j tm' N P. rewrite T in N. destruct (lt_dec j (length (timers s))).
    + rewrite nth_error_app1 in N by auto. eauto.
    + rewrite nth_error_app2 in N by lia. apply nth_error_In in N. rewrite (L tm' N) in P. discriminate.
  - unfold tasks_ok. rewrite K. auto.
Qed.

Lemma xt_unregister : forall s k, xt s (unregister s k).
Proof.
  intros. unfold unregister. destruct (nth_error (timers s) k) eqn:E; [|apply xt_refl].
  destruct (t_reg t && negb (t_pend t)) eqn:C; [|apply xt_refl].
  eapply xt_upd_at with (k := k) (f := t_set_pend); simpl; auto.
  intros tm N. rewrite E in N. inversion N; subst. split; [|auto with datatypes].
  intros _. split.
  - left. reflexivity.
  - intros [G1 G2]. rewrite G1 in C. discriminate.
Qed.

Lemma xt_reset : forall s k nw niv r, xt s (add_log (set_timers s (upd (timers s) k (t_reset nw niv))) r).
Proof.
  intros. eapply xt_upd_at; simpl; auto.
Qed.

Lemma xt_do_op : forall o s, op_rr i o = false -> xt s (do_op s o).
Proof.
  destruct o; intros s Ho; simpl.
  - eapply xt_app; simpl; auto. intros tm [H | []]; subst; auto.
  - eapply xt_app; simpl; auto. intros tm [H | []]; subst; auto.
  - destruct (nth_error (timers s) i0); [|apply xt_refl]. apply xt_reset.
  - destruct (nth_error (timers s) i0); [|apply xt_refl]. apply xt_reset.
  - destruct (nth_error (timers s) i0); [|apply xt_refl].
    eapply xt_trans. apply (xt_unregister s i0). apply xt_same; auto.
  - apply xt_same; auto.
  - apply xt_same; simpl; auto.
  - destruct (nth_error (timers s) i0) eqn:E; [|apply xt_refl].
    destruct (negb (t_reg t) && negb (t_pend t)) eqn:C; [|apply xt_refl].
    eapply xt_upd_at with (k := i0) (f := t_rereg); simpl; auto.
    intros tm N. split; [|discriminate].
    intros. subst i0. simpl in Ho. rewrite Nat.eqb_refl in Ho. discriminate.
Qed.

Lemma xt_do_ops : forall l s, ops_ok i l -> xt s (do_ops s l).
Proof.
  unfold do_ops. induction l; simpl; intros. apply xt_refl.
  eapply xt_trans. apply xt_do_op. apply H. left; auto. apply IHl. intros o Ho. apply H. right; auto.
Qed.

Lemma xt_fire_timer : forall s k, xt s (fire_timer s k).
Proof.
  intros. unfold fire_timer. destruct (nth_error (timers s) k); [|apply xt_refl].
  destruct (t_persist t).
  - eapply xt_upd_at; simpl; auto.
  - eapply xt_trans; [|apply xt_unregister]. apply xt_same; simpl; auto.
Qed.

Lemma xt_fire_fold : forall l s, xt s (fold_left fire_timer l s).
Proof.
  induction l; simpl; intros. apply xt_refl. eapply xt_trans. apply xt_fire_timer. apply IHl.
Qed.

Lemma xt_idle_wait : forall s d, xt s (idle_wait s d).
Proof.
  intros. unfold idle_wait. destruct (stims s) as [|[[a b] c] r]; destruct d; simpl;
    try destruct (a <? now s + z); apply xt_same; simpl; auto.
Qed.

Lemma xt_do_gen : forall s more, xt s (do_gen p s more).
Proof.
  intros. destruct (reorder (sched s) (due_from (now s) 0 (timers s))) as [due sch'] eqn:RE.
  rewrite (do_gen_eq p s more due sch' RE). cbv zeta.
  assert (E1 : forall w, xt s (add_log (fold_left fire_timer due (set_sched s sch')) (LIter (now s) due w))).
  { intros. apply (xt_trans s (set_sched s sch')); [apply xt_same; auto|].
    eapply xt_trans; [apply (xt_fire_fold due) | apply xt_same; auto]. }
  destruct (gen_wait _); auto. eapply xt_trans; [apply E1 | apply xt_idle_wait].
Qed.

(* the completion event takes a timer that is pending, or out already, out of the tree *)
Lemma removed_gone : forall tm, pg tm -> gone (t_removed tm).
Proof.
  intros tm P. unfold t_removed. destruct P as [P | [P1 P2]].
  - rewrite P. split; auto.
  - rewrite P2. split; auto.
Qed.

Lemma removed_not_pend : forall tm, t_pend (t_removed tm) = false.
Proof. intros. unfold t_removed. destruct (t_pend tm) eqn:E; auto. Qed.

Lemma xt_dispatch : forall s e more, xt s (dispatch p s e more).
Proof.
  intros s e more. destruct OK as [O1 [O2 O3]]. destruct e; simpl.
  - apply xt_do_gen.
  - eapply xt_trans; [|apply xt_do_ops]. apply xt_same; auto.
    apply script_ok; auto. intros o [].
  - apply xt_do_ops. apply script_ok; auto. intros o [].
  - apply xt_same; auto. intros T k0 Hk. apply in_app_or in Hk as [Hk | [<- | []]]; auto.
    apply (script_ok _ _ _ (steps_ok i)); auto. intros o [].
  - apply xt_refl.
  - apply xt_same; simpl; auto.
  - eapply xt_upd_at with (k := i0) (f := t_removed); simpl; auto.
    intros tm N. split; [|rewrite removed_not_pend; discriminate].
    intros _. split; intros G.
    + right. apply removed_gone, G.
    + apply removed_gone. right. exact G.
Qed.

Lemma xt_flush : forall batch s, xt s (flush p s batch).
Proof.
  induction batch; simpl; intros. apply xt_refl.
  eapply xt_trans; [apply xt_dispatch | apply IHbatch].
Qed.

Lemma xt_run_steps : forall l s id, steps_ok i l ->
  xt s (fst (run_steps s l id)) /\
  match snd (run_steps s l id) with Some k => steps_ok i (k_steps k) | None => True end.
Proof.
  induction l as [|a l IH]; simpl; intros s id H. { split; [apply xt_refl | exact I]. }
  assert (H' : steps_ok i l) by (intros o Ho; apply H; right; auto).
  destruct a; simpl; try (split; [apply xt_refl | exact H']).
  destruct (IH (do_ops s l0) id H') as [A B]. split; auto.
  eapply xt_trans; [apply xt_do_ops, H; left; auto | exact A].
Qed.

Lemma xt_step_tasks : forall l s acc, (forall k, In k l -> steps_ok i (k_steps k)) ->
  (forall k, In k acc -> steps_ok i (k_steps k)) ->
  xt s (fst (step_tasks s l acc)) /\
  (forall k, In k (snd (step_tasks s l acc)) -> steps_ok i (k_steps k)).
Proof.
  induction l as [|a l IH]; simpl; intros s acc H Hacc. { split; [apply xt_refl | exact Hacc]. }
  assert (E : xt s (fst (step_task s a)) /\
              match snd (step_task s a) with Some k => steps_ok i (k_steps k) | None => True end).
  { unfold step_task. destruct (k_sleep a).
    - destruct (z <=? now s); simpl; (split; [apply xt_refl | apply H; left; auto]).
    - apply xt_run_steps. apply H. left; auto. }
  destruct (step_task s a) as [s1 k1]. simpl in E. destruct E as [E1 E2].
  destruct (IH s1 (match k1 with Some k' => acc ++ [k'] | None => acc end)) as [A B].
  - intros k Hk. apply H. right; auto.
  - destruct k1; auto. intros k Hk. apply in_app_or in Hk as [Hk | [<- | []]]; auto.
  - split; auto. eapply xt_trans; eauto.
Qed.

Lemma pick_tasks_in : forall l ids k, In k (pick_tasks l ids) -> In k l.
Proof.
  intros. unfold pick_tasks in H. apply in_flat_map in H. destruct H as [id [_ H]].
  destruct (find (fun k0 => Nat.eqb (k_id k0) id) l) eqn:E; simpl in H; [|tauto].
  destruct H as [H | []]. subst. apply find_some in E. tauto.
Qed.

Lemma xt_deliver_due : forall l s, xt s (deliver_due s l).
Proof.
  induction l as [|[[a b] c] l IH]; simpl; intros. { apply xt_same; auto. }
  destruct (a <=? now s); [|apply xt_same; auto].
  eapply xt_trans; [|apply IH]. apply xt_same; simpl; auto.
Qed.

Lemma tick_shape : forall s, tasks_ok i s -> exists s3,
  tick p s = flush p (set_queue s3 []) (queue s3) /\ xt s s3.
Proof.
  intros s T. unfold tick.
  pose proof (xt_deliver_due (stims s) s) as E0. set (s0 := deliver_due s (stims s)) in *.
  destruct (reorder (tsched s0) (map k_id (tasks s0))) as [ord tsch'].
  destruct (xt_step_tasks (pick_tasks (tasks s0) ord) (set_tsched (set_tasks s0 []) tsch') []) as [E1 R2].
  { intros k Hk. apply pick_tasks_in in Hk. apply E0; auto. }
  { intros k []. }
  destruct (step_tasks (set_tsched (set_tasks s0 []) tsch') (pick_tasks (tasks s0) ord) []) as [s1 alive].
  simpl in E1, R2.
  eexists. split. reflexivity.
  apply (xt_trans s s0); [exact E0|].
  apply (xt_trans s0 (set_tsched (set_tasks s0 []) tsch')). { apply xt_same; auto. intros _ k []. }
  apply (xt_trans _ s1); [exact E1|].
  apply xt_same; simpl; auto. intros T1 k Hk. apply in_app_or in Hk as [Hk | Hk]; auto.
Qed.

Lemma xt_PG : forall s s', xt s s' -> PG s i -> PG s' i.
Proof. intros s s' [E _] [tm [N P]]. destruct (E tm N) as [tm' [N' [P' _]]]. exists tm'. auto. Qed.
Lemma xt_Gone : forall s s', xt s s' -> Gone s i -> Gone s' i.
Proof. intros s s' [E _] [tm [N P]]. destruct (E tm N) as [tm' [N' [_ P']]]. exists tm'. auto. Qed.

(* every pending timer has its prepare_unregister, or the completion event, among the events still to be dispatched
   (X: rest of the batch being flushed) *)
Definition QX (s : st) (X : list ev) : Prop :=
  forall j tm, nth_error (timers s) j = Some tm -> t_pend tm = true ->
    In (EPrep j) (X ++ queue s) \/ In (EPrepC j) (X ++ queue s).

Lemma in_batch : forall s s' X e, xt s s' -> In e (X ++ queue s) -> In e (X ++ queue s').
Proof. intros s s' X e [_ [Q _]] H. apply in_app_or in H as [H | H]; auto. Qed.

Lemma xt_QX : forall s s' X, xt s s' -> QX s X -> QX s' X.
Proof.
  intros s s' X E Q j tm' N P. pose proof (fun e => in_batch s s' X e E) as M.
  destruct E as [_ [_ [C _]]]. destruct (C j tm' N P) as [[tm [N0 P0]] | H]; auto.
  destruct (Q j tm N0 P0); auto.
Qed.

(* dispatching the head of the batch: prepare_unregister queues the completion event, which clears the flag *)
Lemma dispatch_QX : forall s e r more, QX s (e :: r) -> QX (dispatch p s e more) r.
Proof.
  intros s e r more Q j tm' N P.
  destruct (xt_QX _ _ _ (xt_dispatch s e more) Q j tm' N P) as [[-> | H] | [-> | H]]; auto.
  - right. simpl. auto with datatypes.
  - simpl in N. rewrite nth_error_upd, Nat.eqb_refl in N. destruct (nth_error (timers s) j); inversion N; subst.
    rewrite removed_not_pend in P. discriminate.
Qed.

Lemma flush_QX : forall batch s, QX s batch -> QX (flush p s batch) [].
Proof.
  induction batch; simpl; intros; auto. apply IHbatch, dispatch_QX. auto.
Qed.

Lemma flush_prep : forall batch s, In (EPrep i) batch -> In (EPrepC i) (queue (flush p s batch)).
Proof.
  induction batch; simpl; intros. tauto. destruct H.
  - subst. apply (xt_flush batch); simpl; auto with datatypes.
  - auto.
Qed.

Lemma flush_prepc : forall batch s, In (EPrepC i) batch -> PG s i -> Gone (flush p s batch) i.
Proof.
  induction batch; simpl; intros. tauto. destruct H.
  - subst. eapply xt_Gone. apply xt_flush. simpl.
    destruct H0 as [tm [N P]]. exists (t_removed tm). split. simpl. apply nth_error_upd_same; auto.
    apply removed_gone, P.
  - apply IHbatch; auto. eapply xt_PG; eauto. apply xt_dispatch.
Qed.

Definition Inv (s : st) : Prop := QX s [] /\ tasks_ok i s.

Lemma tick_Inv : forall s, Inv s -> Inv (tick p s).
Proof.
  intros s [Q T]. destruct (tick_shape s T) as [s3 [-> X]]. split.
  - apply flush_QX. intros j tm N P. simpl. rewrite app_nil_r. apply (xt_QX _ _ _ X Q j tm N P).
  - apply xt_flush. apply X, T.
Qed.

Lemma init_Inv : forall t0 sts sch tsch, Inv (init t0 sts sch tsch).
Proof. intros. split. intros j tm N. destruct j; discriminate. intros k []. Qed.

Lemma tick_keeps : forall s, tasks_ok i s ->
  (PG s i -> PG (tick p s) i) /\ (Gone s i -> Gone (tick p s) i).
Proof.
  intros s T. destruct (tick_shape s T) as [s3 [-> X]].
  pose proof (xt_flush (queue s3) (set_queue s3 [])) as F.
  split; intros H.
  - apply (xt_PG _ _ F). exact (xt_PG s s3 X H).
  - apply (xt_Gone _ _ F). exact (xt_Gone s s3 X H).
Qed.

Theorem gone_stays : forall s, tasks_ok i s -> Gone s i -> Gone (tick p s) i.
Proof. intros s T. apply tick_keeps; auto. Qed.

Lemma tick_prep : forall s, tasks_ok i s -> In (EPrep i) (queue s) -> In (EPrepC i) (queue (tick p s)).
Proof.
  intros s T H. destruct (tick_shape s T) as [s3 [-> X]]. apply flush_prep. apply X. auto.
Qed.

Lemma tick_prepc : forall s, tasks_ok i s -> In (EPrepC i) (queue s) -> PG s i -> Gone (tick p s) i.
Proof.
  intros s T H H0. destruct (tick_shape s T) as [s3 [-> X]].
  apply flush_prepc. { apply X. auto. } exact (xt_PG s s3 X H0).
Qed.

Lemma removed_after_two : forall s tm, Inv s ->
  nth_error (timers s) i = Some tm -> t_reg tm && negb (t_pend tm) = false -> Gone (tick p (tick p s)) i.
Proof.
  intros s tm [Q T] N A.
  pose proof (tick_Inv s (conj Q T)) as [_ T1].
  destruct (t_pend tm) eqn:P.
  - assert (PGs : PG s i) by (exists tm; split; auto; left; auto).
    destruct (Q i tm N P) as [H | H]; simpl in H.
    + apply tick_prepc; auto. apply tick_prep; auto. apply tick_keeps; auto.
    + apply gone_stays; auto. apply tick_prepc; auto.
  - assert (G : Gone s i). { exists tm. split; auto. split; auto. destruct (t_reg tm); auto. }
    apply gone_stays; auto. apply gone_stays; auto.
Qed.

(* for every run: a timer that the specification, having tracked it over the rest l of the history, does not consider
   alive at the end (a one-shot that fired, a timer whose unregistration was requested, not registered again since) is
   out of the tree two ticks after the end *)
Lemma dead_removed (Hden : 0 < p_tmo_den p) {t0 sts sch tsch n pre l ms x} :
  let s := fst (run p (init t0 sts sch tsch) n) in
  history s = pre ++ l -> spec_after p pre = Some ms -> nth_error ms i = Some x ->
  s_alive (track i l x) = false -> Gone (tick p (tick p s)) i.
Proof.
  intros s H S N A. subst s. pose proof (run_nth (run_from p Hden H S) N) as E.
  rewrite nth_error_map in E. destruct (nth_error _ i) as [tm|] eqn:E' in E; try discriminate.
  injection E as E. rewrite <- E in A.
  eapply removed_after_two; eauto. apply (run_inv _ p tick_Inv), init_Inv.
Qed.

End Removal.

Lemma unregister_starts : forall s i tm, nth_error (timers s) i = Some tm -> t_reg tm && negb (t_pend tm) = true ->
  In (EPrep i) (queue (unregister s i)) /\ PG (unregister s i) i.
Proof.
  intros. unfold unregister. rewrite H, H0. split.
  - simpl. auto with datatypes.
  - exists (t_set_pend tm). split. simpl. apply nth_error_upd_same; auto. left. reflexivity.
Qed.

