(* Proofs about Model/VHost.v: the trusted-gateway rule of VirtualHosts. *)
From Coq Require Import List Bool.
From Circ Require Import Lib.ByteStr Model.Auth Model.VHost.
Import ListNotations.
Open Scope N_scope.

Lemma addr_eqb_eq : forall a b, addr_eqb a b = true <-> a = b.
Proof.
  intros [x|] [y|]; simpl; try easy.
  rewrite str_eqb_eq. split; congruence.
Qed.

Lemma mem_addr_In : forall x l, mem_addr x l = true <-> In x l.
Proof.
  intros x l. induction l as [|y l IH]; simpl; [easy|].
  rewrite orb_true_iff, IH, addr_eqb_eq. split; intros [H|H]; auto.
Qed.

Definition set_xfh (r : vreq) (x : str) : vreq :=
  {| remote_ip := remote_ip r; host := host r; xfh := x; path := path r |}.

(* trusted, as the property words it *)
Definition is_trusted (tg : option (list (option str))) (ip : option str) : Prop :=
  match tg with None => True | Some l => In ip l end.

Lemma trusted_iff : forall tg r, trusted tg r = true <-> is_trusted tg (remote_ip r).
Proof. intros [l|] r; simpl; [apply mem_addr_In|tauto]. Qed.

Section P.
  Variable urljoin : str -> str -> str.

  Lemma untrusted_ignored : forall domains l r x,
    ~ In (remote_ip r) l ->
    on_request urljoin domains (Some l) (set_xfh r x) = on_request urljoin domains (Some l) r
    /\ domain (Some l) r = host r.
  Proof.
    intros domains l r x Hn. unfold on_request, domain, trusted. cbn [set_xfh remote_ip host path].
    destruct (mem_addr (remote_ip r) l) eqn:E; [now apply mem_addr_In in E|now split].
  Qed.
End P.
