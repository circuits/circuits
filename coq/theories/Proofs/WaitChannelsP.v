(* Proofs about Model/WaitChannels.v (C06, several awaited channels): a wait is a machine with five phases.  Every
   reachable state is the image under [shape] of a state of that machine ([reach_shape]), and what C06 states is read off
   the machine. *)
From Coq Require Import List ZArith Bool.
From Circ Require Import Model.WaitChannels.
Import ListNotations.
Open Scope Z_scope.

Lemma chan_eqb_refl : forall c, chan_eqb c c = true.
Proof. intros [|n]; simpl; [reflexivity|apply Nat.eqb_refl]. Qed.

Lemma chans_eqb_refl : forall l, chans_eqb l l = true.
Proof.
  intro l. unfold chans_eqb. rewrite Nat.eqb_refl. simpl. induction l as [|c r IH]; simpl; [reflexivity|].
  rewrite chan_eqb_refl. exact IH.
Qed.

Lemma reached_nil : forall dcs, reached [] dcs = [].
Proof. induction dcs as [|d r IH]; simpl; [reflexivity|exact IH]. Qed.

Lemma existsb_filter : forall (A : Type) (f : A -> bool) l,
  existsb f l = match filter f l with [] => false | _ :: _ => true end.
Proof. intros A f l. induction l as [|a r IH]; simpl; [reflexivity|]. destruct (f a); [reflexivity|exact IH]. Qed.

Lemma awaited_reached : forall hs dcs, awaited hs dcs = match reached hs dcs with [] => false | _ :: _ => true end.
Proof.
  intros hs dcs. unfold awaited, reached. induction dcs as [|d r IH]; simpl; [reflexivity|].
  rewrite IH, existsb_filter. destruct (filter _ hs); reflexivity.
Qed.

(* a dispatch runs the same handler once per temporary reached; the handlers are idempotent, so that is once if the event
   is on an awaited channel, and not at all otherwise *)
Lemma fold_id : forall (f : wstate -> wstate) (l : list chan) s, f s = s -> fold_left (fun s _ => f s) l s = s.
Proof. intros f l. induction l as [|c r IH]; intros s H; simpl; [reflexivity|]. rewrite H. apply IH. exact H. Qed.

Lemma dispatch_once : forall (f : wstate -> wstate) hs dcs s, f (f s) = f s ->
  fold_left (fun s _ => f s) (reached hs dcs) s = if awaited hs dcs then f s else s.
Proof.
  intros f hs dcs s Hi. rewrite awaited_reached. destruct (reached hs dcs) as [|c l]; [reflexivity|].
  simpl. apply fold_id. exact Hi.
Qed.

Lemma on_event_other : forall eid s, (w_run s = true \/ obj_ok (w_obj s) eid = false) -> on_event eid s = s.
Proof. intros eid s [H|H]; unfold on_event; rewrite H, ?andb_false_r; reflexivity. Qed.

Lemma on_done_other : forall eid s, (w_event s <> Some eid \/ w_flag s = true) -> on_done eid s = s.
Proof.
  intros eid s H. unfold on_done. destruct (w_event s) as [e|] eqn:E; [|reflexivity].
  destruct (Nat.eqb e eid) eqn:Q; [|reflexivity]. apply Nat.eqb_eq in Q. subst e.
  destruct H as [H|H]; [congruence|]. rewrite H. reflexivity.
Qed.

Inductive phase :=
| Waiting (o : option nat)    (* every <name>_done temporary installed; the <name> temporaries too until _on_event latches
                                 an event (o) and removes them *)
| Flagged (e : nat)           (* _on_done of e has removed the tick handler and made the wait generator a task *)
| Expired (o : option nat)    (* _on_tick has removed every temporary and registered the TimeoutError task *)
| Resumed (e : nat)           (* the caller has the result *)
| Thrown (o : option nat).    (* the caller has the TimeoutError *)

Definition latched (p : phase) : option nat :=
  match p with Flagged e | Resumed e => Some e | Waiting o | Expired o | Thrown o => o end.

Record astate := A { a_ph : phase; a_rem : nat; a_passes : nat; a_when : nat }.

(* Which temporaries and tasks exist is a function of the phase.  The tick handler exists iff a timeout was given; a given
   timeout is a number of ticks left, so _on_done and _on_tick find exactly the handlers they remove, with no side condition. *)
Definition shape (cs : list chan) (obj : option nat) (tmo0 : Z) (a : astate) : wstate :=
  let p := a_ph a in
  {| w_chans := cs; w_obj := obj;
     w_ev := match p with Waiting None => cs | _ => [] end;
     w_done := match p with Waiting _ | Flagged _ => cs | _ => [] end;
     w_tick := match p with Waiting _ => 0 <=? tmo0 | _ => false end;
     w_run := match latched p with Some _ => true | None => false end;
     w_flag := match p with Flagged _ | Resumed _ => true | _ => false end;
     w_event := latched p; w_timeout := if 0 <=? tmo0 then Z.of_nat (a_rem a) else tmo0;
     w_task_wait := match p with Flagged _ => true | _ => false end;
     w_task_tmo := match p with Expired _ => true | _ => false end;
     w_resumed := match p with Resumed _ => 1%nat | _ => O end;
     w_thrown := match p with Thrown _ => 1%nat | _ => O end;
     w_crash := false; w_tmo0 := tmo0; w_passes := a_passes a; w_when := a_when a |}.

Definition next (cs : list chan) (obj : option nat) (tmo0 : Z) (a : astate) (x : step) : astate :=
  let (p, tm, ps, wh) := a in
  match x, p with
  | Dispatch eid dcs, Waiting None => if obj_ok obj eid && awaited cs dcs then A (Waiting (Some eid)) tm ps wh else a
  | DispatchDone eid dcs, Waiting (Some e) => if (e =? eid)%nat && awaited cs dcs then A (Flagged e) tm ps wh else a
  | Tick, Waiting o => if 0 <=? tmo0 then match tm with O => A (Expired o) O ps wh | S r => A p r ps wh end else a
  | RunTasks, Flagged e => A (Resumed e) tm (S ps) (S ps)
  | RunTasks, Expired o => A (Thrown o) tm (S ps) (S ps)
  | RunTasks, _ => A p tm (S ps) wh
  | _, _ => a
  end.

Lemma on_event_armed : forall cs obj tmo0 tm ps wh eid, obj_ok obj eid = true ->
  on_event eid (shape cs obj tmo0 (A (Waiting None) tm ps wh)) = shape cs obj tmo0 (A (Waiting (Some eid)) tm ps wh).
Proof. intros cs obj tmo0 tm ps wh eid Ob. unfold on_event. simpl. rewrite Ob, chans_eqb_refl. reflexivity. Qed.

Lemma on_done_seen : forall cs obj tmo0 tm ps wh e,
  on_done e (shape cs obj tmo0 (A (Waiting (Some e)) tm ps wh)) = shape cs obj tmo0 (A (Flagged e) tm ps wh).
Proof.
  intros. unfold on_done, shape. simpl. rewrite Nat.eqb_refl. destruct (0 <=? tmo0) eqn:E; [destruct tm|rewrite E]; reflexivity.
Qed.

Theorem simulation : forall cs obj tmo0 a x, do_step (shape cs obj tmo0 a) x = shape cs obj tmo0 (next cs obj tmo0 a x).
Proof.
  intros cs obj tmo0 [p tm ps wh] x. destruct x as [eid dcs|eid dcs| |].
  - (* only a wait that has latched nothing has <name> temporaries left *)
    destruct p as [[e|]|e|o|e|o]; simpl; try (rewrite reached_nil; reflexivity).
    destruct (obj_ok obj eid) eqn:Ob.
    + rewrite dispatch_once; rewrite on_event_armed by exact Ob.
      * destruct (awaited cs dcs); reflexivity.
      * apply on_event_other. left. reflexivity.
    + rewrite fold_id; [reflexivity|apply on_event_other; right; exact Ob].
  - destruct p as [[e|]|e|o|e|o]; simpl; try (rewrite reached_nil; reflexivity).
    + destruct (Nat.eqb_spec e eid) as [<-|Ne].
      * rewrite dispatch_once; rewrite on_done_seen.
        -- destruct (awaited cs dcs); reflexivity.
        -- apply on_done_other. right. reflexivity.
      * rewrite fold_id; [reflexivity|apply on_done_other; left; simpl; congruence].
    + rewrite fold_id; [reflexivity|apply on_done_other; left; discriminate].
    + rewrite fold_id; [reflexivity|apply on_done_other; right; reflexivity].
  - (* the tick handler exists while the wait is not flagged and a timeout was given *)
    destruct p as [o|e|o|e|o]; try reflexivity. simpl. unfold on_tick, shape. simpl.
    destruct (0 <=? tmo0); [|reflexivity]. destruct tm as [|r]; cbn -[Z.sub].
    + destruct o; simpl; rewrite ?chans_eqb_refl; reflexivity.
    + rewrite Zpos_P_of_succ_nat, Z.sub_1_r, Z.pred_succ. reflexivity.
  - destruct p; try reflexivity. simpl. unfold run_tasks. simpl. rewrite chans_eqb_refl. reflexivity.
Qed.

Lemma run_shape : forall cs obj tmo0 xs a,
  fold_left do_step xs (shape cs obj tmo0 a) = shape cs obj tmo0 (fold_left (next cs obj tmo0) xs a).
Proof. induction xs as [|x r IH]; intro a; simpl; [reflexivity|]. rewrite simulation. apply IH. Qed.

Theorem reach_shape : forall cs obj tmo steps,
  reach cs obj tmo steps = shape cs obj tmo (fold_left (next cs obj tmo) steps (A (Waiting None) (Z.to_nat tmo) 0 0)).
Proof.
  intros. rewrite <- run_shape. unfold reach, init, shape. simpl.
  destruct (Z.leb_spec 0 tmo); [rewrite Z2Nat.id by assumption|]; reflexivity.
Qed.

Lemma next_latched : forall cs obj tmo0 a x e, latched (a_ph a) = Some e -> latched (a_ph (next cs obj tmo0 a x)) = Some e.
Proof.
  intros cs obj tmo0 [p tm ps wh] x e H. destruct x as [eid dcs|eid dcs| |]; simpl.
  - destruct p as [[e'|]|e'|o|e'|o]; try exact H. discriminate H.
  - destruct p as [[e'|]|e'|o|e'|o]; try exact H. destruct (_ && _); exact H.
  - destruct p; try exact H. destruct (0 <=? tmo0), tm; exact H.
  - destruct p; exact H.
Qed.

Lemma ticks_expire : forall cs obj tmo0 k o ps wh, (0 <=? tmo0) = true ->
  fold_left (next cs obj tmo0) (repeat Tick (S k)) (A (Waiting o) k ps wh) = A (Expired o) 0 ps wh.
Proof. intros cs obj tmo0 k o ps wh E. induction k as [|k IH]; simpl in *; rewrite E; [reflexivity|exact IH]. Qed.

Definition no_temporaries (s : wstate) : Prop := w_ev s = [] /\ w_done s = [] /\ w_tick s = false.
Definition armed (s : wstate) : Prop := w_run s = false /\ w_task_tmo s = false /\ w_thrown s = O.
Definition live (s : wstate) : Prop := w_flag s = false /\ w_task_tmo s = false /\ w_thrown s = O.

Lemma armed_phase : forall cs obj tmo0 a, armed (shape cs obj tmo0 a) -> a_ph a = Waiting None.
Proof. intros cs obj tmo0 [p tm ps wh] [R [T Th]]. destruct p as [[e|]|e|o|e|o]; try discriminate. reflexivity. Qed.

Lemma live_phase : forall cs obj tmo0 a, live (shape cs obj tmo0 a) -> exists o, a_ph a = Waiting o.
Proof. intros cs obj tmo0 [p tm ps wh] [F [T Th]]. destruct p as [o|e|o|e|o]; try discriminate. now exists o. Qed.

Lemma residue : forall cs obj tmo steps, let s := reach cs obj tmo steps in
  (armed s -> w_ev s = cs /\ w_done s = cs /\ w_tick s = (0 <=? tmo)) /\
  (w_resumed s = 1%nat \/ w_thrown s = 1%nat \/ w_task_tmo s = true -> no_temporaries s) /\
  (w_run s = true -> w_ev s = []).
Proof.
  intros cs obj tmo steps. rewrite reach_shape. destruct (fold_left _ _ _) as [p tm ps wh]. cbv zeta.
  split; [|split].
  - intro Ha. apply armed_phase in Ha. simpl in Ha. subst p. simpl. auto.
  - destruct p; simpl; intros [X|[X|X]]; try discriminate X; repeat split.
  - destruct p as [[e|]|e|o|e|o]; simpl; intro X; try reflexivity. discriminate X.
Qed.
