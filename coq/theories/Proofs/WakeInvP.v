(* C03 — the wake-up protocol model (Model/Wake.v): what a step of reduce_time_left and a step of a firing thread
   are, as relations (rstep, fstep_spec); what a step of the loop thread does to the lock and to the queues
   (lstep_effect) and what a step of a firing thread does to the lock and leaves alone (fstep_effect); the inductive
   invariant; a step of the loop thread as the invariant sees it (wstep), read off the one case analysis of lstep
   together with its effect (lstep_view); the preservation of the invariant. *)
From Coq Require Import List Arith Bool Lia.
From Circ Require Import Lib.FunUpd Lib.ListFacts Model.Wake.
Import ListNotations.

Lemma run_app : forall tr1 tr2 s,
  run s (tr1 ++ tr2) = match run s tr1 with Some s' => run s' tr2 | None => None end.
Proof.
  induction tr1 as [|a tr1 IH]; intros tr2 s; simpl; [reflexivity|].
  destruct (step s a); [apply IH|reflexivity].
Qed.

Definition reachable (m : mode) (s : state) : Prop := exists tr, run (init m) tr = Some s.

Lemma reachable_ind' (m : mode) (P : state -> Prop) :
  P (init m) -> (forall s a s', P s -> step s a = Some s' -> P s') ->
  forall s, reachable m s -> P s.
Proof.
  intros H0 Hs s [tr Htr]. revert s Htr.
  induction tr as [|a tr IH] using rev_ind; intros s Htr.
  - simpl in Htr. inversion Htr. subst. exact H0.
  - rewrite run_app in Htr. destruct (run (init m) tr) as [s0|] eqn:E; [|discriminate].
    simpl in Htr. destruct (step s0 a) as [s1|] eqn:E1; [|discriminate].
    inversion Htr; subst. eapply Hs; [apply IH; reflexivity | exact E1].
Qed.

Ltac break_match H :=
  repeat match type of H with
         | context [match ?x with _ => _ end] =>
             match x with
             | context [match _ with _ => _ end] => fail 1
             | _ => destruct x eqn:?; try discriminate H
             end
         end.

(* Projections of the field setters, without unfolding the setters themselves: an unfolded setter
   copies the whole state once per field, and nested ones grow exponentially. *)
Ltac sp :=
  cbn [md pk watched dq hp ctr batch handling gs ngen nother cur lock flag pipe lp fts disp
       set_fp set_gtl set_ghd signal after_event
       set_watched set_dq set_hp set_ctr set_batch set_handling set_gs set_ngen set_nother set_cur
       set_lock set_flag set_pipe set_lp set_fts set_disp] in *.

(* how deep a thread is in the (re-entrant) lock, read off its program point: within reduce_time_left, the loop thread,
   a firing thread, thread t of s.  [lockd] is the same read off the lock itself, and I0 says that the two agree *)
Definition rheld (r : rpc) : nat := match r with RAcq => 0 | _ => 1 end.
Definition lheld (p : lpc) : nat :=
  match p with
  | LGSet _ | LGTest | LGRel | WTest | WClear | WRel => 1
  | LGRed r => 1 + rheld r
  | LTimer r | WAfter r => rheld r
  | _ => 0
  end.
Definition fheld (p : fpc) : nat :=
  match p with
  | FRead | FCnt _ | FApp _ | FRel => 1
  | FRed _ r => 1 + rheld r
  | _ => 0
  end.
Definition held (s : state) (t : nat) : nat :=
  match t with O => lheld (lp s) | S i => fheld (fp (fts s i)) end.
Definition lockd (s : state) (t : nat) : nat :=
  match lock s with Some (o, d) => if Nat.eqb t o then S d else 0 | None => 0 end.

Definition I0 (s : state) : Prop := forall t, held s t = lockd s t.

Lemma I0_init m : I0 (init m).
Proof. intros [|t]; reflexivity. Qed.

(* thread [me] takes its depth in the lock from d to d'; the other threads' depths stay (lockd s' - lockd s = d' - d at
   me, written as sums because either side may be the smaller) *)
Definition relock (me d d' : nat) (s s' : state) : Prop :=
  forall t, lockd s' t + (if t =? me then d else 0) = lockd s t + (if t =? me then d' else 0).

Lemma relock_same me d s s' : lock s' = lock s -> relock me d d s s'.
Proof. intros E t. unfold lockd. rewrite E. reflexivity. Qed.

Lemma acquire_inv me s s' : acquire me s = Some s' -> exists l, s' = set_lock s l /\ relock me 0 1 s s'.
Proof.
  unfold acquire, relock, lockd. destruct (lock s) as [[o d]|].
  - destruct (Nat.eqb_spec o me) as [->|]; [|discriminate]. intros [= <-]. sp. eexists. split; [reflexivity|].
    intros t. destruct (t =? me); lia.
  - intros [= <-]. sp. eexists. split; [reflexivity|]. intros t. destruct (t =? me); lia.
Qed.

Lemma release_inv me s s' : release me s = Some s' -> exists l, s' = set_lock s l /\ relock me 1 0 s s'.
Proof.
  unfold release, relock, lockd. destruct (lock s) as [[o d]|]; [|discriminate].
  destruct (Nat.eqb_spec o me) as [->|]; [|discriminate]. intros [= <-]. sp. eexists. split; [reflexivity|].
  intros t. destruct d; destruct (t =? me); lia.
Qed.

(* What a step of reduce_time_left(x) on generate_events g by thread me does at program point r: the state after
   it and the next program point (None: the call returns). *)
Inductive rstep (me g : nat) (x : tl) (s : state) : rpc -> state -> option rpc -> Prop :=
| r_acq l : relock me 0 1 s (set_lock s l) -> rstep me g x s RAcq (set_lock s l) (Some RTest)
| r_test : rstep me g x s RTest s (Some (if must_write (gtl (gs s g)) x then RWrite else RRel))
| r_write : rstep me g x s RWrite (set_gtl s g x) (Some (match x with Zero => RHd | _ => RRel end))
| r_hd : rstep me g x s RHd s (Some (match ghd (gs s g) with HNone => RRel | _ => RGet end))
| r_get : rstep me g x s RGet s (Some (match ghd (gs s g) with HWake => RSig | _ => RRel end))
| r_sig : rstep me g x s RSig (signal s) (Some RRel)
| r_rel l : relock me 1 0 s (set_lock s l) -> rstep me g x s RRel (set_lock s l) None.

Lemma red_step_spec me g x r a s s' o : red_step me g x r a s = Some (s', o) -> rstep me g x s r s' o.
Proof.
  unfold red_step. destruct r, a; try discriminate;
    [destruct (acquire me s) eqn:E; [|discriminate] | .. | destruct (release me s) eqn:E; [|discriminate]];
    intros [= <- <-]; try constructor.
  - destruct (acquire_inv _ _ _ E) as (l & -> & L). constructor. exact L.
  - destruct (release_inv _ _ _ E) as (l & -> & L). constructor. exact L.
Qed.

Lemma relock_S me d d' s s' : relock me d d' s s' -> relock me (S d) (S d') s s'.
Proof. intros L t. specialize (L t). destruct (t =? me); lia. Qed.

Lemma I0_thread me s s' : I0 s ->
  (forall t, t <> me -> held s' t = held s t) -> relock me (held s me) (held s' me) s s' -> I0 s'.
Proof.
  intros H A L t. specialize (L t). destruct (Nat.eqb_spec t me) as [E|N].
  - subst t. rewrite <- H in L. lia.
  - rewrite (A t N), H. lia.
Qed.

(* the loop thread is inside _dispatcher: from the call to the end of the event *)
Definition in_event (p : lpc) : bool :=
  match p with LIdle | LCnt | LSnap | LMove _ | LBatch => false | _ => true end.

Definition same_q (s' s : state) : Prop :=
  hp s' = hp s /\ dq s' = dq s /\ ctr s' = ctr s /\ batch s' = batch s /\ disp s' = disp s.

(* The loop thread as a machine on these fields: _fire of an own event (counter, append), dispatchEvents
   (snapshot, move the batch to the heap, hand the minimal entry to _dispatcher), and _dispatcher, which
   touches none of them and ends with the choice between the rest of the batch and the next tick. *)
Inductive qstep (s s' : state) : Prop :=
| q_count : lp s = LIdle -> lp s' = LCnt -> same_q s' (set_ctr s (S (ctr s))) -> qstep s s'
| q_app e : lp s = LCnt -> lp s' = LIdle \/ lp s' = LSnap -> is_foreign e = false ->
    same_q s' (set_dq s (dq s ++ [(ctr s, e)])) -> qstep s s'
| q_snap : lp s = LSnap -> lp s' = match length (dq s) with O => LBatch | n => LMove n end ->
    same_q s' (set_batch s (length (dq s))) -> qstep s s'
| q_move n x r : lp s = LMove (S n) -> dq s = x :: r -> lp s' = match n with O => LBatch | _ => LMove n end ->
    same_q s' (set_hp (set_dq s r) (hp s ++ [x])) -> qstep s s'
| q_call e b k r : lp s = LBatch -> batch s = S b -> remove_ev e (hp s) = Some (k, r) ->
    forallb (fun p => Nat.leb k (fst p)) r = true -> in_event (lp s') = true ->
    same_q s' (set_disp (set_batch (set_hp s r) b) (disp s ++ [e])) -> qstep s s'
| q_event : in_event (lp s) = true -> in_event (lp s') = true -> same_q s' s -> qstep s s'
| q_end : in_event (lp s) = true -> lp s' = match batch s with O => LIdle | _ => LBatch end -> same_q s' s -> qstep s s'.

Ltac break_goal :=
  repeat match goal with |- context [match ?x with _ => _ end] =>
           match x with context [match _ with _ => _ end] => fail 1 | _ => destruct x end end.

(* All ways the loop thread can move: one case per clause of [lstep] and outcome of the test in it and, inside
   reduce_time_left, per program point ([rstep]); the result of a lock operation is s with another [lock], and L says
   what it does to the depths. *)
Ltac lstep_cases H :=
  unfold lstep in H;
  (* the goal is put aside meanwhile: each of the ~640 impossible cases (most of them pairs of program point and label)
     would carry a copy *)
  let G := fresh in
  match type of H with _ = Some ?s' => pattern s'; match goal with |- ?g s' => set (G := g) end end;
  break_match H; injection H as H; subst; subst G; cbv beta;
  try match goal with R : red_step _ _ _ _ _ _ = Some (_, ?o) |- _ =>
    apply red_step_spec in R; remember o as o' eqn:Ro in R; destruct R as [lk L| | | | | |lk L];
    try discriminate Ro; try (injection Ro as <-); try clear Ro
  end;
  try match goal with
  | E : acquire _ _ = Some _ |- _ => destruct (acquire_inv _ _ _ E) as (lk & -> & L)
  | E : release _ _ = Some _ |- _ => destruct (release_inv _ _ _ E) as (lk & -> & L)
  end.

(* the lock is moved by the operation in the context, if there is one *)
Ltac relock_case L :=
  first [exact L | exact (relock_S _ _ _ _ _ L) | apply relock_same; reflexivity].

(* What a step of firing thread i is: one constructor per line of _fire (foreign branch), the state after it in
   closed form. *)
Inductive fstep_spec (i : nat) (s : state) : state -> Prop :=
| fs_acq l : fp (fts s i) = FIdle -> relock (S i) 0 1 s (set_lock s l) -> fstep_spec i s (set_fp (set_lock s l) i FRead)
| fs_read : fp (fts s i) = FRead ->
    fstep_spec i s (set_fp s i (FCnt (match handling s with Some (Some g) => Some g | _ => None end)))
| fs_count h : fp (fts s i) = FCnt h -> fstep_spec i s (set_fp (set_ctr s (S (ctr s))) i (FApp h))
| fs_app h : fp (fts s i) = FApp h ->
    fstep_spec i s
      (set_fts (set_dq s (dq s ++ [(ctr s, EvF i (fapp (fts s i)))]))
         (upd (fts s) i {| fp := match h with Some g => FRed g RAcq | None => FRel end;
                           fapp := S (fapp (fts s i)); fret := fret (fts s i) |}))
| fs_red g r s1 o : fp (fts s i) = FRed g r -> rstep (S i) g Zero s r s1 o ->
    fstep_spec i s (set_fp s1 i (match o with Some r' => FRed g r' | None => FRel end))
| fs_rel l : fp (fts s i) = FRel -> relock (S i) 1 0 s (set_lock s l) -> fstep_spec i s (set_fp (set_lock s l) i FRet)
| fs_ret : fp (fts s i) = FRet ->
    fstep_spec i s (set_fts s (upd (fts s) i {| fp := FIdle; fapp := fapp (fts s i); fret := S (fret (fts s i)) |})).

Lemma fstep_inv i a s s' : fstep i a s = Some s' -> fstep_spec i s s'.
Proof.
  unfold fstep. destruct (fp (fts s i)) eqn:E.
  5: { destruct (red_step (S i) g Zero r a s) as [[s1 o]|] eqn:R; [|discriminate]. apply red_step_spec in R.
       destruct o; intros [= <-]; exact (fs_red i s g r s1 _ E R). }
  all: destruct a; try discriminate.
  - destruct (acquire (S i) s) eqn:A; [|discriminate]. intros [= <-].
    destruct (acquire_inv _ _ _ A) as (l & -> & L). apply fs_acq; assumption.
  - intros [= <-]. apply fs_read; assumption.
  - intros [= <-]. eapply fs_count; eassumption.
  - intros [= <-]. eapply fs_app; eassumption.
  - destruct (release (S i) s) eqn:A; [|discriminate]. intros [= <-].
    destruct (release_inv _ _ _ A) as (l & -> & L). apply fs_rel; assumption.
  - intros [= <-]. apply fs_ret; assumption.
Qed.

(* the thirteen cases of a step of a firing thread, under the names the proofs use: E the program point before the
   step, L what a lock operation does to the depths *)
Ltac fstep_cases H :=
  destruct (fstep_inv _ _ _ _ H) as [l E L|E|h E|h E|g r s1 o E R|l E L|E];
  [ | | | | destruct R as [l L| | | | | |l L] | | ].

Lemma fstep_effect i a s s' : fstep i a s = Some s' ->
  (lp s' = lp s /\ handling s' = handling s /\ cur s' = cur s /\ md s' = md s /\ pk s' = pk s /\ watched s' = watched s /\
   forall g, ghd (gs s' g) = ghd (gs s g)) /\
  (forall j, j <> i -> fts s' j = fts s j) /\
  relock (S i) (fheld (fp (fts s i))) (fheld (fp (fts s' i))) s s'.
Proof.
  intros H. fstep_cases H; sp; (split; [|split;
  [ intros j N; apply upd_other; exact N
  | rewrite upd_same, E; cbn [fp]; break_goal; relock_case L ]]);
  repeat (split; [reflexivity|]); try reflexivity.
  (* a write of time_left keeps the handler *)
  intros g0. unfold upd. destruct (g0 =? g) eqn:G; [apply Nat.eqb_eq in G; subst|]; reflexivity.
Qed.

Lemma I0_fstep i a s s' : I0 s -> fstep i a s = Some s' -> I0 s'.
Proof.
  intros HI H. destruct (fstep_effect _ _ _ _ H) as ((Fl & _) & Fo & L).
  apply (I0_thread (S i) s s' HI); [|exact L].
  intros [|j] N; simpl; [rewrite Fl | rewrite Fo by congruence]; reflexivity.
Qed.

Lemma pend_snoc s i k c e :
  In (EvF i k) (map snd (hp s) ++ map snd (dq s ++ [(c, e)])) ->
  In (EvF i k) (map snd (hp s) ++ map snd (dq s)) \/ EvF i k = e.
Proof.
  rewrite map_app, app_assoc. simpl. intros H. apply in_snoc in H. tauto.
Qed.

Lemma ev_eqb_eq a b : ev_eqb a b = true -> a = b.
Proof.
  destruct a, b; simpl; try discriminate; intros H.
  - apply Nat.eqb_eq in H. congruence.
  - apply andb_true_iff in H. destruct H as [H1 H2]. apply Nat.eqb_eq in H1. apply Nat.eqb_eq in H2. congruence.
  - apply Nat.eqb_eq in H. congruence.
Qed.

Lemma remove_ev_spec e l k r : remove_ev e l = Some (k, r) ->
  exists h1 h2, l = h1 ++ (k, e) :: h2 /\ r = h1 ++ h2.
Proof.
  revert k r. induction l as [|[k0 e0] l IH]; intros k r H; simpl in H; [discriminate|].
  destruct (ev_eqb e e0) eqn:E.
  - inversion H; subst. apply ev_eqb_eq in E. subst. exists [], r. auto.
  - destruct (remove_ev e l) as [[k' r']|]; [|discriminate]. inversion H; subst.
    destruct (IH _ _ eq_refl) as [h1 [h2 [A B]]]. subst. exists ((k0, e0) :: h1), h2. auto.
Qed.

(* Regions of the loop thread's program.  [in_G]: handling a generate_events, from `_currently_handling = event` done
   to `= None` still to do; [armed]: the same past the arming test and its reduce_time_left(0); [is_w] / [is_p]: inside
   the handler of the fallback generator / of a poller; [wpre]: in the fallback's handler between the clear and a wait (the release,
   the reads of time_left); [bl]: where the thread can block.  Of a firing thread: [fg] is its copy of _currently_handling;
   [fl_pre] / [fl_post]: inside reduce_time_left(0), up to its write of time_left / from there up to resume(). *)
Definition in_G (p : lpc) : bool :=
  match p with
  | LGTest | LGRed _ | LGRel | LH | LTimer _ | WAcq | WTest | WClear | WRel | WTestPos | WRdTl | WWaitT _
  | WAfter _ | WTestNeg | WWaitU | PRead | PSel _ | PDrain | LClr => true
  | _ => false
  end.
Definition armed (p : lpc) : bool := match p with LGTest | LGRed _ => false | _ => in_G p end.
Definition is_w (p : lpc) : bool :=
  match p with
  | WAcq | WTest | WClear | WRel | WTestPos | WRdTl | WWaitT _ | WAfter _ | WTestNeg | WWaitU => true
  | _ => false
  end.
Definition is_p (p : lpc) : bool := match p with PRead | PSel _ | PDrain => true | _ => false end.
Definition wpre (p : lpc) : bool := match p with WRel | WTestPos | WRdTl | WTestNeg => true | _ => false end.
Definition bl (p : lpc) : bool := match p with WWaitT Pos | WWaitU | PSel Neg | PSel Pos => true | _ => false end.
Definition signalled (s : state) : bool :=
  match md s with Fallback => flag s | Poller => watched s && (0 <? pipe s) end.
Definition tlc (s : state) : tl := gtl (gs s (cur s)).

Definition fg (p : fpc) : option (option nat) :=
  match p with FCnt h | FApp h => Some h | FRed g _ => Some (Some g) | _ => None end.
Definition fl_pre (p : fpc) : bool := match p with FRed _ (RAcq | RTest | RWrite) => true | _ => false end.
Definition fl_post (p : fpc) : bool := match p with FRed _ (RHd | RGet | RSig) => true | _ => false end.

Definition inflight (s : state) (i k : nat) : Prop :=
  S k = fapp (fts s i) /\
  match fp (fts s i) with
  | FRed _ (RAcq | RTest) => tlc s <> Zero
  | FRed _ (RWrite | RHd | RGet | RSig) => True
  | _ => False
  end.

Record Inv (s : state) : Prop := {
  i0 : I0 s;
  ih : in_G (lp s) = true -> handling s = Some (Some (cur s));
  ih2 : forall g, handling s = Some (Some g) -> g = cur s;
  if1 : forall i g, fg (fp (fts s i)) = Some (Some g) -> g = cur s;
  if2 : forall i, fg (fp (fts s i)) = Some None -> in_G (lp s) = false;
  ir : forall i, fapp (fts s i) =
                 fret (fts s i) + match fp (fts s i) with FRed _ _ | FRel | FRet => 1 | _ => 0 end;
  imd : (is_w (lp s) = true -> md s = Fallback) /\ (is_p (lp s) = true -> md s = Poller);
  ihd : is_w (lp s) || is_p (lp s) = true -> ghd (gs s (cur s)) = HWake;
  ia : match lp s with
       | LGRed r | WAfter r => match r with RHd | RGet | RSig | RRel => tlc s = Zero | _ => True end
       | LTimer RWrite => tlc s = Neg
       | _ => True
       end;
  j1 : armed (lp s) = true -> forall i k, In (EvF i k) (pending s) ->
       tlc s = Zero \/ (S k = fapp (fts s i) /\ fl_pre (fp (fts s i)) = true);
  j2 : signalled s = false -> (bl (lp s) = true \/ (wpre (lp s) = true /\ tlc s <> Zero)) ->
       forall i k, In (EvF i k) (pending s) -> inflight s i k;
  j3 : signalled s = false -> bl (lp s) = true -> tlc s = Zero ->
       exists i, fl_post (fp (fts s i)) = true;
  iw : pk s = true /\ watched s = true
}.

Lemma Inv_init m : Inv (init m).
Proof.
  constructor; simpl; try discriminate; try (intros; discriminate); try (apply I0_init); auto.
  - split; discriminate.
  - intros _ [H|[H _]]; discriminate.
Qed.

Lemma excl s t u : I0 s -> 0 < held s t -> t <> u -> held s u = 0.
Proof.
  intros H0 Ht N. rewrite H0 in *. unfold lockd in *. destruct (lock s) as [[o d]|]; [|reflexivity].
  destruct (Nat.eqb_spec t o); [|lia]. destruct (Nat.eqb_spec u o); [congruence|reflexivity].
Qed.

Lemma fg_held p h : fg p = Some h -> 0 < fheld p.
Proof. destruct p; simpl; intros; try discriminate; lia. Qed.
Lemma fl_post_held p : fl_post p = true -> 0 < fheld p.
Proof. destruct p as [| | | |? []| |]; simpl; intros; try discriminate; lia. Qed.
Lemma fl_pre_held p : fl_pre p = true -> 0 < fheld p.
Proof. destruct p as [| | | |? []| |]; simpl; intros; try discriminate; lia. Qed.

Definition infl_pc (p : fpc) : bool :=
  match p with FRed _ (RAcq | RTest | RWrite | RHd | RGet | RSig) => true | _ => false end.
Lemma infl_held p : infl_pc p = true -> 0 < fheld p.
Proof. destruct p as [| | | |? []| |]; simpl; intros; try discriminate; lia. Qed.

Lemma must_write_zero x : must_write x Zero = false -> x = Zero.
Proof. destruct x; simpl; congruence. Qed.
Lemma must_write_pos x : must_write x Pos = true -> x = Neg.
Proof. destruct x; simpl; congruence. Qed.

(* the arming test `len(self._queue)` found nothing *)
Lemma in_pending_nil s e : (0 <? length (dq s) + length (hp s)) = false -> ~ In e (map snd (hp s) ++ map snd (dq s)).
Proof.
  intros H. apply Nat.ltb_ge in H. destruct (dq s); destruct (hp s); simpl in *; try lia; tauto.
Qed.

Lemma sig_true s : watched s = true -> signalled (signal s) = true.
Proof. intros H. unfold signalled, signal; simpl. rewrite H. destruct (md s); reflexivity. Qed.

Lemma bl_in_G p : bl p = true -> in_G p = true.
Proof. destruct p; simpl; congruence. Qed.
Lemma bl_wp p : bl p = true -> is_w p || is_p p = true.
Proof. destruct p; simpl; congruence. Qed.
Lemma wpre_armed p : wpre p = true -> armed p = true.
Proof. destruct p; simpl; congruence. Qed.
Lemma armed_in_G p : armed p = true -> in_G p = true.
Proof. destruct p; simpl; congruence. Qed.

(* a thread about to zero time_left has its event in flight as long as time_left is not yet zero *)
Lemma pre_inflight s i k : tlc s <> Zero ->
  tlc s = Zero \/ (S k = fapp (fts s i) /\ fl_pre (fp (fts s i)) = true) -> inflight s i k.
Proof.
  intros Hnz [Z|[E P]]; [contradiction|]. split; [exact E|].
  destruct (fp (fts s i)) as [| | | |? []| |]; simpl in *; try discriminate; auto.
Qed.

Definition J1 (s : state) : Prop :=
  armed (lp s) = true -> forall i k, In (EvF i k) (pending s) ->
  tlc s = Zero \/ (S k = fapp (fts s i) /\ fl_pre (fp (fts s i)) = true).

(* conjunct j2 has to be shown at the blocked program points only: at those before the wait it follows from j1 *)
Lemma j2_intro s : J1 s ->
  (signalled s = false -> bl (lp s) = true -> forall i k, In (EvF i k) (pending s) -> inflight s i k) ->
  signalled s = false -> (bl (lp s) = true \/ (wpre (lp s) = true /\ tlc s <> Zero)) ->
  forall i k, In (EvF i k) (pending s) -> inflight s i k.
Proof.
  intros K J Hs [Hb|[Hp Hnz]] i k Hin; [exact (J Hs Hb i k Hin)|].
  exact (pre_inflight s i k Hnz (K (wpre_armed _ Hp) i k Hin)).
Qed.

(* thread i0 is inside its critical section but not about to signal: in a blocked state time_left is not 0.
   P is [signalled s = false] at the one use (the second premise is j3 of Inv); the proof only passes it on *)
Lemma holder_nonzero (P : Prop) s i0 :
  I0 s ->
  (P -> bl (lp s) = true -> tlc s = Zero -> exists i, fl_post (fp (fts s i)) = true) ->
  P -> bl (lp s) = true ->
  0 < fheld (fp (fts s i0)) -> fl_post (fp (fts s i0)) = false -> tlc s <> Zero.
Proof.
  intros HI J3 Hs Hb Hh Hp Hz. destruct (J3 Hs Hb Hz) as [w Hw].
  destruct (Nat.eq_dec w i0) as [->|Hn]; [congruence|].
  pose proof (excl s (S i0) (S w) HI Hh ltac:(congruence)) as E.
  apply fl_post_held in Hw. simpl in E. lia.
Qed.

Lemma ia_unlocked (P Q : Prop) p : lheld p = 0 ->
  match p with
  | LGRed r | WAfter r => match r with RHd | RGet | RSig | RRel => P | _ => True end
  | LTimer RWrite => Q
  | _ => True
  end.
Proof.
  destruct p as [| | | | | | | | | |r| | |r| | | | | | | |r| | | | | |]; try exact (fun _ => I);
    destruct r; simpl; intros; (exact I || lia).
Qed.

Lemma I0_effect s s' : I0 s -> fts s' = fts s -> relock 0 (lheld (lp s)) (lheld (lp s')) s s' -> I0 s'.
Proof.
  intros HI F L. apply (I0_thread 0 s s' HI); [|exact L]. intros [|j] N; [congruence|]. simpl. rewrite F. reflexivity.
Qed.

(* The loop thread is inside reduce_time_left(0), past the write: [_time_left] is 0 (conjunct ia). *)
Definition iaz (p : lpc) : bool :=
  match p with LGRed (RHd | RGet | RSig | RRel) | WAfter (RHd | RGet | RSig | RRel) => true | _ => false end.
(* A timer handler is about to write a positive [_time_left]: it has just read a negative one (conjunct ia). *)
Definition ian (p : lpc) : bool := match p with LTimer RWrite => true | _ => false end.

Lemma ia_iff (P Q : Prop) p :
  match p with
  | LGRed r | WAfter r => match r with RHd | RGet | RSig | RRel => P | _ => True end
  | LTimer RWrite => Q
  | _ => True
  end <-> ((iaz p = true -> P) /\ (ian p = true -> Q)).
Proof.
  destruct p as [| | | | | | | | | |r| | |r| | | | | | | |r| | | | | |]; try destruct r; simpl;
    (split; [intros H; split; intros E; (discriminate E || exact H) | intros [A B]; (exact I || apply A || apply B); reflexivity]).
Qed.

(* The loop thread goes from program point p to p' having read t as [_time_left] of the generate_events it handles and
   e as "deque and heap are both empty": each region of the invariant that p' lies in, p lies in already, or what was
   read gives the region's assertion.  A Boolean, so that a step is checked against it by evaluation; lmove_elim
   says what it means. *)
Definition lmove (p p' : lpc) (t : tl) (e : bool) : bool :=
  implb (in_G p') (in_G p) && implb (is_w p') (is_w p) && implb (is_p p') (is_p p) &&
  implb (armed p') (armed p || iaz p || tl_eqb t Zero || e) &&
  implb (bl p') (armed p && negb (tl_eqb t Zero)) &&
  implb (iaz p') (iaz p || tl_eqb t Zero) && implb (ian p') (tl_eqb t Neg).

Lemma implb_use a b : implb a b = true -> a = true -> b = true.
Proof. destruct a, b; simpl; congruence. Qed.

Lemma tl_eqb_eq a b : tl_eqb a b = true -> a = b.
Proof. destruct a, b; simpl; congruence. Qed.

Lemma lmove_elim p p' t e : lmove p p' t e = true ->
  (in_G p' = true -> in_G p = true) /\ (is_w p' = true -> is_w p = true) /\ (is_p p' = true -> is_p p = true) /\
  (armed p' = true -> armed p = true \/ iaz p = true \/ t = Zero \/ e = true) /\
  (bl p' = true -> armed p = true /\ t <> Zero) /\
  (iaz p' = true -> iaz p = true \/ t = Zero) /\ (ian p' = true -> t = Neg).
Proof.
  unfold lmove. intros S.
  apply andb_prop in S; destruct S as [S SN]. apply andb_prop in S; destruct S as [S SZ].
  apply andb_prop in S; destruct S as [S SB]. apply andb_prop in S; destruct S as [S SA].
  apply andb_prop in S; destruct S as [S SP]. apply andb_prop in S; destruct S as [SG SW].
  repeat apply conj; try (apply implb_use; assumption); intros H.
  - apply (implb_use _ _ SA) in H. apply orb_prop in H. destruct H as [H|H]; [|auto].
    apply orb_prop in H. destruct H as [H|H]; [|right; right; left; exact (tl_eqb_eq _ _ H)].
    apply orb_prop in H. tauto.
  - apply (implb_use _ _ SB), andb_prop in H. destruct H as [H N]. split; [exact H|]. intros ->. discriminate N.
  - apply (implb_use _ _ SZ), orb_prop in H. destruct H as [H|H]; [left; exact H | right; exact (tl_eqb_eq _ _ H)].
  - exact (tl_eqb_eq _ _ (implb_use _ _ SN H)).
Qed.

(* s1 agrees with s on every field the invariant reads, but for the lock (conjunct i0 is kept apart),
   FallBackGenerator's flag and the bytes in the control pipe (read at a blocked wait only), and the watched set after
   Select's weeding of its lists (watched && pk, which is watched by iw). *)
Definition quiet (s s1 : state) : Prop :=
  handling s1 = handling s /\ cur s1 = cur s /\ fts s1 = fts s /\ md s1 = md s /\ gs s1 = gs s /\ hp s1 = hp s /\
  dq s1 = dq s /\ pk s1 = pk s /\ (watched s1 = watched s \/ watched s1 = watched s && pk s).

(* the three calls of reduce_time_left by the loop thread: arming in _dispatcher (0), a plain handler (a positive
   TIMEOUT), FallBackGenerator after its wait (0) *)
Inductive rctx : (rpc -> lpc) -> tl -> Prop :=
| rc_arm : rctx LGRed Zero | rc_timer : rctx LTimer Pos | rc_after : rctx WAfter Zero.

(* A step of the loop thread as the invariant sees it: it ends outside the handling of a generate_events (all of
   dispatchEvents, the plain _dispatcher, both `_currently_handling = None`); or it is a control move inside it (every
   read, test, lock operation, wait, and the writes of [quiet]); or it is one of the writes the invariant reads:
   `_currently_handling = event` under the lock, `_time_left = x`, `event.handler = h`. *)
Inductive wstep (s : state) : state -> Prop :=
| w_out s' : in_G (lp s') = false -> (forall g, handling s' = Some (Some g) -> handling s = Some (Some g)) ->
    cur s' = cur s -> pk s' = pk s -> watched s' = watched s -> wstep s s'
| w_move s1 p' : quiet s s1 ->
    lmove (lp s) p' (tlc s) (negb (0 <? length (dq s) + length (hp s))) = true -> wstep s (set_lp s1 p')
| w_cur g p' : lp s = LGSet g -> p' = LGRed RAcq \/ p' = LGTest ->
    wstep s (set_lp (set_cur (set_handling s (Some (Some g))) g) p')
| w_tl C x : rctx C x -> lp s = C RWrite ->
    wstep s (set_lp (set_gtl s (cur s) x) (C (match x with Zero => RHd | _ => RRel end)))
| w_plain : lp s = LH -> wstep s (set_lp (set_ghd s (cur s) HPlain) (LTimer RAcq))
| w_wake p' : lp s = LH -> p' = match md s with Fallback => WAcq | Poller => PRead end ->
    wstep s (set_lp (set_ghd s (cur s) HWake) p').

(* A control move keeps the invariant.  Where p' enters a region, what the step read says why: [armed] at LGRel because
   the arming test saw both queues empty or reduce_time_left(0) has left time_left = 0 (ia); a blocked wait because the
   time_left just read is not 0, so that j2 is j1 with pre_inflight and j3 is void; ia after the test of
   reduce_time_left by must_write. *)
Lemma Inv_move s s1 p' : Inv s -> quiet s s1 -> I0 (set_lp s1 p') ->
  lmove (lp s) p' (tlc s) (negb (0 <? length (dq s) + length (hp s))) = true -> Inv (set_lp s1 p').
Proof.
  intros HI (Eh & Ec & Ef & Em & Eg & Ep & Ed & Ek & Ew) H0 S.
  destruct (lmove_elim _ _ _ _ S) as (SG & SW & SP & SA & SB & SZ & SN).
  destruct (proj1 (ia_iff _ _ _) (ia _ HI)) as [AZ AN].
  assert (K : J1 (set_lp s1 p')).
  { unfold J1, tlc, pending. sp. rewrite Ec, Eg, Ep, Ed, Ef. intros A i k Hin.
    destruct (SA A) as [B|[B|[B|B]]]; [exact (j1 _ HI B i k Hin) | left; exact (AZ B) | left; exact B|].
    exfalso. apply negb_true_iff in B. exact (in_pending_nil s _ B Hin). }
  constructor; [exact H0 | | | | | | | | | exact K | apply (j2_intro _ K) | | ];
    unfold inflight, tlc, pending; sp; rewrite ?Eh, ?Ec, ?Ef, ?Em, ?Eg, ?Ep, ?Ed, ?Ek.
  - intros G. exact (ih _ HI (SG G)).
  - exact (ih2 _ HI).
  - exact (if1 _ HI).
  - intros i E. pose proof (if2 _ HI i E) as F. destruct (in_G p') eqn:G; [rewrite (SG eq_refl) in F; discriminate F|reflexivity].
  - exact (ir _ HI).
  - split; intros G; apply (imd _ HI); auto.
  - intros G. apply (ihd _ HI). apply orb_prop in G. apply orb_true_iff. destruct G; auto.
  - apply ia_iff. split; intros Z; [destruct (SZ Z) as [B|B]; [exact (AZ B) | exact B] | exact (SN Z)].
  - intros _ Hb i k Hin. destruct (SB Hb) as [B NZ]. exact (pre_inflight s i k NZ (j1 _ HI B i k Hin)).
  - intros _ Hb Hz. destruct (SB Hb) as [_ NZ]. destruct (NZ Hz).
  - destruct (iw _ HI) as [B C]. destruct Ew as [-> | ->]; rewrite ?B, C; split; reflexivity.
Qed.

(* A step that ends outside the handling of a generate_events: every assertion tied to a program point is void there,
   and what is left reads the lock, [handling], [cur], the threads' records and the poller's configuration. *)
Lemma Inv_out s s' : Inv s -> I0 s' -> fts s' = fts s -> in_G (lp s') = false ->
  (forall g, handling s' = Some (Some g) -> handling s = Some (Some g)) -> cur s' = cur s ->
  pk s' = pk s -> watched s' = watched s -> Inv s'.
Proof.
  intros HI H0 Ef G Eh Ec Ek Ew.
  assert (A : armed (lp s') = false) by (destruct (armed (lp s')) eqn:A; [apply armed_in_G in A; congruence|reflexivity]).
  assert (B : bl (lp s') = false) by (destruct (bl (lp s')) eqn:B; [apply bl_in_G in B; congruence|reflexivity]).
  assert (W : is_w (lp s') || is_p (lp s') = false) by (destruct (lp s'); try discriminate; reflexivity).
  assert (K : J1 s') by (intros A'; congruence).
  constructor; rewrite ?Ec, ?Ef, ?Ek, ?Ew.
  - exact H0.
  - congruence.
  - intros g E. exact (ih2 _ HI g (Eh g E)).
  - exact (if1 _ HI).
  - intros; exact G.
  - exact (ir _ HI).
  - apply orb_false_elim in W. split; intros; destruct W; congruence.
  - rewrite W. discriminate.
  - destruct (lp s'); try exact I; discriminate.
  - congruence.
  - apply (j2_intro _ K). congruence.
  - congruence.
  - exact (iw _ HI).
Qed.

Lemma loop_locked s i : I0 s -> 0 < lheld (lp s) -> fheld (fp (fts s i)) = 0.
Proof. intros H0 L. exact (excl s 0 (S i) H0 L ltac:(discriminate)). Qed.

(* the conjunct says nothing at this program point: the premise that places the loop in its region computes to false *)
Ltac void :=
  try split; intros; try match goal with B : _ \/ _ |- _ => destruct B as [B|[B _]] end; discriminate.

(* The invariant over the kinds of step.  The transitions of the loop thread each conjunct depends on (over every
   other one it is carried as it stands, by Inv_out or Inv_move):
   i0: the lock operations; here a premise, since it follows from the step's effect on the lock (I0_effect);
   ih, ih2, if1, if2: LGSet only, under the lock;
   imd, ihd: LH, `event.handler = waiter`, only (ihd is also kept over the writes of time_left: same record);
   ia: the test (RTest) and the write (RWrite) of reduce_time_left, in its three callers;
   j1: entered at LGTest -> LGRel (both queues seen empty) and LGRed RRel -> LGRel (time_left = 0 by ia); kept over a
       timer handler's write (it overwrites a negative time_left) and over FallBackGenerator's reduce_time_left(0);
   j2, j3: the three entries into a blocked wait, WRdTl -> WWaitT, WTestNeg -> WWaitU, PRead -> PSel, each on a
       time_left just read as not 0;
   ir, iw: none (the loop never writes a thread's record; Select's weeding writes watched && pk = watched).
   The reads and the entries into a region are cases of Inv_move, what was read being an argument of [lmove]; the
   writes are the cases below. *)
Lemma Inv_wstep s s' : Inv s -> I0 s' -> fts s' = fts s -> wstep s s' -> Inv s'.
Proof.
  intros HI H0 Ef W.
  pose proof (ih _ HI) as H. pose proof (if2 _ HI) as F2. pose proof (imd _ HI) as Md. pose proof (ihd _ HI) as Hd.
  pose proof (ia _ HI) as A. pose proof (j1 _ HI) as J.
  destruct W as [s' G Eh Ec Ek Ew|s1 p' Q M|g p' E P|C x R E|E|p' E ->]; try rewrite E in *.
  - exact (Inv_out s s' HI H0 Ef G Eh Ec Ek Ew).
  - exact (Inv_move s s1 p' HI Q H0 M).
  - (* LGSet, `self._currently_handling = event`: the one transition ih, ih2, if1, if2 depend on.  It is taken under
       the lock, so no firing thread holds a copy of [handling] that if1 or if2 would speak of; the program point after
       it lies in G and in no other region. *)
    assert (X : forall i h, fg (fp (fts s i)) = Some h -> False).
    { intros i h F. apply fg_held in F. rewrite (loop_locked s i (i0 _ HI)) in F; [lia | rewrite E; simpl; lia]. }
    destruct P as [-> | ->];
      (refine {| i0 := H0; ih := fun _ => eq_refl; ih2 := _; if1 := fun i g' F => match X i _ F with end;
                 if2 := fun i F => match X i _ F with end; ir := ir _ HI; imd := _; ihd := _; ia := I;
                 j1 := _; j2 := _; j3 := _; iw := iw _ HI |}; sp;
       [intros g' [= <-]; reflexivity | void | void | void | void | void]).
  - (* `self._time_left = x` in reduce_time_left(x): ia, j1 (and ihd, which speaks of the same record) depend on it;
       j2 and j3 do not, since the loop is at no blocked wait.  The goals are imd, ihd, ia, j1, j2, j3 for each of the
       three callers in turn. *)
    destruct R;
      refine {| i0 := H0; ih := fun _ => H eq_refl; ih2 := ih2 _ HI; if1 := if1 _ HI; if2 := F2; ir := ir _ HI;
                imd := _; ihd := _; ia := _; j1 := _; j2 := _; j3 := _; iw := iw _ HI |};
      unfold tlc, pending in *; sp; rewrite ?upd_same; sp.
    + (* arming: the loop is not yet armed and in no waiter *) void.
    + void.
    + (* ia: time_left = 0 from here to the end of the call *) reflexivity.
    + void.
    + void.
    + void.
    + (* a plain handler: armed, in no waiter *) void.
    + void.
    + exact I.
    + (* j1: the handler overwrites a negative time_left (ia), so no queued foreign event relied on time_left = 0 *)
      intros Ha i k Hin. destruct (J Ha i k Hin) as [Z|P]; [congruence | right; exact P].
    + void.
    + void.
    + (* after the wait: armed, in the waiter *) exact Md.
    + exact Hd.
    + reflexivity.
    + (* j1: time_left = 0 now *) left; reflexivity.
    + void.
    + void.
  - (* LH, `event.handler = h` for a plain handler: imd and ihd would depend on it, but the loop enters no waiter *)
    refine {| i0 := H0; ih := fun _ => H eq_refl; ih2 := ih2 _ HI; if1 := if1 _ HI; if2 := F2; ir := ir _ HI;
              imd := _; ihd := _; ia := I; j1 := _; j2 := _; j3 := _; iw := iw _ HI |};
      unfold tlc, pending in *; sp; rewrite ?upd_same; sp; [void | void | exact J | void | void].
  - (* LH, `event.handler = h` for the waiter: the one transition imd and ihd depend on: the waiter entered is the one
       of the mode, and the handler just written is the waiter *)
    destruct (md s) eqn:Em;
      (refine {| i0 := H0; ih := fun _ => H eq_refl; ih2 := ih2 _ HI; if1 := if1 _ HI; if2 := F2; ir := ir _ HI;
                 imd := _; ihd := _; ia := I; j1 := _; j2 := _; j3 := _; iw := iw _ HI |};
       unfold tlc, pending in *; sp; rewrite ?upd_same; sp;
       [split; intros B; (exact Em || discriminate B) | reflexivity | exact J | void | void]).
Qed.

(* One case analysis of [lstep] (28 program points by 26 labels, 64 cases left; it costs more to check than all that
   is read off it, so it is done once): what a step of the loop thread does to the firing threads' records (nothing),
   to the lock, to the queues ([qstep]) and to what the invariant reads ([wstep]). *)
Lemma lstep_view a s s' : lstep a s = Some s' ->
  fts s' = fts s /\ relock 0 (lheld (lp s)) (lheld (lp s')) s s' /\ qstep s s' /\ wstep s s'.
Proof.
  intros H. lstep_cases H; sp; (split; [reflexivity|split;
  [ rewrite ?Heql; break_goal; relock_case L
  | split;
    [ (* the constructor for the program point: its premises are hypotheses of the case or hold by computation *)
      lazymatch goal with
      | _ : lp _ = LIdle |- _ => apply q_count
      | _ : lp _ = LCnt |- _ => eapply q_app
      | _ : lp _ = LSnap |- _ => apply q_snap
      | _ : lp _ = LMove _ |- _ => eapply q_move
      | _ : lp _ = LBatch |- _ => eapply q_call
      | |- qstep _ (after_event _) => apply q_end
      | _ => apply q_event
      end; unfold same_q; sp; repeat split; rewrite ?Heql, ?Heqn; try eassumption; auto
    | (* the constructor for the program point; a step that writes none of [handling], time_left and the handler ends
         outside the handling of a generate_events, or is a control move: [lmove] by evaluation, after what the step
         read has been put in (Heqt: the value of time_left; Heqb: the arming test found both queues empty) and
         over the values time_left can have *)
      lazymatch goal with
      | _ : lp _ = LGSet _ |- _ => eapply w_cur; [eassumption | auto]
      | _ : lp _ = LGRed RWrite |- _ => apply (w_tl s _ _ rc_arm); assumption
      | _ : lp _ = LTimer RWrite |- _ => apply (w_tl s _ _ rc_timer); assumption
      | _ : lp _ = WAfter RWrite |- _ => apply (w_tl s _ _ rc_after); assumption
      | _ : lp _ = LH |- wstep _ (set_lp _ (LTimer _)) => apply w_plain; assumption
      | _ : lp _ = LH |- _ => apply w_wake; [assumption | rewrite Heqm; reflexivity]
      | _ => first
          [ solve [ apply w_out; sp; rewrite ?Heql; break_goal;
                    first [reflexivity | intros g' E; first [exact E | discriminate E]] ]
          | apply w_move; [unfold quiet; sp; repeat split; auto|]; unfold tlc; rewrite Heql; try rewrite Heqt;
            try (apply orb_false_elim in Heqb; rewrite (proj2 Heqb));
            destruct (gtl (gs s (cur s))); break_goal; reflexivity ]
      end ]]]).
Qed.

Lemma lstep_effect a s s' : lstep a s = Some s' ->
  fts s' = fts s /\ relock 0 (lheld (lp s)) (lheld (lp s')) s s' /\ qstep s s'.
Proof. intros H. destruct (lstep_view _ _ _ H) as (F & L & Q & _). auto. Qed.

Lemma I0_lstep a s s' : I0 s -> lstep a s = Some s' -> I0 s'.
Proof. intros HI H. destruct (lstep_view _ _ _ H) as (F & L & _). exact (I0_effect _ _ HI F L). Qed.

Lemma I0_step s ta s' : I0 s -> step s ta = Some s' -> I0 s'.
Proof.
  destruct ta as [[|i] a]; simpl; [apply I0_lstep | apply I0_fstep].
Qed.

Lemma Inv_lstep a s s' : Inv s -> lstep a s = Some s' -> Inv s'.
Proof.
  intros HI H. destruct (lstep_view _ _ _ H) as (F & L & _ & W).
  exact (Inv_wstep s s' HI (I0_effect _ _ (i0 _ HI) F L) F W).
Qed.

(* thread j is the moving thread i, or keeps its record *)
Ltac own j i := destruct (Nat.eq_dec j i) as [->|N]; [rewrite upd_same | rewrite (upd_other _ _ _ _ _ N)].

(* the generate_events a firing thread works on is the one the loop is handling *)
Ltac cur_g HI i :=
  try match goal with Hf : fp (fts _ i) = FRed ?g _ |- _ =>
    let E := fresh in pose proof (if1 _ HI i g) as E; rewrite Hf in E; specialize (E eq_refl); subst g end.

(* The loop thread's fields stay (fstep_effect); the rest, conjunct by conjunct, over the cases of the step of
   thread i; the cases closed in one line are those where the old fact applies. *)
Lemma Inv_fstep i a s s' : Inv s -> fstep i a s = Some s' -> Inv s'.
Proof.
  intros HI H. destruct (fstep_effect _ _ _ _ H) as ((Fl & Fh & Fc & Fm & Fk & Fw & Fg) & _).
  pose proof (proj2 (iw _ HI)) as Hw.
  assert (K : J1 s').
  { clear - HI H. pose proof (j1 _ HI) as J.
    fstep_cases H; cur_g HI i; unfold J1, tlc, pending in *; sp; intros Ha j k Hin; rewrite ?upd_same.
    all: try (apply pend_snoc in Hin; destruct Hin as [Hin|Hin]).
    all: try (destruct (J Ha j k Hin) as [Z|[Ek P]]; [left; exact Z|]; own j i; [|right; split; assumption];
         rewrite E in P; try discriminate P; cbn [fp fapp fl_pre]).
    all: try (right; split; [assumption|reflexivity]).
    - (* the new event belongs to a thread about to zero time_left: one that saw no generate_events being handled
         appends while the loop is outside G *)
      injection Hin as -> ->. rewrite upd_same. right. split; [reflexivity|]. destruct h; [reflexivity|].
      pose proof (if2 _ HI i) as X. rewrite E in X. specialize (X eq_refl). apply armed_in_G in Ha. congruence.
    - destruct (must_write _ Zero) eqn:M; [right; split; [assumption|reflexivity] | left; exact (must_write_zero _ M)].
    - left; reflexivity. }
  constructor.
  - exact (I0_fstep _ _ _ _ (i0 _ HI) H).
  - rewrite Fl, Fh, Fc. apply (ih _ HI).
  - rewrite Fh, Fc. apply (ih2 _ HI).
  - (* if1: the thread copies [handling]; if it names a generate_events, that is the current one *)
    rewrite Fc. clear - HI H. pose proof (if1 _ HI i) as A.
    fstep_cases H; sp; intros j; (own j i; [|apply (if1 _ HI)]); rewrite E in A; cbn [fp fg] in *; try discriminate; try exact A.
    + destruct (handling s) as [[g|]|] eqn:Eh; try discriminate. intros g' [= <-]. apply (ih2 _ HI _ Eh).
    + destruct h; [exact A|discriminate].
  - (* if2: ... otherwise the loop is outside G *)
    rewrite Fl. clear - HI H. pose proof (if2 _ HI i) as A.
    fstep_cases H; sp; intros j; (own j i; [|apply (if2 _ HI)]); rewrite E in A; cbn [fp fg] in *; try discriminate; try exact A.
    + destruct (in_G (lp s)) eqn:G; [rewrite (ih _ HI G); discriminate|reflexivity].
    + destruct h; discriminate.
  - clear - HI H. pose proof (ir _ HI i) as A.
    fstep_cases H; sp; intros j; (own j i; [|apply (ir _ HI)]); rewrite E in A; cbn [fp fapp fret] in *; try lia; break_goal; lia.
  - rewrite Fl, Fm. apply (imd _ HI).
  - rewrite Fl, Fc, Fg. apply (ihd _ HI).
  - (* ia: time_left is written under the lock, the loop is outside its own critical sections *)
    clear - HI H. fstep_cases H; cur_g HI i; try exact (ia _ HI).
    apply ia_unlocked. apply (excl s (S i) 0 (i0 _ HI)); [simpl; rewrite E; simpl; lia | discriminate].
  - exact K.
  - apply (j2_intro _ K). clear - HI H Hw. pose proof (j2 _ HI) as J.
    fstep_cases H; cur_g HI i; unfold inflight, tlc, signalled, pending in *; sp; intros Hs Hb j k Hin; rewrite ?upd_same.
    all: try (* resume() has just signalled *) (exfalso; rewrite Hw in Hs; destruct (md s); discriminate Hs).
    all: try (apply pend_snoc in Hin; destruct Hin as [Hin|Hin]).
    all: (* at a blocked wait the handler read by reduce_time_left is the waiter *) try rewrite (ihd _ HI (bl_wp _ Hb)).
    all: try (destruct (J Hs (or_introl Hb) j k Hin) as [Ek M]; own j i; [|split; assumption];
              rewrite E in M; try (exfalso; exact M); cbn [fp fapp]; split; try assumption; try exact I).
    + (* the new event: its thread holds the lock, so nobody else is about to signal and time_left is not 0; a
         thread that saw no generate_events being handled appends while the loop is outside G *)
      injection Hin as -> ->. rewrite upd_same. cbn [fp fapp]. split; [reflexivity|]. destruct h.
      * apply (holder_nonzero _ s i (i0 _ HI) (j3 _ HI) Hs Hb); rewrite E; simpl; [lia|reflexivity].
      * pose proof (if2 _ HI i) as X. rewrite E, (bl_in_G _ Hb) in X. discriminate (X eq_refl).
    + destruct (gtl (gs s (cur s))); simpl; try exact I. apply M. reflexivity.
    + (* time_left := 0 by thread i, which holds the lock: every queued foreign event is its own *)
      destruct (J Hs (or_introl Hb) j k Hin) as [Ek M]. own j i; [split; [exact Ek|exact I]|].
      exfalso. pose proof (excl s (S i) (S j) (i0 _ HI)) as X. simpl in X. rewrite E in X.
      specialize (X ltac:(simpl; lia) ltac:(congruence)).
      destruct (fp (fts s j)); simpl in *; try contradiction; lia.
  - clear - HI H Hw. pose proof (j3 _ HI) as J.
    fstep_cases H; cur_g HI i; unfold tlc, signalled in *; sp; intros Hs Hb Hz; rewrite ?upd_same.
    all: try rewrite (ihd _ HI (bl_wp _ Hb)).
    all: first
      [ (* the moving thread is (still) on its way to resume() *)
        exists i; rewrite upd_same; reflexivity
      | (* resume() has just signalled *)
        exfalso; rewrite Hw in Hs; destruct (md s); discriminate Hs
      | destruct (J Hs Hb Hz) as [w Hw']; exists w; own w i; [|exact Hw'];
        rewrite E in Hw'; discriminate Hw' ].
  - rewrite Fk, Fw. apply (iw _ HI).
Qed.

Lemma Inv_step s ta s' : Inv s -> step s ta = Some s' -> Inv s'.
Proof.
  destruct ta as [[|i] a]; simpl; [apply Inv_lstep | apply Inv_fstep].
Qed.

Lemma Inv_reachable m s : reachable m s -> Inv s.
Proof.
  apply reachable_ind'; [apply Inv_init | intros; eapply Inv_step; eassumption].
Qed.
