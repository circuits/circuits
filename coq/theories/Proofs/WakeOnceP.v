(* C03 — exactly once and per-thread order in the protocol model (Model/Wake.v). *)
From Coq Require Import List Arith Lia FinFun Sorted.
From Circ Require Import Lib.ListFacts Model.Wake Proofs.WakeInvP.
Import ListNotations.

Definition of_thread (i : nat) (e : ev) : bool := match e with EvF t _ => Nat.eqb t i | _ => false end.
Definition proj (i : nat) (l : list ev) : list ev := filter (of_thread i) l.
Definition Q (s : state) : list (nat * ev) := hp s ++ dq s.

Lemma proj_app i a b : proj i (a ++ b) = proj i a ++ proj i b.
Proof. apply filter_app. Qed.

Definition thr_sorted (i : nat) : list (nat * ev) -> Prop :=
  StronglySorted (fun p q => of_thread i (snd p) = true -> of_thread i (snd q) = true -> fst p < fst q).

Lemma thr_sorted_first i h1 k e h2 :
  thr_sorted i (h1 ++ (k, e) :: h2) -> of_thread i e = true ->
  (forall p, In p h1 -> k <= fst p) -> proj i (map snd h1) = [].
Proof.
  intros Hs Ht Hmin. apply SSorted_app_iff in Hs as (_ & _ & C).
  induction h1 as [|[k0 e0] h1 IH]; simpl; [reflexivity|].
  destruct (of_thread i e0) eqn:E0.
  - pose proof (C (k0, e0) (k, e) (or_introl eq_refl) (or_introl eq_refl) E0 Ht).
    pose proof (Hmin (k0, e0) (or_introl eq_refl)). simpl in *. lia.
  - apply IH; [intros x y Hx; apply C; right; exact Hx | intros p Hp; apply Hmin; right; exact Hp].
Qed.

(* exactly once, with the keys that give the order: d dispatched, q = heap ++ deque, c the counter, f the firing threads.
   The third conjunct (a thread about to append has its keys in q strictly below c) is what keeps thr_sorted at the append *)
Definition EKc (d : list ev) (q : list (nat * ev)) (c : nat) (f : nat -> fth) : Prop :=
  (forall i, proj i (d ++ map snd q) = map (EvF i) (seq 0 (fapp (f i)))) /\
  (forall k e, In (k, e) q -> k <= c) /\
  (forall i h, fp (f i) = FApp h -> forall k e, In (k, e) q -> of_thread i e = true -> k < c) /\
  (forall i, thr_sorted i q).

Definition EK (s : state) : Prop := EKc (disp s) (hp s ++ dq s) (ctr s) (fts s).

Lemma EK_init m : EK (init m).
Proof. repeat split; simpl; intros; try reflexivity; try contradiction; try discriminate; constructor. Qed.

Lemma ek_count d q c f f' : EKc d q c f -> (forall i, fapp (f' i) = fapp (f i)) -> EKc d q (S c) f'.
Proof.
  intros (E & K1 & K2 & K3) Hf. repeat split; auto.
  - intros i. rewrite Hf. apply E.
  - intros k e Hin. specialize (K1 _ _ Hin). lia.
  - intros i h _ k e Hin _. specialize (K1 _ _ Hin). lia.
Qed.

Lemma ek_pc d q c f f' : EKc d q c f -> (forall i, fapp (f' i) = fapp (f i)) ->
  (forall i h, fp (f' i) = FApp h -> fp (f i) = FApp h) -> EKc d q c f'.
Proof.
  intros (E & K1 & K2 & K3) Hf Hp. repeat split; auto.
  - intros i. rewrite Hf. apply E.
  - intros i h Hi. eapply K2. eapply Hp. exact Hi.
Qed.

Lemma proj_other i e l : of_thread i e = false -> proj i (l ++ [e]) = proj i l.
Proof. intros H. rewrite proj_app. simpl. rewrite H. apply app_nil_r. Qed.

Lemma ek_snoc_own d q c f e : EKc d q c f -> is_foreign e = false -> EKc d (q ++ [(c, e)]) c f.
Proof.
  intros (E & K1 & K2 & K3) Hf.
  assert (He : forall i, of_thread i e = false) by (intros i; destruct e; (reflexivity || discriminate)).
  repeat split.
  - intros i. rewrite map_app, app_assoc. simpl. rewrite proj_other by apply He. apply E.
  - intros k e' Hin. apply in_app_or in Hin. destruct Hin as [Hin|[Hin|[]]]; [eauto|inversion Hin; lia].
  - intros i h Hi k e' Hin Ht. apply in_app_or in Hin. destruct Hin as [Hin|[Hin|[]]]; [eauto|].
    inversion Hin; subst. rewrite He in Ht. discriminate.
  - intros i. apply SSorted_snoc; [apply K3|]. simpl. rewrite He. discriminate.
Qed.

Lemma ek_snoc_foreign d q c f i h p' :
  EKc d q c f -> fp (f i) = FApp h -> (forall h', p' <> FApp h') ->
  EKc d (q ++ [(c, EvF i (fapp (f i)))]) c
      (upd f i {| fp := p'; fapp := S (fapp (f i)); fret := fret (f i) |}).
Proof.
  intros (E & K1 & K2 & K3) Hi Hp'. repeat split.
  - intros j. rewrite map_app, app_assoc. simpl. unfold upd. destruct (Nat.eqb_spec j i).
    + subst j. cbn [fapp]. rewrite seq_S, map_app, proj_app, E. simpl. rewrite Nat.eqb_refl. reflexivity.
    + rewrite proj_other; [apply E|]. simpl. apply Nat.eqb_neq. congruence.
  - intros k e' Hin. apply in_app_or in Hin. destruct Hin as [Hin|[Hin|[]]]; [eauto|inversion Hin; lia].
  - intros j h0 Hj k e' Hin Ht. unfold upd in Hj. destruct (Nat.eqb_spec j i).
    + subst. simpl in Hj. exfalso. eapply Hp'. exact Hj.
    + apply in_app_or in Hin. destruct Hin as [Hin|[Hin|[]]]; [eauto|].
      inversion Hin; subst. simpl in Ht. apply Nat.eqb_eq in Ht. congruence.
  - intros j. apply SSorted_snoc; [apply K3|]. simpl. intros [k' e'] Hin Ht' Ht.
    apply Nat.eqb_eq in Ht. subst j. eapply K2; eauto.
Qed.

Lemma ek_call d (hq dq0 : list (nat * ev)) c f e k r :
  EKc d (hq ++ dq0) c f -> remove_ev e hq = Some (k, r) -> forallb (fun p => Nat.leb k (fst p)) r = true ->
  EKc (d ++ [e]) (r ++ dq0) c f.
Proof.
  intros (E & K1 & K2 & K3) Hr Hmin. destruct (remove_ev_spec _ _ _ _ Hr) as [h1 [h2 [A B]]]. subst hq r.
  assert (Hsub : forall x, In x ((h1 ++ h2) ++ dq0) -> In x ((h1 ++ (k, e) :: h2) ++ dq0)).
  { intros x Hx. apply in_app_or in Hx. apply in_or_app. destruct Hx as [Hx|Hx]; [left|right; exact Hx].
    apply in_app_or in Hx. apply in_or_app. destruct Hx; [left|right; right]; assumption. }
  repeat split.
  - intros i. rewrite <- E. rewrite <- !app_assoc. rewrite !proj_app. f_equal.
    rewrite !map_app, !proj_app. simpl.
    destruct (of_thread i e) eqn:Ht.
    + assert (H0 : proj i (map snd h1) = []).
      { eapply thr_sorted_first with (h2 := h2 ++ dq0); [rewrite app_comm_cons, app_assoc; apply K3 | exact Ht |].
        intros p Hp. rewrite forallb_forall in Hmin. apply Nat.leb_le. apply Hmin. apply in_or_app. left. exact Hp. }
      rewrite H0. simpl. reflexivity.
    + simpl. reflexivity.
  - intros k' e' Hin. eauto.
  - intros i h Hi k' e' Hin. eauto.
  - intros i. rewrite <- app_assoc. eapply SSorted_remove_mid. rewrite app_comm_cons, app_assoc. apply K3.
Qed.

Lemma Q_move (h : list (nat * ev)) x r : (h ++ [x]) ++ r = h ++ x :: r.
Proof. rewrite <- app_assoc. reflexivity. Qed.

Lemma EK_lstep a s s' : EK s -> lstep a s = Some s' -> EK s'.
Proof.
  intros HE H. destruct (lstep_effect _ _ _ H) as (F & _ & Hq). unfold EK in *. rewrite F.
  destruct Hq as [_ _ Sq|e _ _ He Sq|_ _ Sq|n x r _ Ed _ Sq|e b k r _ _ Hr Hm _ Sq|_ _ Sq|_ _ Sq];
    destruct Sq as (-> & -> & -> & _ & ->); sp.
  - apply ek_count with (f := fts s); [exact HE|reflexivity].
  - rewrite app_assoc. apply ek_snoc_own; assumption.
  - exact HE.
  - rewrite Q_move, <- Ed. exact HE.
  - eapply ek_call; eassumption.
  - exact HE.
  - exact HE.
Qed.

Lemma upd_fapp (f : nat -> fth) i r : fapp r = fapp (f i) -> forall j, fapp (upd f i r j) = fapp (f j).
Proof. intros E j. own j i; [exact E|reflexivity]. Qed.

Lemma EK_fstep i a s s' : EK s -> fstep i a s = Some s' -> EK s'.
Proof.
  intros HE H. unfold EK in *.
  fstep_cases H; sp;
    first [ rewrite app_assoc; eapply ek_snoc_foreign; [exact HE | eassumption | intros; destruct h; discriminate]
          | apply ek_count with (f := fts s); [exact HE | apply upd_fapp; reflexivity]
          | apply ek_pc with (f := fts s); [exact HE | apply upd_fapp; reflexivity |];
            intros j h; own j i; [discriminate | exact (fun E => E)] ].
Qed.

Lemma EK_step s ta s' : EK s -> step s ta = Some s' -> EK s'.
Proof.
  destruct ta as [[|i] a]; simpl; [apply EK_lstep | apply EK_fstep].
Qed.

Lemma EK_reachable m s : reachable m s -> EK s.
Proof.
  apply reachable_ind'; [apply EK_init | intros; eapply EK_step; eassumption].
Qed.

(* The events of firing thread i that have been handed to the dispatcher, followed by those still in the
   queue, are exactly its events 0, 1, ..., fapp-1 in firing order: none lost, none duplicated, and they are
   dispatched in the order in which the thread fired them. *)
Theorem exactly_once_in_order : forall m s, reachable m s -> forall i,
  proj i (disp s ++ pending s) = map (EvF i) (seq 0 (fapp (fts s i))).
Proof.
  intros m s Hr i. destruct (EK_reachable _ _ Hr) as [E _]. unfold pending. rewrite <- map_app. apply E.
Qed.

Lemma firstn_seq0 n m : n <= m -> firstn n (seq 0 m) = seq 0 n.
Proof.
  intros H. replace m with (n + (m - n)) by lia. rewrite seq_app, firstn_app, seq_length, Nat.sub_diag.
  simpl. rewrite app_nil_r. rewrite <- (seq_length n 0) at 1. apply firstn_all.
Qed.

Lemma NoDup_map_seq i n : NoDup (map (EvF i) (seq 0 n)).
Proof.
  apply Injective_map_NoDup; [|apply seq_NoDup]. intros a b H. congruence.
Qed.

Theorem dispatched_once : forall m s, reachable m s -> forall i,
  NoDup (proj i (disp s)) /\
  exists n, n <= fapp (fts s i) /\ proj i (disp s) = map (EvF i) (seq 0 n).
Proof.
  intros m s Hr i. pose proof (exactly_once_in_order m s Hr i) as H. rewrite proj_app in H.
  assert (Hpre : exists n, n <= fapp (fts s i) /\ proj i (disp s) = map (EvF i) (seq 0 n)).
  { remember (proj i (disp s)) as a. remember (proj i (pending s)) as b. clear - H.
    exists (length a). assert (HL : length a + length b = fapp (fts s i)).
    { rewrite <- app_length, H, map_length, seq_length. reflexivity. }
    split; [lia|].
    assert (Ha : a = firstn (length a) (a ++ b)).
    { rewrite firstn_app, firstn_all, Nat.sub_diag. simpl. rewrite app_nil_r. reflexivity. }
    rewrite Ha at 1. rewrite H, firstn_map, firstn_seq0 by lia. reflexivity. }
  split; [|exact Hpre]. destruct Hpre as [n [_ Hn]]. rewrite Hn. apply NoDup_map_seq.
Qed.
