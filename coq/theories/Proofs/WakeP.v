(* C03 — theorems about the wake-up protocol model (Model/Wake.v), from the invariant of WakeInvP.v. *)
From Coq Require Import List Arith Bool Lia.
From Circ Require Import Model.Wake Proofs.WakeInvP.

Lemma blocked_region s : Inv s -> blocked s = true -> signalled s = false /\ bl (lp s) = true.
Proof.
  intros HI Hb. destruct (imd s HI) as [Hw Hp]. unfold blocked, signalled in *.
  destruct (lp s) eqn:E; try discriminate; simpl in *.
  - destruct x; try discriminate. rewrite (Hw eq_refl). split; [|reflexivity].
    destruct (flag s); [discriminate|reflexivity].
  - rewrite (Hw eq_refl). split; [|reflexivity]. destruct (flag s); [discriminate|reflexivity].
  - rewrite (Hp eq_refl). destruct x; try discriminate;
      (split; [|reflexivity]); apply negb_true_iff in Hb; exact Hb.
Qed.

(* In every reachable state in which the loop thread sits in its idle wait with the wake object not
   signalled, every foreign event still queued belongs to a fire() call that has NOT returned: its
   thread is inside the critical section of _fire, holds the lock, and is on its way to resume(). *)
Theorem no_lost_wakeup : forall m s, reachable m s -> blocked s = true ->
  forall e, In e (pending s) -> returned s e = false.
Proof.
  intros m s Hr Hb e He. pose proof (Inv_reachable _ _ Hr) as HI.
  destruct (blocked_region _ HI Hb) as [Hs Hbl].
  destruct e as [g|i k|n]; try reflexivity. simpl.
  destruct (j2 s HI Hs (or_introl Hbl) i k He) as [Hk Hpc].
  pose proof (ir s HI i) as Hir. apply Nat.ltb_ge.
  destruct (fp (fts s i)) as [| | | |? []| |]; try contradiction; lia.
Qed.

(* ... more precisely: that thread owns the lock and is inside reduce_time_left(0) on the generate_events
   the loop is waiting in, before its resume() *)
Theorem blocked_wake_in_flight : forall m s, reachable m s -> blocked s = true ->
  forall i k, In (EvF i k) (pending s) ->
  S k = fapp (fts s i) /\
  (exists d, lock s = Some (S i, d)) /\
  exists r, fp (fts s i) = FRed (cur s) r /\ r <> RRel.
Proof.
  intros m s Hr Hb i k He. pose proof (Inv_reachable _ _ Hr) as HI.
  destruct (blocked_region _ HI Hb) as [Hs Hbl].
  destruct (j2 s HI Hs (or_introl Hbl) i k He) as [Hk Hpc].
  split; [exact Hk|].
  pose proof (i0 s HI (S i)) as HL. unfold held, lockd in HL.
  pose proof (if1 s HI i) as H1.
  destruct (fp (fts s i)) as [| | | |g r| |] eqn:E; try contradiction.
  simpl in H1. specialize (H1 g eq_refl). subst g. split.
  - destruct (lock s) as [[o d]|]; [|simpl in HL; lia].
    destruct (Nat.eqb_spec (S i) o); [subst; eauto| simpl in HL; lia].
  - exists r. split; [reflexivity|].
    destruct r; try contradiction; discriminate.
Qed.
