(* C03 — progress: once every fire() has returned, the loop thread alone dispatches every queued foreign
   event within an explicit number of its own steps, never stepping out of a blocked wait (no timeout). *)
From Coq Require Import List Arith Bool Lia Sorted.
From Circ Require Import Lib.ListFacts Model.Wake Proofs.WakeInvP Proofs.WakeP Proofs.WakeOnceP.
Import ListNotations.

Definition nondec : list (nat * ev) -> Prop := StronglySorted (fun p q => fst p <= fst q).

(* the batch bookkeeping of dispatchEvents *)
Definition hbc (p : lpc) (h d : list (nat * ev)) (b : nat) : Prop :=
  match p with
  | LMove k => 1 <= k /\ k <= length d /\ length h + k = b
  | LSnap => d <> [] /\ h = [] /\ b = 0
  | LIdle | LCnt => h = [] /\ b = 0
  | LBatch => b = length h /\ b <> 0
  | _ => b = length h
  end.
Definition hb (s : state) : Prop := hbc (lp s) (hp s) (dq s) (batch s).

Lemma hbc_event p h d b : in_event p = true -> hbc p h d b = (b = length h).
Proof. destruct p; (discriminate || reflexivity). Qed.

(* with EK of WakeOnceP, which bounds the keys by the counter *)
Definition PI (s : state) : Prop := hb s /\ nondec (hp s ++ dq s).

Lemma PI_init m : PI (init m).
Proof. repeat split. constructor. Qed.

Lemma ek_bound s : EK s -> forall p, In p (hp s ++ dq s) -> fst p <= ctr s.
Proof. intros (_ & K1 & _) [k e] Hp. exact (K1 k e Hp). Qed.

Lemma remove_ev_len e l k r : remove_ev e l = Some (k, r) -> length l = S (length r).
Proof.
  intros H. destruct (remove_ev_spec _ _ _ _ H) as (h1 & h2 & -> & ->). rewrite !app_length. simpl. lia.
Qed.
Lemma remove_ev_nondec e l k r d : remove_ev e l = Some (k, r) -> nondec (l ++ d) -> nondec (r ++ d).
Proof.
  intros H Hn. destruct (remove_ev_spec _ _ _ _ H) as (h1 & h2 & -> & ->).
  rewrite <- app_assoc in *. exact (SSorted_remove_mid _ _ _ _ _ Hn).
Qed.

Lemma PI_lstep a s s' : EK s -> PI s -> lstep a s = Some s' -> PI s'.
Proof.
  intros HE (HB & ND) H. destruct (lstep_effect _ _ _ H) as (_ & _ & Hq). unfold PI, hb in *.
  destruct Hq as [E E' Sq|e E E' He Sq|E E' Sq|n x r E Ed E' Sq|e b k r E Eb Hr Hm E' Sq|E E' Sq|E E' Sq];
    destruct Sq as (-> & -> & _ & -> & _); sp; (split; [|first [exact ND | idtac]]).
  - rewrite E in HB. rewrite E'. exact HB.
  - rewrite E in HB. destruct E' as [-> | ->]; repeat split; try apply HB.
    intros Hx. apply app_eq_nil in Hx. destruct Hx. discriminate.
  - rewrite app_assoc. apply SSorted_snoc; [exact ND | exact (ek_bound s HE)].
  - rewrite E in HB. rewrite E'. destruct HB as (A & B & C). destruct (dq s); [congruence|].
    rewrite B. simpl. lia.
  - rewrite E in HB. rewrite E'. rewrite Ed in HB. destruct n; simpl in *; rewrite app_length; simpl; lia.
  - rewrite Q_move, <- Ed. exact ND.
  - rewrite E in HB. apply remove_ev_len in Hr. rewrite hbc_event by exact E'. simpl in HB. lia.
  - exact (remove_ev_nondec _ _ _ _ _ Hr ND).
  - rewrite hbc_event in * by assumption. exact HB.
  - rewrite hbc_event in HB by assumption. rewrite E'. destruct (batch s); [|split; congruence].
    destruct (hp s); [split; reflexivity|discriminate].
Qed.

Lemma hbc_snoc p h d b x : hbc p h d b -> hbc p h (d ++ [x]) b.
Proof.
  destruct p; simpl; auto.
  - intros (A & B & C). repeat split; auto. intros Hx. apply app_eq_nil in Hx. destruct Hx. discriminate.
  - rewrite app_length. simpl. lia.
Qed.

Lemma PI_fstep i a s s' : EK s -> PI s -> fstep i a s = Some s' -> PI s'.
Proof.
  intros HE (HB & ND) H. unfold PI, hb in *.
  fstep_cases H; sp; try (split; assumption).
  (* the append: the new key is the counter, which bounds every key queued (ek_bound) *)
  split; [apply hbc_snoc; exact HB|]; rewrite app_assoc; apply SSorted_snoc; [exact ND | exact (ek_bound s HE)].
Qed.

Lemma PI_reachable m s : reachable m s -> PI s.
Proof.
  intros Hr. refine (proj2 (reachable_ind' m (fun s => EK s /\ PI s) _ _ s Hr)).
  - split; [apply EK_init | apply PI_init].
  - intros s0 ta s1 [HE HP] Hs. split; [exact (EK_step _ _ _ HE Hs)|].
    destruct ta as [[|i] a]; [exact (PI_lstep _ _ _ HE HP Hs) | exact (PI_fstep _ _ _ _ HE HP Hs)].
Qed.

Definition rlabel (r : rpc) : lbl :=
  match r with RAcq => AAcq | RTest => ARdTl | RWrite => ARWrite | RHd => ARHd | RGet => ARGet
             | RSig => ASig | RRel => ARel end.

(* what the loop thread does next when left alone (it fires generate_events, runs no plain handler,
   takes the oldest entry of the heap; a wait / select returns what the wake object says) *)
Definition lnext (s : state) : lbl :=
  match lp s with
  | LIdle => ACount
  | LCnt => AAppG Neg
  | LSnap => ASnap
  | LMove _ => AMove
  | LBatch => ACall (match hp s with (_, e) :: _ => e | [] => EvO 0 end)
  | LOSet _ => ASetH
  | LODisp _ => AClr
  | LGAcq _ => AAcq
  | LGSet _ => ASetH
  | LGTest => AArmTest
  | LGRed r | LTimer r | WAfter r => rlabel r
  | LGRel => ARel
  | LH => ASetHd HWake
  | WAcq => AAcq
  | WTest => ARdTl
  | WClear => AClear
  | WRel => ARel
  | WTestPos => ARdTl
  | WRdTl => ARdTl
  | WWaitT _ | WWaitU => AWait (flag s)
  | WTestNeg => ARdTl
  | PRead => ARdTl
  | PSel _ => ASelect (watched s) (watched s && (0 <? pipe s))
  | PDrain => APipeRd
  | LClr => AClr
  end.

Definition fpend (s : state) : list ev := filter is_foreign (pending s).
Definition all_idle (s : state) : Prop := forall i, fp (fts s i) = FIdle.

(* [rank p] falls with every step the loop thread takes inside an event along lnext (lnext_step: with a foreign event
   queued and the firing threads idle, time_left is 0 and the thread enters no wait; [rr]: inside reduce_time_left);
   KK bounds it (rank_lt).  [measure] charges KK for every heap entry, what is left of the event or of the move of the
   batch, and [tickf] for the tick that will fetch what is still in the deque. *)
Definition KK : nat := 40.
Definition rr (r : rpc) : nat :=
  match r with RAcq => 7 | RTest => 6 | RWrite => 5 | RHd => 4 | RGet => 3 | RSig => 2 | RRel => 1 end.
Definition rank (p : lpc) : nat :=
  match p with
  | LClr => 1 | WTestNeg => 2 | WWaitU => 3 | WAfter r => 3 + rr r
  | WWaitT _ => 11 | WRdTl => 12 | WTestPos => 13 | WRel => 14 | WClear => 15 | WTest => 16 | WAcq => 17
  | PDrain => 2 | PSel _ => 3 | PRead => 4
  | LH => 18 | LTimer r => 18 + rr r | LGRel => 26 | LGRed r => 26 + rr r
  | LGTest => 34 | LGSet _ => 35 | LGAcq _ => 36
  | LODisp _ => 1 | LOSet _ => 2
  | _ => 0
  end.
(* cost of one more tick, charged only while a foreign event is still in the deque *)
Definition tickf (l : list (nat * ev)) : nat :=
  if existsb (fun p => is_foreign (snd p)) l then 4 + (KK + 1) * (length l + 1) else 0.

Definition measure (s : state) : nat :=
  KK * length (hp s) +
  match lp s with
  | LIdle => 3 + (KK + 1) * (length (dq s) + 1)
  | LCnt => 2 + (KK + 1) * (length (dq s) + 1)
  | LSnap => 1 + (KK + 1) * length (dq s)
  | LMove k => (KK + 1) * k + tickf (skipn k (dq s))
  | p => rank p + tickf (dq s)
  end.

(* simpl would turn KK * _ into forty additions *)
Local Arguments Nat.mul : simpl never.

Lemma rank_lt p : rank p < KK.
Proof. destruct p; try destruct r; apply Nat.ltb_lt; reflexivity. Qed.

Lemma lock_idle s : I0 s -> all_idle s ->
  lock s = match lheld (lp s) with O => None | S n => Some (0, n) end.
Proof.
  intros H0 Hi. pose proof (H0 0) as A. unfold held, lockd in A.
  destruct (lock s) as [[o d]|] eqn:E.
  - destruct o.
    + simpl in A. rewrite A. reflexivity.
    + exfalso. pose proof (H0 (S o)) as B. unfold held, lockd in B. rewrite E, (Hi o), Nat.eqb_refl in B.
      simpl in B. discriminate.
  - rewrite A. reflexivity.
Qed.

Lemma fpend_in s : fpend s <> [] -> exists i k, In (EvF i k) (pending s).
Proof.
  unfold fpend. destruct (filter is_foreign (pending s)) as [|e l] eqn:E; [congruence|]. intros _.
  assert (Hin : In e (filter is_foreign (pending s))) by (rewrite E; left; reflexivity).
  apply filter_In in Hin. destruct Hin as [Hin Hf]. destruct e; try discriminate. eauto.
Qed.

Lemma idle_returned m s i k : reachable m s -> all_idle s -> In (EvF i k) (pending s) -> returned s (EvF i k) = true.
Proof.
  intros Hr Hi Hin. simpl. apply Nat.ltb_lt.
  pose proof (ir s (Inv_reachable _ _ Hr) i) as A. rewrite (Hi i) in A.
  pose proof (exactly_once_in_order m s Hr i) as E.
  assert (Hp : In (EvF i k) (proj i (disp s ++ pending s))).
  { unfold proj. apply filter_In. split; [apply in_or_app; right; exact Hin|]. simpl. apply Nat.eqb_refl. }
  rewrite E in Hp. apply in_map_iff in Hp. destruct Hp as [x [Hx Hs]]. inversion Hx; subst.
  apply in_seq in Hs. lia.
Qed.

Lemma not_blocked m s : reachable m s -> all_idle s -> fpend s <> [] -> blocked s = false.
Proof.
  intros Hr Hi Hf. destruct (blocked s) eqn:B; [|reflexivity]. exfalso.
  destruct (fpend_in _ Hf) as [i [k Hin]].
  pose proof (no_lost_wakeup m s Hr B _ Hin) as R. rewrite (idle_returned m s i k Hr Hi Hin) in R. discriminate.
Qed.

Lemma armed_zero m s : reachable m s -> all_idle s -> fpend s <> [] -> armed (lp s) = true -> tlc s = Zero.
Proof.
  intros Hr Hi Hf Ha. destruct (fpend_in _ Hf) as [i [k Hin]].
  destruct (j1 s (Inv_reachable _ _ Hr) Ha i k Hin) as [Z|[_ P]]; [exact Z|].
  rewrite (Hi i) in P. discriminate.
Qed.

Lemma ev_eqb_refl e : ev_eqb e e = true.
Proof. destruct e; simpl; rewrite ?Nat.eqb_refl; reflexivity. Qed.

Lemma tickf_nil_fpend (d : list (nat * ev)) : existsb (fun p => is_foreign (snd p)) d = false ->
  filter is_foreign (map snd d) = [].
Proof.
  intros He. induction d as [|[k e] d IH]; simpl in *; [reflexivity|].
  apply orb_false_elim in He. destruct He as [A B]. rewrite A. auto.
Qed.

Lemma nondec_head_min k e r (d : list (nat * ev)) :
  nondec (((k, e) :: r) ++ d) -> forallb (fun p => Nat.leb k (fst p)) r = true.
Proof.
  intros H. inversion H as [|? ? _ F]. apply Forall_app in F as [F _]. apply forallb_forall. intros p Hp.
  apply Nat.leb_le. exact (proj1 (Forall_forall _ _) F p Hp).
Qed.

Lemma rr_pos r : 0 < rr r.
Proof. destruct r; simpl; lia. Qed.

(* under lock_idle the loop thread's next step of reduce_time_left is enabled, and it gets nearer to the end *)
Lemma red_step_next g x r s n : lock s = match n with O => None | S d => Some (0, d) end -> rheld r <= n ->
  exists s1 o, red_step 0 g x r (rlabel r) s = Some (s1, o) /\ match o with Some r' => rr r' < rr r | None => True end.
Proof.
  intros HL Hn. unfold red_step, acquire, release.
  destruct r; simpl in *; rewrite ?HL; destruct n; try lia; simpl; eexists; eexists; (split; [reflexivity|]).
  all: simpl; repeat match goal with |- context [match ?c with _ => _ end] => destruct c end; simpl; lia.
Qed.

(* the step has been computed: it ends the event, or its target has a smaller rank *)
Ltac ranked :=
  eexists; split; [reflexivity|split; [discriminate || reflexivity|]]; intros Hs; try discriminate Hs;
  cbn [lp set_lp after_event]; repeat match goal with |- context [match ?c with _ => _ end] => destruct c end;
  (discriminate || (intros _; simpl; lia)).

(* the middle conjunct: after the append q_app allows LIdle and LSnap; lnext fires generate_events, whose append goes on
   to the snapshot, and only that target lowers the measure (qstep_measure) *)
Lemma lnext_step m s : reachable m s -> all_idle s -> fpend s <> [] ->
  exists s', lstep (lnext s) s = Some s' /\ (lp s = LCnt -> lp s' = LSnap) /\
   (in_event (lp s) = true -> in_event (lp s') = true -> rank (lp s') < rank (lp s)).
Proof.
  intros Hr Hi Hf.
  pose proof (Inv_reachable _ _ Hr) as HI. destruct (PI_reachable _ _ Hr) as (HB & ND).
  pose proof (lock_idle s (i0 s HI) Hi) as HL.
  pose proof (armed_zero m s Hr Hi Hf) as HZ. pose proof (not_blocked m s Hr Hi Hf) as HNB.
  unfold hb in HB. unfold blocked in HNB. unfold tlc in HZ.
  unfold lnext, lstep.
  destruct (lp s) eqn:E; simpl in HL, HZ; unfold acquire, release; rewrite ?HL, ?Bool.eqb_reflx; cbn [Nat.eqb andb];
    try (ranked; fail).
  - (* LMove: the deque still holds the rest of the batch *)
    destruct HB as (A & B & _). destruct n; [lia|]. destruct (dq s); [simpl in B; lia|]. ranked.
  - (* LBatch: the oldest heap entry is minimal *)
    destruct HB as [HB1 HB2]. destruct (hp s) as [|[k e] r]; [simpl in HB1; congruence|].
    rewrite HB1. simpl. rewrite ev_eqb_refl, (nondec_head_min k e r (dq s) ND). ranked.
  - destruct (red_step_next (cur s) Zero r s (S (rheld r)) HL (le_S _ _ (le_n _))) as (s1 & o & -> & Hrr).
    pose proof (rr_pos r). destruct o; ranked.
  - destruct (red_step_next (cur s) Pos r s (rheld r) HL (le_n _)) as (s1 & o & -> & Hrr).
    pose proof (rr_pos r). destruct o; ranked.
  - destruct (red_step_next (cur s) Zero r s (rheld r) HL (le_n _)) as (s1 & o & -> & Hrr).
    pose proof (rr_pos r). destruct o; ranked.
  - (* WTestNeg: time_left is zero, no second wait *)
    rewrite (HZ eq_refl). ranked.
  - (* PSel: not blocked *)
    destruct (watched s && (0 <? pipe s)); [ranked|]. destruct x; [discriminate HNB|ranked|ranked].
Qed.

Lemma measure_event s : in_event (lp s) = true \/ lp s = LBatch ->
  measure s = KK * length (hp s) + (rank (lp s) + tickf (dq s)).
Proof. unfold measure. destruct (lp s); intros [H|H]; try discriminate; reflexivity. Qed.

Lemma rank_pos p : in_event p = true -> 0 < rank p.
Proof. destruct p; simpl; intros; try discriminate; lia. Qed.

Lemma qstep_measure s s' : qstep s s' -> hb s -> (lp s = LCnt -> lp s' = LSnap) ->
  (in_event (lp s) = true -> in_event (lp s') = true -> rank (lp s') < rank (lp s)) ->
  measure s' < measure s \/ fpend s' = [].
Proof.
  intros Hq HB HC HR. unfold hb in HB.
  destruct Hq as [E E' Sq|e E E' He Sq|E E' Sq|n x r E Ed E' Sq|e b k r E Eb Hr Hm E' Sq|E E' Sq|E E' Sq];
    destruct Sq as (Qh & Qd & _ & _ & _); sp.
  - left. unfold measure. rewrite E, E', Qh, Qd. lia.
  - left. unfold measure. rewrite E, (HC E), Qh, Qd, app_length. simpl. lia.
  - left. rewrite E in HB. destruct HB as (A & B & C). unfold measure. rewrite E, E', Qh, Qd, B.
    destruct (length (dq s)) eqn:El; [apply length_zero_iff_nil in El; congruence|].
    rewrite <- El, skipn_all. change (tickf []) with 0. lia.
  - left. unfold measure. rewrite E, E', Qh, Qd, Ed, app_length. destruct n; cbn [skipn length rank]; lia.
  - left. rewrite (measure_event s), (measure_event s') by auto. rewrite Qh, Qd, E, (remove_ev_len _ _ _ _ Hr).
    pose proof (rank_lt (lp s')). cbn [rank]. lia.
  - left. rewrite (measure_event s), (measure_event s') by auto. rewrite Qh, Qd. specialize (HR E E'). lia.
  - rewrite hbc_event in HB by exact E. rewrite (measure_event s) by auto. pose proof (rank_pos _ E).
    unfold measure, fpend, pending. rewrite E', Qh, Qd. destruct (batch s).
    + destruct (hp s); [|discriminate]. unfold tickf.
      destruct (existsb (fun p => is_foreign (snd p)) (dq s)) eqn:Ex; [left; simpl; lia|right].
      exact (tickf_nil_fpend _ Ex).
    + left. simpl. lia.
Qed.

Lemma canon_step m s : reachable m s -> all_idle s -> fpend s <> [] ->
  exists s', lstep (lnext s) s = Some s' /\ (measure s' < measure s \/ fpend s' = []).
Proof.
  intros Hr Hi Hf. destruct (lnext_step m s Hr Hi Hf) as (s' & H & HC & HR). exists s'. split; [exact H|].
  apply qstep_measure; try assumption; [apply (lstep_effect _ _ _ H) | apply (PI_reachable _ _ Hr)].
Qed.

Definition drained (s : state) : bool := match fpend s with [] => true | _ => false end.

(* at most n steps of the loop thread, no other thread moves; it refuses to leave a blocked wait
   (= it never uses a Timeout transition) and stops as soon as no foreign event is queued *)
Fixpoint lrun (n : nat) (s : state) : option state :=
  if drained s then Some s
  else match n with
       | O => None
       | S n' =>
           if blocked s then None
           else match lstep (lnext s) s with
                | Some s' => lrun n' s'
                | None => None
                end
       end.

Lemma reachable_step m s ta s' : reachable m s -> step s ta = Some s' -> reachable m s'.
Proof.
  intros [tr Htr] Hs. exists (tr ++ [ta]). rewrite run_app, Htr. simpl. rewrite Hs. reflexivity.
Qed.

Lemma lrun_ok : forall n m s, reachable m s -> all_idle s -> measure s < n ->
  exists s', lrun n s = Some s' /\ fpend s' = [] /\ fts s' = fts s /\ reachable m s'.
Proof.
  induction n as [|n IH]; intros m s Hr Hi Hm; [lia|].
  simpl. unfold drained. destruct (fpend s) as [|e l] eqn:Ef.
  - exists s. auto.
  - assert (Hf : fpend s <> []) by (rewrite Ef; discriminate).
    rewrite (not_blocked m s Hr Hi Hf).
    destruct (canon_step m s Hr Hi Hf) as (s1 & E1 & Hc). rewrite E1.
    assert (Hr1 : reachable m s1) by (eapply reachable_step with (ta := (0, lnext s)); [exact Hr|exact E1]).
    pose proof (proj1 (lstep_effect _ _ _ E1)) as Hfts.
    assert (Hi1 : all_idle s1) by (intros i; rewrite Hfts; apply Hi).
    destruct Hc as [Hlt|Hd].
    + destruct (IH m s1 Hr1 Hi1 ltac:(lia)) as [s' (A & B & C & D)].
      exists s'. repeat split; auto. congruence.
    + exists s1. repeat split; auto. destruct n; simpl; unfold drained; rewrite Hd; reflexivity.
Qed.

(* From every reachable state in which every firing thread is outside fire(), the loop thread alone
   reaches a state without queued foreign events in at most [measure s + 1] of its own steps, never
   stepping out of a blocked wait. *)
Theorem progress : forall m s, reachable m s -> all_idle s ->
  exists s', lrun (S (measure s)) s = Some s' /\ fpend s' = [] /\ fts s' = fts s /\ reachable m s'.
Proof. intros m s Hr Hi. apply lrun_ok; auto. Qed.

Lemma proj_no_foreign l : filter is_foreign l = [] -> forall i, proj i l = [].
Proof.
  intros B i. unfold proj. induction l as [|e l IH]; simpl in *; [reflexivity|].
  destruct e; simpl in *; try discriminate; auto.
Qed.

Lemma lrun_trace : forall n s s', lrun n s = Some s' ->
  exists tr, length tr <= n /\ run s (map (fun a => (0, a)) tr) = Some s'.
Proof.
  induction n as [|n IH]; intros s s' H; simpl in H.
  - destruct (drained s); [|discriminate]. inversion H; subst. exists []. simpl. auto.
  - destruct (drained s).
    + inversion H; subst. exists []. simpl. split; [lia|reflexivity].
    + destruct (blocked s); [discriminate|].
      destruct (lstep (lnext s) s) as [s1|] eqn:E; [|discriminate].
      destruct (IH _ _ H) as [tr [Hl Hrun]]. exists (lnext s :: tr). split; [simpl; lia|].
      simpl. unfold step. simpl. rewrite E. exact Hrun.
Qed.
