(* C17 end to end: the frames one endpoint writes for a sequence of messages,
   concatenated and cut into reads in any way, are delivered by the other
   endpoint's codec as exactly those messages, in order; the receiver writes
   nothing and draws no key. *)
From Coq Require Import List NArith.
From Circ Require Import Model.WebSocket Proofs.WebSocketP.
Import ListNotations.
Open Scope N_scope.

(* the sender: a sequence of write() calls threaded through the codec state *)
Fixpoint send_all (keyfn : nat -> list N) (client : bool) (s : st) (ms : list msg)
  : R (st * list (list N)) :=
  match ms with
  | [] => ROk (s, [])
  | (t, p) :: r =>
      match send keyfn client s t p with
      | ROk (s1, x) =>
          match send_all keyfn client s1 r with
          | ROk (s2, w) => ROk (s2, written x ++ w)
          | RCrash => RCrash
          | RFuel => RFuel
          end
      | RCrash => RCrash
      | RFuel => RFuel
      end
  end.

Definition msg_item (k4 : nat -> key4) (client : bool) (n : nat) (m : msg) : item :=
  IMsg (fst m) (okey k4 client n, snd m, []) [].

(* the items written from key index n on *)
Fixpoint sent_items (k4 : nat -> key4) (client : bool) (n : nat) (ms : list msg) : list item :=
  match ms with
  | [] => []
  | m :: r => msg_item k4 client n m :: sent_items k4 client (bump client n) r
  end.

Lemma item_bytes_msg k4 client n t p :
  item_bytes (msg_item k4 client n (t, p)) = rfc_frame true (if t then 1 else 2) (okey k4 client n) p.
Proof. unfold msg_item, item_bytes. cbn [fst snd ctls_bytes map concat conts_bytes]. now rewrite !app_nil_r. Qed.

Lemma send_all_spec k4 client ms : forall s, csent s = false ->
  exists s', send_all (keyf k4) client s ms = ROk (s', map item_bytes (sent_items k4 client (nk (ps s)) ms))
             /\ csent s' = false /\ buf s' = buf s /\ crecv s' = crecv s.
Proof.
  induction ms as [|[t p] r IH]; intros s Hs.
  - exists s. cbn. repeat split; assumption.
  - cbn [send_all]. rewrite (send_rfc k4 client s t p Hs).
    set (s1 := mkS (buf s) (mkP (pend (ps s)) (ptype (ps s)) (bump client (nk (ps s)))) (crecv s) false).
    destruct (IH s1 eq_refl) as (s' & E & H1 & H2 & H3).
    rewrite E. exists s'. cbn [written sent_items map nk ps s1 app] in *.
    rewrite item_bytes_msg. repeat split; assumption.
Qed.

Lemma sent_items_wf k4 client ms : forall n, Forall (fun m => wf_len (snd m)) ms ->
  Forall wf_item (sent_items k4 client n ms).
Proof.
  induction ms as [|m r IH]; intros n H; [constructor|].
  inversion H as [|? ? Hm Hr]; subst. cbn [sent_items]. constructor; [|now apply IH].
  unfold msg_item, wf_item, wf_frag, frag_payload, frag_ctls. cbn [fst snd].
  split; [split; [exact Hm|constructor]|constructor].
Qed.

Lemma sent_items_length k4 client ms : forall n, length (sent_items k4 client n ms) = length ms.
Proof. induction ms as [|m r IH]; intros n; [reflexivity|]. cbn [sent_items length]. now rewrite IH. Qed.

Lemma sent_items_msgs k4 client ms : forall n, expected_msgs (sent_items k4 client n ms) = ms.
Proof.
  unfold expected_msgs. induction ms as [|[t p] r IH]; intros n; [reflexivity|].
  cbn [sent_items map concat item_msgs msg_item fst snd frag_payload app]. rewrite IH.
  now rewrite app_nil_r.
Qed.

Lemma sent_items_pings k4 client ms : forall n, expected_pings (sent_items k4 client n ms) = [].
Proof.
  unfold expected_pings. induction ms as [|m r IH]; intros n; [reflexivity|].
  cbn [sent_items map concat item_pings msg_item frag_ctls snd app]. now rewrite IH.
Qed.

Theorem end_to_end (ka kb : nat -> key4) (ca cb : bool) (sa : st) (nb : nat)
        (ms : list msg) (chunks : list (list N)) :
  csent sa = false -> Forall (fun m => wf_len (snd m)) ms ->
  exists sa' frames,
    send_all (keyf ka) ca sa ms = ROk (sa', frames) /\
    length frames = length ms /\
    (concat chunks = concat frames ->
     recv_all (keyf kb) cb (clean nb) chunks = ROk (clean nb, mkO ms [] 0)).
Proof.
  intros Hs Hw.
  destruct (send_all_spec ka ca ms sa Hs) as (sa' & E & _).
  exists sa', (map item_bytes (sent_items ka ca (nk (ps sa)) ms)).
  split; [exact E|split].
  - now rewrite map_length, sent_items_length.
  - intros Hc.
    pose proof (recv_items_any_cut kb cb (sent_items ka ca (nk (ps sa)) ms) nb chunks
                  (sent_items_wf ka ca ms _ Hw) Hc) as Hr.
    rewrite sent_items_msgs, sent_items_pings in Hr. exact Hr.
Qed.

Theorem end_to_end_close (ka kb : nat -> key4) (ca cb : bool) (sa : st) (nb : nat)
        (ms : list msg) (junk : list N) (chunks : list (list N)) :
  csent sa = false -> Forall (fun m => wf_len (snd m)) ms ->
  exists sa' frames sa'' cf,
    send_all (keyf ka) ca sa ms = ROk (sa', frames) /\
    on_close (keyf ka) ca sa' = ROk (sa'', mkO [] [cf] (if crecv sa then 1 else 0)%nat) /\
    csent sa'' = true /\
    (concat chunks = concat frames ++ cf ++ junk ->
     recv_all (keyf kb) cb (clean nb) chunks =
     ROk (mkS [] (mkP [] None (bump cb nb)) true true,
          mkO ms [rfc_frame true 8 (okey kb cb nb) []] 1)).
Proof.
  intros Hs Hw.
  destruct (send_all_spec ka ca ms sa Hs) as (sa' & E & Hcs & _ & Hcr).
  eexists sa', _, _, _.
  split; [exact E|]. rewrite (on_close_rfc ka ca sa' Hcs), Hcr.
  split; [reflexivity|]. split; [reflexivity|].
  intros Hc.
  assert (Wq : wf_len []) by reflexivity.
  pose proof (recv_items_close_any_cut kb cb (sent_items ka ca (nk (ps sa)) ms) nb
                (okey ka ca (nk (ps sa'))) [] junk chunks
                (sent_items_wf ka ca ms _ Hw) Wq Hc) as Hr.
  rewrite sent_items_msgs, sent_items_pings in Hr. exact Hr.
Qed.
