(* Proofs about the WebSocket codec model (Model/WebSocket.v).
   One frame: the encoder writes, and the decoder reads back, the RFC layout (header bytes, length
   field, key, masked payload).  The frame loop: [decode] is the loop with the fuel _parse_messages
   gives it; it satisfies the loop's equation without fuel ([decode_eq], [decode_ind]) and the streaming
   law [decode_app], from which segmentation follows.  On a conforming stream ([items_bytes]) the loop
   is computed item by item ([decode_frags], [decode_stream]); the component theorems are read off. *)
From Coq Require Import List NArith Arith Bool Lia ZifyBool.
From Circ Require Import Lib.ListFacts Model.WebSocket.
Import ListNotations.
Open Scope N_scope.

(* a fact about every x below a small bound from one evaluation over 0 .. n-1 (the bit fields of the two header bytes) *)
Lemma sweep (P : N -> bool) (n : nat) :
  forallb P (map N.of_nat (seq 0 n)) = true -> forall x, x < N.of_nat n -> P x = true.
Proof.
  intros H x Hx. rewrite forallb_forall in H. apply H.
  rewrite <- (N2Nat.id x). apply in_map. apply in_seq. lia.
Qed.

Lemma hdr0 (fin : bool) op : op < 16 ->
  b_final ((if fin then 128 else 0) + op) = fin /\ b_opcode ((if fin then 128 else 0) + op) = op.
Proof.
  intros H. unfold b_final, b_opcode.
  pose proof (sweep (fun op => (negb (N.land (128 + op) 128 =? 0)) && (N.land (128 + op) 15 =? op)
                             && (N.land (0 + op) 128 =? 0) && (N.land (0 + op) 15 =? op)) 16
                    eq_refl op H) as S.
  cbv beta in S. destruct fin; lia.
Qed.

Lemma hdr1 (masked : bool) n7 : n7 < 128 ->
  b_mask ((if masked then 128 else 0) + n7) = masked /\ b_len7 ((if masked then 128 else 0) + n7) = n7.
Proof.
  intros H. unfold b_mask, b_len7.
  pose proof (sweep (fun n => (negb (N.land (128 + n) 128 =? 0)) && (N.land (128 + n) 127 =? n)
                             && (N.land (0 + n) 128 =? 0) && (N.land (0 + n) 127 =? n)) 128
                    eq_refl n7 H) as S.
  cbv beta in S. destruct masked; lia.
Qed.

Lemma lor128 n : n < 128 -> N.lor n 128 = 128 + n.
Proof.
  intros H. pose proof (sweep (fun n => N.lor n 128 =? 128 + n) 128 eq_refl n H) as S.
  cbv beta in S. lia.
Qed.

Lemma of_uint_acc_N d : forall a, Nat.of_uint_acc d (Pos.to_nat a) = Pos.to_nat (Pos.of_uint_acc d a).
Proof.
  induction d as [|d IH|d IH|d IH|d IH|d IH|d IH|d IH|d IH|d IH|d IH]; intros a;
    cbn [Nat.of_uint_acc Pos.of_uint_acc]; [reflexivity|..]; rewrite <- IH; f_equal;
    rewrite Nat.tail_mul_spec, ?Pnat.Pos2Nat.inj_add, Pnat.Pos2Nat.inj_mul; reflexivity.
Qed.

(* a decimal numeral denotes the same number in nat and in N: a large nat literal (which Coq keeps as
   [Nat.of_num_uint] of its digits) is brought to N on the digits, never through its unary form
   (for the 65536-byte example of Props/C17.v) *)
Lemma of_uint_N d : N.of_nat (Nat.of_uint d) = N.of_uint d.
Proof.
  unfold Nat.of_uint, N.of_uint.
  induction d as [|d IH|d IH|d IH|d IH|d IH|d IH|d IH|d IH|d IH|d IH]; cbn [Nat.of_uint_acc Pos.of_uint];
    [reflexivity|exact IH|..].
  (* a leading digit k > 0: the accumulator starts at k on both sides *)
  all: match goal with |- context [Pos.of_uint_acc ?e ?k] =>
         change (N.of_nat (Nat.of_uint_acc e (Pos.to_nat k)) = N.pos (Pos.of_uint_acc e k)) end.
  all: now rewrite of_uint_acc_N, Znat.positive_nat_N.
Qed.

Lemma be_length k : forall n, length (be k n) = k.
Proof. induction k as [|k IH]; intros n; cbn [be]; [reflexivity|]. rewrite app_length, IH. cbn. lia. Qed.

Lemma be_decode_snoc l b : be_decode (l ++ [b]) = be_decode l * 256 + b.
Proof. unfold be_decode. rewrite fold_left_app. reflexivity. Qed.

Lemma be_decode_be k : forall n, be_decode (be k n) = n mod 256 ^ N.of_nat k.
Proof.
  induction k as [|k IH]; intros n.
  - cbn. now rewrite N.mod_1_r.
  - cbn [be]. rewrite be_decode_snoc, IH.
    rewrite Nat2N.inj_succ, N.pow_succ_r'.
    rewrite (N.mod_mul_r n 256 (256 ^ N.of_nat k)) by (try apply N.pow_nonzero; lia). lia.
Qed.

Lemma be_decode_small k n : n < 256 ^ N.of_nat k -> be_decode (be k n) = n.
Proof. intros H. rewrite be_decode_be. now apply N.mod_small. Qed.

Lemma byte_at n i : N.land (N.shiftr n (N.of_nat i * 8)) 255 = (n / 256 ^ N.of_nat i) mod 256.
Proof.
  change 255 with (N.ones 8). rewrite N.land_ones, N.shiftr_div_pow2.
  replace (2 ^ (N.of_nat i * 8)) with (256 ^ N.of_nat i); [reflexivity|].
  change 256 with (2 ^ 8). rewrite <- N.pow_mul_r. f_equal. lia.
Qed.

Lemma len_bytes_be k : forall n, len_bytes k n = be k n.
Proof.
  unfold len_bytes. induction k as [|k IH]; intros n; [reflexivity|].
  cbn [be]. rewrite <- IH.
  rewrite <- cons_seq, <- seq_shift. cbn [rev]. rewrite map_app. cbn [map].
  f_equal.
  - rewrite <- map_rev, map_map. apply map_ext. intros i.
    rewrite !byte_at. rewrite Nat2N.inj_succ, N.pow_succ_r', N.div_div by (try apply N.pow_nonzero; lia).
    reflexivity.
  - rewrite byte_at. cbn. now rewrite N.div_1_r.
Qed.

Lemma xor_cycle_invol d : forall k0 k1 k2 k3,
  xor_cycle k0 k1 k2 k3 (xor_cycle k0 k1 k2 k3 d) = d.
Proof.
  induction d as [|c t IH]; intros; cbn [xor_cycle]; [reflexivity|].
  rewrite IH, N.lxor_assoc, N.lxor_nilpotent, N.lxor_0_r. reflexivity.
Qed.

Lemma xor_cycle_length d : forall k0 k1 k2 k3, length (xor_cycle k0 k1 k2 k3 d) = length d.
Proof. induction d as [|c t IH]; intros; cbn [xor_cycle length]; [reflexivity|]. now rewrite IH. Qed.

Definition rot (j : N) (k0 k1 k2 k3 : N) (d : list N) : list N :=
  if j =? 0 then xor_cycle k0 k1 k2 k3 d
  else if j =? 1 then xor_cycle k1 k2 k3 k0 d
  else if j =? 2 then xor_cycle k2 k3 k0 k1 d
  else xor_cycle k3 k0 k1 k2 d.

Lemma mask_from_cycle k0 k1 k2 k3 d : forall i,
  mask_from [k0; k1; k2; k3] i d = Some (rot (i mod 4) k0 k1 k2 k3 d).
Proof.
  induction d as [|c t IH]; intros i.
  - cbn [mask_from]. unfold rot. now repeat destruct (_ =? _).
  - cbn [mask_from]. rewrite IH.
    assert (B : i mod 4 < 4) by (apply N.mod_upper_bound; lia).
    assert (S : (i + 1) mod 4 = (i mod 4 + 1) mod 4).
    { rewrite N.add_mod by lia. reflexivity. }
    rewrite S. clear S. revert B. generalize (i mod 4). intros j B.
    assert (C : j = 0 \/ j = 1 \/ j = 2 \/ j = 3) by lia.
    destruct C as [C|[C|[C|C]]]; rewrite C; reflexivity.
Qed.

Lemma mask_from_some key i d : length key = 4%nat -> exists m, mask_from key i d = Some m.
Proof.
  intros H. destruct key as [|k0 [|k1 [|k2 [|k3 [|]]]]]; try discriminate.
  eexists. apply mask_from_cycle.
Qed.

(* the layout of an RFC frame: flag byte, 7-bit length field, extended length, key, payload
   (masked with the key if there is one) *)
Definition len7 (n : N) : N := if n <=? 125 then n else if n <=? 65535 then 126 else 127.
Definition len_ext (n : N) : list N := if n <=? 125 then [] else if n <=? 65535 then be 2 n else be 8 n.
Definition mbit (mk : option key4) : bool := match mk with Some _ => true | None => false end.
Definition mkey (mk : option key4) : list N := match mk with Some k => key_list k | None => [] end.
Definition mpay (mk : option key4) (p : list N) : list N :=
  match mk with Some (k0, k1, k2, k3) => xor_cycle k0 k1 k2 k3 p | None => p end.

Lemma rfc_tail_layout mk p :
  rfc_tail mk p = ((if mbit mk then 128 else 0) + len7 (N.of_nat (length p)))
                  :: len_ext (N.of_nat (length p)) ++ mkey mk ++ mpay mk p.
Proof.
  unfold rfc_tail, len7, len_ext. destruct mk as [[[[k0 k1] k2] k3]|];
    (destruct (_ <=? 125); [|destruct (_ <=? 65535)]); reflexivity.
Qed.

Lemma len7_lt n : len7 n < 128.
Proof. unfold len7. destruct (n <=? 125) eqn:E; [|destruct (n <=? 65535)]; lia. Qed.

Lemma len_ext_length n : length (len_ext n) = ext_len (len7 n).
Proof.
  unfold len_ext, len7, ext_len. destruct (n <=? 125) eqn:E; [|destruct (n <=? 65535)].
  - now replace (n <? 126) with true by lia.
  - apply be_length.
  - apply be_length.
Qed.

(* the decoder's reading of the length field gives the length back *)
Lemma len_field_decode n : n < 2 ^ 64 ->
  (if len7 n <? 126 then len7 n else be_decode (len_ext n)) = n.
Proof.
  intros H. unfold len_ext, len7. destruct (n <=? 125) eqn:E1; [|destruct (n <=? 65535) eqn:E2].
  - now replace (n <? 126) with true by lia.
  - apply be_decode_small. change (256 ^ N.of_nat 2) with 65536. lia.
  - apply be_decode_small. exact H.
Qed.

Lemma mkey_length mk : length (mkey mk) = if mbit mk then 4%nat else 0%nat.
Proof. now destruct mk as [[[[k0 k1] k2] k3]|]. Qed.

Lemma mpay_length mk p : length (mpay mk p) = length p.
Proof. destruct mk as [[[[k0 k1] k2] k3]|]; [apply xor_cycle_length|reflexivity]. Qed.

Lemma mpay_invol mk p : mpay mk (mpay mk p) = p.
Proof. destruct mk as [[[[k0 k1] k2] k3]|]; [apply xor_cycle_invol|reflexivity]. Qed.

Lemma mask_key4 k d : mask_from (key_list k) 0 d = Some (mpay (Some k) d).
Proof. destruct k as [[[k0 k1] k2] k3]. cbn [key_list]. now rewrite mask_from_cycle. Qed.

Lemma encode_tail_rfc (mk : option key4) p :
  encode_tail p (option_map key_list mk) = Some (rfc_tail mk p).
Proof.
  rewrite rfc_tail_layout. unfold encode_tail, len7, len_ext. set (n := N.of_nat (length p)).
  destruct (n <=? 125) eqn:E1; [|destruct (n <=? 65535)]; rewrite ?len_bytes_be.
  all: destruct mk as [k|]; cbn [option_map mbit mkey]; [|reflexivity].
  all: now rewrite mask_key4, lor128 by lia.
Qed.

Lemma rfc_frame_length fin op mk p : (2 <= length (rfc_frame fin op mk p))%nat.
Proof. unfold rfc_frame. rewrite rfc_tail_layout. cbn [length]. lia. Qed.

Lemma firstn_app_exact {A} (a b : list A) n : n = length a -> firstn n (a ++ b) = a.
Proof. intros ->. rewrite firstn_app, Nat.sub_diag, firstn_all. cbn. apply app_nil_r. Qed.
Lemma skipn_app_exact {A} (a b : list A) n : n = length a -> skipn n (a ++ b) = b.
Proof. intros ->. rewrite skipn_app, Nat.sub_diag, skipn_all. reflexivity. Qed.

Definition wf_len (p : list N) := N.of_nat (length p) < 2 ^ 64.

Lemma parse_frame_layout (fin masked : bool) op n7 ext key p' rest :
  op < 16 -> n7 < 128 ->
  length ext = ext_len n7 ->
  N.of_nat (length p') = (if n7 <? 126 then n7 else be_decode ext) ->
  length key = (if masked then 4%nat else 0%nat) ->
  parse_frame (((if fin then 128 else 0) + op) :: ((if masked then 128 else 0) + n7)
               :: ext ++ key ++ p' ++ rest)
  = if masked then match mask_from key 0 p' with
                   | Some p => FFrame fin op p rest
                   | None => FCrash
                   end
    else FFrame fin op p' rest.
Proof.
  intros Hop Hn7 Hext Hlen Hkey. unfold parse_frame.
  destruct (hdr0 fin op Hop) as [-> ->]. destruct (hdr1 masked n7 Hn7) as [-> ->].
  rewrite <- Hext.
  replace (Nat.ltb (length (ext ++ key ++ p' ++ rest)) (length ext)) with false
    by (rewrite !app_length; symmetry; apply Nat.ltb_ge; lia).
  rewrite (firstn_app_exact ext) by reflexivity. rewrite (skipn_app_exact ext) by reflexivity.
  rewrite <- Hlen. rewrite <- Hkey.
  replace (N.of_nat (length (key ++ p' ++ rest)) <? N.of_nat (length key) + N.of_nat (length p')) with false
    by (rewrite !app_length; symmetry; apply N.ltb_ge; lia).
  rewrite (firstn_app_exact key) by reflexivity. rewrite (skipn_app_exact key) by reflexivity.
  rewrite Nat2N.id.
  rewrite (firstn_app_exact p') by reflexivity. rewrite (skipn_app_exact p') by reflexivity.
  reflexivity.
Qed.

Theorem parse_rfc_frame fin op mk p rest : op < 16 -> wf_len p ->
  parse_frame (rfc_frame fin op mk p ++ rest) = FFrame fin op p rest.
Proof.
  intros Hop Hp. unfold rfc_frame. rewrite rfc_tail_layout. cbn [app]. rewrite <- !app_assoc.
  rewrite parse_frame_layout.
  - destruct mk as [k|]; cbn [mbit mkey]; [|reflexivity]. now rewrite mask_key4, mpay_invol.
  - exact Hop.
  - apply len7_lt.
  - apply len_ext_length.
  - rewrite mpay_length. symmetry. apply len_field_decode, Hp.
  - apply mkey_length.
Qed.

Lemma parse_frame_app d x f o p r :
  parse_frame d = FFrame f o p r -> parse_frame (d ++ x) = FFrame f o p (r ++ x).
Proof.
  destruct d as [|b0 [|b1 r0]]; try discriminate. cbn [app]. unfold parse_frame.
  set (nb := ext_len (b_len7 b1)). set (klen := if b_mask b1 then 4%nat else 0%nat).
  destruct (Nat.ltb_spec (length r0) nb) as [|E1]; [discriminate|].
  rewrite (firstn_app_le r0 x nb E1), (skipn_app_le r0 x nb E1), !app_length.
  destruct (Nat.ltb_spec (length r0 + length x) nb); [lia|].
  set (plen := if b_len7 b1 <? 126 then _ else _).
  destruct (N.ltb_spec (N.of_nat (length (skipn nb r0))) (N.of_nat klen + plen)) as [|E2]; [discriminate|].
  destruct (N.ltb_spec (N.of_nat (length (skipn nb r0) + length x)) (N.of_nat klen + plen)); [lia|].
  rewrite (firstn_app_le (skipn nb r0)), (skipn_app_le (skipn nb r0)) by lia.
  rewrite firstn_app_le, skipn_app_le by (rewrite skipn_length; lia).
  destruct (b_mask b1); [destruct (mask_from _ 0 _); [|discriminate]|]; now intros [= <- <- <- <-].
Qed.

Lemma parse_frame_shorter d f o p r : parse_frame d = FFrame f o p r -> (length r + 2 <= length d)%nat.
Proof.
  destruct d as [|b0 [|b1 r0]]; try discriminate. unfold parse_frame.
  destruct (Nat.ltb _ _); [discriminate|].
  destruct (N.ltb _ _); [discriminate|].
  set (rest := skipn (N.to_nat _) _).
  assert (L : (length rest + 2 <= length (b0 :: b1 :: r0))%nat)
    by (subst rest; rewrite !skipn_length; cbn [length]; lia).
  clearbody rest.
  destruct (b_mask b1); [destruct (mask_from _ 0 _); [|discriminate]|]; intros [= _ _ _ <-]; exact L.
Qed.

(* the decoder never raises: the key slice has four bytes whenever it is used *)
Lemma parse_frame_total d : parse_frame d <> FCrash.
Proof.
  destruct d as [|b0 [|b1 r0]]; try discriminate. unfold parse_frame.
  destruct (Nat.ltb _ _); [discriminate|].
  destruct (N.ltb _ _) eqn:E2; [discriminate|]. apply N.ltb_ge in E2.
  destruct (b_mask b1); [|discriminate].
  match goal with |- context [mask_from ?k 0 ?q] => destruct (mask_from_some k 0 q) as [m ->] end;
    [|discriminate].
  rewrite firstn_length. lia.
Qed.

(* outputs of the frames already handled, in front of the result for the rest of the data *)
Definition prepend (ms : list msg) (ws : list (list N)) (r : R pres) : R pres :=
  match r with
  | ROk y => ROk (mkR (ms ++ r_msgs y) (ws ++ r_writes y) (r_closed y) (r_buf y) (r_ps y))
  | RCrash => RCrash
  | RFuel => RFuel
  end.

Lemma prepend_nil r : prepend [] [] r = r.
Proof. destruct r as [[a b c d e]| |]; reflexivity. Qed.
Lemma prepend_prepend a b c d r : prepend a b (prepend c d r) = prepend (a ++ c) (b ++ d) r.
Proof. destruct r as [y| |]; cbn; try reflexivity. now rewrite !app_assoc. Qed.

(* what the loop body decides after a frame: go on, with these outputs and this state, or stop *)
Inductive next := Go (ms : list msg) (ws : list (list N)) (p' : pstate) | Closed | Crashed.
Definition next_of (a : act) : next :=
  match a with
  | AMsg m p' => Go [m] [] p'
  | AWrite w p' => Go [] [w] p'
  | ASkip p' => Go [] [] p'
  | AClose => Closed
  | ACrash => Crashed
  end.

Section Loop.
Variable keyfn : nat -> list N.
Variable client : bool.
Notation loop := (loop keyfn client).
Notation frame_act := (frame_act keyfn client).

(* one turn of the loop, the rest of the data left to k *)
Definition turn (k : pstate -> list N -> R pres) (cs : bool) (p : pstate) (d : list N) : R pres :=
  match parse_frame d with
  | FIncomplete => ROk (mkR [] [] false d p)
  | FCrash => RCrash
  | FFrame fin o pl r =>
      match next_of (frame_act cs p fin o pl) with
      | Go ms ws p' => prepend ms ws (k p' r)
      | Closed => ROk (mkR [] [] true [] p)
      | Crashed => RCrash
      end
  end.

Lemma loop_S f cs p d : loop (S f) cs p d = turn (loop f cs) cs p d.
Proof.
  unfold turn. destruct d as [|b d']; [reflexivity|]. cbn [WebSocket.loop].
  destruct (parse_frame (b :: d')) as [|fin o pl r|]; try reflexivity.
  destruct (frame_act cs p fin o pl) as [m p'|w p'|p'| |]; cbn [next_of]; try reflexivity.
  1, 2: now destruct (loop f cs p' r).
  now rewrite prepend_nil.
Qed.

(* a turn hands over strictly less data: every frame consumes at least two bytes *)
Lemma turn_ext k1 k2 cs p d :
  (forall p' r, (length r < length d)%nat -> k1 p' r = k2 p' r) -> turn k1 cs p d = turn k2 cs p d.
Proof.
  intros H. unfold turn. destruct (parse_frame d) as [|fin o pl r|] eqn:E; try reflexivity.
  apply parse_frame_shorter in E. destruct (next_of _); try reflexivity. now rewrite H by lia.
Qed.

Lemma loop_fuel f : forall f' cs p d, (length d < f)%nat -> (length d < f')%nat ->
  loop f cs p d = loop f' cs p d.
Proof.
  induction f as [|f IH]; intros f' cs p d H1 H2; [lia|].
  destruct f' as [|f']; [lia|]. rewrite !loop_S. apply turn_ext. intros p' r L. apply IH; lia.
Qed.

(* the loop as _parse_messages runs it *)
Definition decode (cs : bool) (p : pstate) (d : list N) : R pres := loop (S (length d)) cs p d.

Lemma decode_eq cs p d : decode cs p d = turn (decode cs) cs p d.
Proof. unfold decode. rewrite loop_S. apply turn_ext. intros p' r L. apply loop_fuel; lia. Qed.

(* induction along the loop: what holds of the result for incomplete data and is kept by each frame
   holds of every result *)
Lemma decode_ind cs (P : pstate -> list N -> R pres -> Prop) :
  (forall p d, parse_frame d = FIncomplete -> P p d (ROk (mkR [] [] false d p))) ->
  (forall p d fin o pl r, parse_frame d = FFrame fin o pl r ->
     match next_of (frame_act cs p fin o pl) with
     | Go ms ws p' => forall res, P p' r res -> P p d (prepend ms ws res)
     | Closed => P p d (ROk (mkR [] [] true [] p))
     | Crashed => P p d RCrash
     end) ->
  forall p d, P p d (decode cs p d).
Proof.
  intros HI HF p d. unfold decode. generalize (Nat.lt_succ_diag_r (length d)).
  generalize (S (length d)). intros f. revert p d.
  induction f as [|f IH]; intros p d L; [lia|]. rewrite loop_S. unfold turn.
  destruct (parse_frame d) as [|fin o pl r|] eqn:E.
  - now apply HI.
  - specialize (HF p d fin o pl r E). apply parse_frame_shorter in E.
    destruct (next_of _); try assumption. apply HF, IH. lia.
  - now apply parse_frame_total in E.
Qed.

(* going on with x after a result: what it left in the buffer comes first; after a close frame
   nothing is read *)
Definition then_decode (cs : bool) (x : list N) (res : R pres) : R pres :=
  match res with
  | ROk r => if r_closed r then ROk r
             else prepend (r_msgs r) (r_writes r) (decode cs (r_ps r) (r_buf r ++ x))
  | RCrash => RCrash
  | RFuel => RFuel
  end.

Lemma decode_app cs x p d : decode cs p (d ++ x) = then_decode cs x (decode cs p d).
Proof.
  apply decode_ind with (P := fun p d res => decode cs p (d ++ x) = then_decode cs x res).
  - intros p0 d0 _. cbn [then_decode r_closed r_msgs r_writes r_ps r_buf]. now rewrite prepend_nil.
  - intros p0 d0 fin o pl r E. rewrite decode_eq. unfold turn. rewrite (parse_frame_app _ x _ _ _ _ E).
    destruct (next_of _); try reflexivity.
    intros [y| |] IH; rewrite IH; try reflexivity.
    cbn [then_decode prepend r_closed r_msgs r_writes r_ps r_buf].
    destruct (r_closed y) eqn:Ec; [cbn [prepend]; now rewrite Ec|]. now rewrite prepend_prepend.
Qed.

Notation recv := (recv keyfn client).
Notation recv_all := (recv_all keyfn client).
Notation on_close := (on_close keyfn client).

Lemma out_app_nil_r o : out_app o no_out = o.
Proof. destruct o as [d w c]. unfold out_app, no_out. cbn. now rewrite !app_nil_r, Nat.add_0_r. Qed.
Lemma out_app_nil_l o : out_app no_out o = o.
Proof. destruct o as [d w c]. reflexivity. Qed.

Lemma recv_closed s c : crecv s = true -> recv s c = ROk (s, no_out).
Proof. intros H. unfold WebSocket.recv. now rewrite H. Qed.

(* what a read event makes of the result of the frame loop *)
Definition finish (cs : bool) (res : R pres) : R (st * out) :=
  match res with
  | ROk r =>
      let s1 := mkS (r_buf r) (r_ps r) (r_closed r) cs in
      if r_closed r then
        match on_close s1 with
        | ROk (s2, o2) => ROk (s2, mkO (r_msgs r) (r_writes r ++ written o2) (pclose o2))
        | RCrash => RCrash
        | RFuel => RFuel
        end
      else ROk (s1, mkO (r_msgs r) (r_writes r) 0%nat)
  | RCrash => RCrash
  | RFuel => RFuel
  end.

Lemma recv_open s c : crecv s = false ->
  recv s c = finish (csent s) (decode (csent s) (ps s) (buf s ++ c)).
Proof. intros H. unfold WebSocket.recv. now rewrite H. Qed.

Lemma finish_prepend cs ms ws res :
  finish cs (prepend ms ws res) =
  match finish cs res with
  | ROk (s2, y) => ROk (s2, mkO (ms ++ delivered y) (ws ++ written y) (pclose y))
  | RCrash => RCrash
  | RFuel => RFuel
  end.
Proof.
  destruct res as [r| |]; try reflexivity. cbn [prepend finish r_closed r_msgs r_writes r_buf r_ps].
  destruct (r_closed r); [|reflexivity].
  destruct (on_close _) as [[s2 o2]| |]; try reflexivity. cbn [delivered written pclose].
  now rewrite app_assoc.
Qed.

Lemma on_close_crecv s s2 o2 : on_close s = ROk (s2, o2) -> crecv s2 = crecv s.
Proof.
  unfold WebSocket.on_close. destruct (csent s).
  - intros H; inversion H; reflexivity.
  - destruct (encode_tail _ _); [|discriminate]. intros H; inversion H; reflexivity.
Qed.

(* one step of recv_all as an equation, to rewrite at one occurrence (cbn [recv_all] unfolds every one, down the whole list) *)
Lemma recv_all_cons s c cs :
  recv_all s (c :: cs) =
  match recv s c with
  | ROk (s1, x) => match recv_all s1 cs with
                   | ROk (s2, y) => ROk (s2, out_app x y)
                   | RCrash => RCrash
                   | RFuel => RFuel
                   end
  | RCrash => RCrash
  | RFuel => RFuel
  end.
Proof. reflexivity. Qed.

Lemma recv_all_one s c : recv_all s [c] = recv s c.
Proof.
  cbn [WebSocket.recv_all]. destruct (recv s c) as [[s1 x]| |]; try reflexivity.
  now rewrite out_app_nil_r.
Qed.

Lemma recv_app s a b : recv_all s [a; b] = recv s (a ++ b).
Proof.
  rewrite recv_all_cons. destruct (crecv s) eqn:Ec.
  - rewrite !(recv_closed s) by exact Ec. now rewrite recv_all_one, recv_closed.
  - rewrite !(recv_open s) by exact Ec. rewrite app_assoc, (decode_app _ b).
    destruct (decode (csent s) (ps s) (buf s ++ a)) as [r| |]; try reflexivity.
    cbn [finish then_decode]. destruct (r_closed r) eqn:Er.
    + cbn [finish]. rewrite Er.
      destruct (on_close _) as [[s2 o2]| |] eqn:EO; try reflexivity.
      apply on_close_crecv in EO. rewrite recv_all_one, recv_closed by exact EO.
      now rewrite out_app_nil_r.
    + rewrite recv_all_one, recv_open, finish_prepend by reflexivity. cbn [csent ps buf].
      destruct (finish _ _) as [[s2 y]| |]; reflexivity.
Qed.

Theorem segmentation_ne cs : forall s c, recv_all s (c :: cs) = recv_all s [concat (c :: cs)].
Proof.
  induction cs as [|c' cs IH]; intros s c.
  - cbn [concat]. now rewrite app_nil_r.
  - rewrite (recv_all_cons s c (c' :: cs)).
    rewrite recv_all_one. change (concat (c :: c' :: cs)) with (c ++ concat (c' :: cs)).
    rewrite <- recv_app. rewrite (recv_all_cons s c [concat (c' :: cs)]).
    destruct (recv s c) as [[s1 x]| |]; try reflexivity.
    now rewrite (IH s1 c').
Qed.

Lemma recv_nil s : buf s = [] -> recv s [] = ROk (s, no_out).
Proof.
  intros H. unfold WebSocket.recv. destruct (crecv s) eqn:Ec; [reflexivity|].
  rewrite H. cbn. destruct s as [b p cr csn]. cbn in *. now subst.
Qed.

Theorem segmentation s chunks : buf s = [] ->
  recv_all s chunks = recv_all s [concat chunks].
Proof.
  intros H. destruct chunks as [|c cs]; [|apply segmentation_ne].
  cbn [concat WebSocket.recv_all]. now rewrite (recv_nil s H).
Qed.

End Loop.

Section Items.
Variable k4 : nat -> key4.          (* the masking keys the endpoint draws: any *)
Variable client : bool.
Definition keyf (n : nat) : list N := key_list (k4 n).
Notation decode := (decode keyf client).
Notation frame_act := (frame_act keyf client).
Notation bump := (bump client).

(* key of the n-th frame the endpoint writes *)
Definition okey (n : nat) : option key4 := if client then Some (k4 n) else None.

Lemma out_key_okey n : out_key keyf client n = option_map key_list (okey n).
Proof. unfold out_key, okey, keyf. now destruct client. Qed.

(* the pong frames answering the ping payloads qs, first key index n *)
Fixpoint pongs (n : nat) (qs : list (list N)) : list (list N) :=
  match qs with
  | [] => []
  | q :: r => rfc_frame true 10 (okey n) q :: pongs (bump n) r
  end.
Fixpoint bumps (n k : nat) : nat := match k with O => n | S k' => bumps (bump n) k' end.

Lemma pongs_app a : forall n b, pongs n (a ++ b) = pongs n a ++ pongs (bumps n (length a)) b.
Proof. induction a as [|q a IH]; intros n b; [reflexivity|]. cbn. now rewrite IH. Qed.
Lemma bumps_add a : forall n b, bumps n (a + b) = bumps (bumps n a) b.
Proof. induction a as [|a IH]; intros n b; [reflexivity|]. cbn. now rewrite IH. Qed.

(* ... unless the endpoint's close frame has been sent ([cs]): then pings are not answered *)
Definition pongs_if (cs : bool) (n : nat) (qs : list (list N)) : list (list N) :=
  if cs then [] else pongs n qs.
Definition bumps_if (cs : bool) (n k : nat) : nat := if cs then n else bumps n k.

Lemma pongs_if_app cs a n b :
  pongs_if cs n (a ++ b) = pongs_if cs n a ++ pongs_if cs (bumps_if cs n (length a)) b.
Proof. destruct cs; [reflexivity|apply pongs_app]. Qed.
Lemma bumps_if_add cs a n b : bumps_if cs n (a + b) = bumps_if cs (bumps_if cs n a) b.
Proof. destruct cs; [reflexivity|apply bumps_add]. Qed.
Lemma bumps_if_0 cs n : bumps_if cs n 0 = n.
Proof. now destruct cs. Qed.
Lemma pongs_if_nil cs n : pongs_if cs n [] = [].
Proof. now destruct cs. Qed.

(* the outputs of two stretches of a stream, one after the other *)
Lemma prepend_pongs cs n ms1 qs1 ms2 qs2 r :
  prepend ms1 (pongs_if cs n qs1) (prepend ms2 (pongs_if cs (bumps_if cs n (length qs1)) qs2) r)
  = prepend (ms1 ++ ms2) (pongs_if cs n (qs1 ++ qs2)) r.
Proof. now rewrite prepend_prepend, pongs_if_app. Qed.

Definition wf_ctl (c : ctl) := match c with Ping _ p => wf_len p | Pong _ p => wf_len p end.
Definition wf_frag (f : frag) := wf_len (frag_payload f) /\ Forall wf_ctl (frag_ctls f).
Definition wf_item (i : item) :=
  match i with
  | IMsg _ f more => wf_frag f /\ Forall wf_frag more
  | ICtl c => wf_ctl c
  end.

Lemma decode_rfc cs p fin op mk pl t : op < 16 -> wf_len pl ->
  decode cs p (rfc_frame fin op mk pl ++ t) =
  match next_of (frame_act cs p fin op pl) with
  | Go ms ws p' => prepend ms ws (decode cs p' t)
  | Closed => ROk (mkR [] [] true [] p)
  | Crashed => RCrash
  end.
Proof. intros Ho Hp. rewrite decode_eq. unfold turn. now rewrite parse_rfc_frame. Qed.

Lemma act_data cs p fin op pl : op <? 8 = true ->
  next_of (frame_act cs p fin op pl) =
  if fin then Go [(is_text op (ptype p), pend p ++ pl)] [] (mkP [] None (nk p))
  else Go [] [] (mkP (pend p ++ pl) (if op =? 0 then ptype p else Some op) (nk p)).
Proof. intros H. unfold WebSocket.frame_act. rewrite H. now destruct fin. Qed.

Lemma act_ping cs a ty n q :
  next_of (frame_act cs (mkP a ty n) true 9 q) = Go [] (pongs_if cs n [q]) (mkP a ty (bumps_if cs n 1)).
Proof.
  unfold WebSocket.frame_act. change (9 <? 8) with false. change (9 =? 8) with false.
  change (9 =? 9) with true. cbv iota. destruct cs; [reflexivity|].
  now rewrite out_key_okey, encode_tail_rfc.
Qed.

Lemma act_pong cs p q : next_of (frame_act cs p true 10 q) = Go [] [] p.
Proof. reflexivity. Qed.

Lemma act_close cs p q : next_of (frame_act cs p true 8 q) = Closed.
Proof. reflexivity. Qed.

(* control frames are answered and leave the pending message alone *)
Lemma decode_ctls cl : forall cs a ty n t, Forall wf_ctl cl ->
  decode cs (mkP a ty n) (ctls_bytes cl ++ t) =
  prepend [] (pongs_if cs n (concat (map ctl_pings cl)))
    (decode cs (mkP a ty (bumps_if cs n (length (concat (map ctl_pings cl))))) t).
Proof.
  induction cl as [|c cl IH]; intros cs a ty n t W.
  - cbn. now rewrite pongs_if_nil, bumps_if_0, prepend_nil.
  - inversion W as [|? ? Wc Wl]; subst.
    change (ctls_bytes (c :: cl)) with (ctl_frame c ++ ctls_bytes cl). rewrite <- app_assoc.
    destruct c as [k q|k q]; cbn [ctl_frame ctl_pings map concat].
    + rewrite decode_rfc, act_ping, IH by (assumption || lia).
      rewrite app_length, bumps_if_add. apply (prepend_pongs cs n [] [q] []).
    + rewrite decode_rfc, act_pong, prepend_nil by (assumption || lia). now apply IH.
Qed.

Definition frags_pings (l : list frag) : list (list N) :=
  concat (map ctl_pings (concat (map frag_ctls l))).

Lemma frags_pings_cons f l : frags_pings (f :: l) = concat (map ctl_pings (frag_ctls f)) ++ frags_pings l.
Proof. unfold frags_pings. cbn [map concat]. now rewrite map_app, concat_app. Qed.

(* the frames of a message: the first with opcode op, continuations with opcode 0, FIN on the last *)
Fixpoint frags_bytes (op : N) (l : list frag) : list N :=
  match l with
  | [] => []
  | (k, p, cs) :: r =>
      rfc_frame (match r with [] => true | _ => false end) op k p ++ ctls_bytes cs ++ frags_bytes 0 r
  end.

Lemma conts_frags more : conts_bytes more = frags_bytes 0 more.
Proof. induction more as [|[[k p] cs] r IH]; [reflexivity|]. cbn [conts_bytes frags_bytes]. now rewrite IH. Qed.

Lemma item_frags text f more :
  item_bytes (IMsg text f more) = frags_bytes (if text then 1 else 2) (f :: more).
Proof. destruct f as [[k p] cs]. cbn [item_bytes frags_bytes]. now rewrite conts_frags. Qed.

(* a continuation frame is of the type its first frame announced *)
Lemma is_text_cont op pt : is_text 0 (if op =? 0 then pt else Some op) = is_text op pt.
Proof.
  unfold is_text. destruct (op =? 0) eqn:E.
  - apply N.eqb_eq in E. now subst.
  - cbn. now rewrite orb_false_r.
Qed.

(* data frames assemble the message, whatever was pending; control frames in between are answered *)
Lemma decode_frags l : forall op cs acc pt n t, l <> [] -> op <? 8 = true -> Forall wf_frag l ->
  decode cs (mkP acc pt n) (frags_bytes op l ++ t) =
  prepend [(is_text op pt, acc ++ concat (map frag_payload l))] (pongs_if cs n (frags_pings l))
    (decode cs (mkP [] None (bumps_if cs n (length (frags_pings l)))) t).
Proof.
  induction l as [|[[k pl] cl] r IH]; intros op cs acc pt n t NE Hop W; [contradiction|].
  inversion W as [|? ? [Wp Wc] Wr]; subst. cbn [frag_payload frag_ctls fst snd] in Wp, Wc.
  cbn [frags_bytes]. rewrite <- !app_assoc.
  rewrite decode_rfc, act_data by (assumption || lia). cbn [pend ptype nk].
  rewrite frags_pings_cons, app_length, bumps_if_add. cbn [map concat frag_payload frag_ctls fst snd].
  destruct r as [|fr r'].
  - rewrite decode_ctls by assumption. cbn [frags_bytes app].
    rewrite prepend_prepend. unfold frags_pings. cbn [map concat length app].
    now rewrite bumps_if_0, !app_nil_r.
  - rewrite prepend_nil, decode_ctls, IH by (assumption || reflexivity || discriminate).
    rewrite is_text_cont, <- app_assoc. apply (prepend_pongs cs n []).
Qed.

(* _pending_type after an item: a message resets it, a control frame leaves it *)
Definition item_pt (pt : option N) (i : item) : option N :=
  match i with IMsg _ _ _ => None | ICtl _ => pt end.

Lemma decode_item i : forall cs pt n t, wf_item i ->
  decode cs (mkP [] pt n) (item_bytes i ++ t) =
  prepend (item_msgs i) (pongs_if cs n (item_pings i))
    (decode cs (mkP [] (item_pt pt i) (bumps_if cs n (length (item_pings i)))) t).
Proof.
  destruct i as [text f more|c]; intros cs pt n t W.
  - destruct W as [Wf Wm].
    rewrite item_frags, decode_frags by (try discriminate; try (now constructor); now destruct text).
    now destruct text.
  - cbn [item_bytes item_msgs item_pings item_pt].
    replace (ctl_frame c) with (ctls_bytes [c]) by apply app_nil_r.
    rewrite decode_ctls by (now constructor). cbn [map concat]. now rewrite app_nil_r.
Qed.

Definition items_pt (pt : option N) (l : list item) : option N := fold_left item_pt l pt.

Theorem decode_items l : forall cs pt n t, Forall wf_item l ->
  decode cs (mkP [] pt n) (items_bytes l ++ t) =
  prepend (expected_msgs l) (pongs_if cs n (expected_pings l))
    (decode cs (mkP [] (items_pt pt l) (bumps_if cs n (length (expected_pings l)))) t).
Proof.
  induction l as [|i l IH]; intros cs pt n t W.
  - cbn. now rewrite pongs_if_nil, bumps_if_0, prepend_nil.
  - inversion W as [|? ? Wi Wl]; subst.
    unfold items_bytes, expected_msgs, expected_pings, items_pt in *. cbn [map concat fold_left].
    rewrite <- app_assoc, decode_item, IH by assumption.
    rewrite app_length, bumps_if_add. apply prepend_pongs.
Qed.

(* from ANY codec state: the stream first completes the pending message (if one is pending),
   then carries whole items *)
Definition stream_ok (p : pstate) (more : list frag) : Prop :=
  match more with
  | [] => pend p = []                       (* nothing half-assembled, or it is empty so far *)
  | _ :: _ => exists ty, ptype p = Some ty  (* a first fragment has been seen *)
  end.
Definition completed (p : pstate) (more : list frag) : list msg :=
  match more with
  | [] => []
  | _ :: _ => [(match ptype p with Some ty => ty =? 1 | None => false end,
                pend p ++ concat (map frag_payload more))]
  end.
Definition stream_pt (p : pstate) (more : list frag) (l : list item) : option N :=
  items_pt (match more with [] => ptype p | _ :: _ => None end) l.
Definition stream_pings (more : list frag) (l : list item) : list (list N) :=
  frags_pings more ++ expected_pings l.

Theorem decode_stream cs p more l t : stream_ok p more -> Forall wf_frag more -> Forall wf_item l ->
  decode cs p (conts_bytes more ++ items_bytes l ++ t) =
  prepend (completed p more ++ expected_msgs l) (pongs_if cs (nk p) (stream_pings more l))
    (decode cs (mkP [] (stream_pt p more l) (bumps_if cs (nk p) (length (stream_pings more l)))) t).
Proof.
  intros OK Wm Wl. unfold stream_pings, stream_pt, completed. destruct p as [pe pt n]. cbn [pend ptype nk] in *.
  destruct more as [|fr more'].
  - cbn [stream_ok pend] in OK. subst pe. now apply decode_items.
  - rewrite conts_frags, decode_frags, decode_items by (assumption || reflexivity || discriminate).
    rewrite app_length, bumps_if_add. apply prepend_pongs.
Qed.

Definition clean (n : nat) : st := mkS [] (mkP [] None n) false false.
Notation recv := (recv keyf client).
Notation recv_all := (recv_all keyf client).
Notation send := (send keyf client).
Notation on_close := (on_close keyf client).

Definition after_stream (s : st) (more : list frag) (l : list item) : st :=
  mkS [] (mkP [] (stream_pt (ps s) more l)
              (bumps_if (csent s) (nk (ps s)) (length (stream_pings more l)))) false (csent s).
Definition out_stream (s : st) (more : list frag) (l : list item) : out :=
  mkO (completed (ps s) more ++ expected_msgs l)
      (pongs_if (csent s) (nk (ps s)) (stream_pings more l)) 0.

Theorem recv_stream s more l c : crecv s = false ->
  stream_ok (ps s) more -> Forall wf_frag more -> Forall wf_item l ->
  buf s ++ c = conts_bytes more ++ items_bytes l ->
  recv s c = ROk (after_stream s more l, out_stream s more l).
Proof.
  intros Ec OK Wm Wl E. rewrite recv_open, E by exact Ec.
  rewrite <- (app_nil_r (items_bytes l)), decode_stream by assumption.
  unfold after_stream, out_stream. cbn. now rewrite !app_nil_r.
Qed.

(* the close frame the endpoint sends: masked iff client *)
Lemma on_close_rfc s : csent s = false ->
  on_close s = ROk (mkS (buf s) (mkP (pend (ps s)) (ptype (ps s)) (bump (nk (ps s)))) (crecv s) true,
                    mkO [] [rfc_frame true 8 (okey (nk (ps s))) []] (if crecv s then 1 else 0)%nat).
Proof. intros H. unfold WebSocket.on_close. rewrite H, out_key_okey, encode_tail_rfc. reflexivity. Qed.
Lemma on_close_sent s : csent s = true ->
  on_close s = ROk (mkS (buf s) (ps s) (crecv s) true, mkO [] [] (if crecv s then 1 else 0)%nat).
Proof. intros H. unfold WebSocket.on_close. now rewrite H. Qed.

Definition close_reply (cs : bool) (n : nat) : list (list N) :=
  if cs then [] else [rfc_frame true 8 (okey n) []].

Theorem recv_stream_close s more l k q junk c : crecv s = false ->
  stream_ok (ps s) more -> Forall wf_frag more -> Forall wf_item l -> wf_len q ->
  buf s ++ c = conts_bytes more ++ items_bytes l ++ rfc_frame true 8 k q ++ junk ->
  recv s c =
  ROk (let s1 := after_stream s more l in
       mkS [] (mkP [] (ptype (ps s1)) (if csent s then nk (ps s1) else bump (nk (ps s1)))) true true,
       mkO (delivered (out_stream s more l))
           (written (out_stream s more l) ++ close_reply (csent s) (nk (ps (after_stream s more l)))) 1).
Proof.
  intros Ec OK Wm Wl Wq E. rewrite recv_open, E by exact Ec.
  rewrite decode_stream, decode_rfc, act_close by (assumption || lia).
  unfold after_stream, out_stream, close_reply.
  cbn [prepend finish r_closed r_msgs r_writes r_buf r_ps ps nk ptype delivered written csent].
  rewrite !app_nil_r. destruct (csent s) eqn:Ecs.
  - rewrite on_close_sent by reflexivity. cbn [written]. now rewrite app_nil_r.
  - now rewrite on_close_rfc by reflexivity.
Qed.

Lemma items_pt_none l : items_pt None l = None.
Proof. unfold items_pt. induction l as [|i l IH]; [reflexivity|]. cbn [fold_left]. now destruct i. Qed.

Lemma after_stream_clean n l : after_stream (clean n) [] l = clean (bumps n (length (expected_pings l))).
Proof. unfold after_stream, stream_pt, clean. cbn. now rewrite items_pt_none. Qed.

Theorem recv_items_any_cut l n chunks : Forall wf_item l -> concat chunks = items_bytes l ->
  recv_all (clean n) chunks =
  ROk (clean (bumps n (length (expected_pings l))),
       mkO (expected_msgs l) (pongs n (expected_pings l)) 0).
Proof.
  intros W E. rewrite (segmentation keyf client (clean n) chunks eq_refl), E, recv_all_one.
  rewrite (recv_stream (clean n) [] l) by (assumption || reflexivity || constructor).
  now rewrite after_stream_clean.
Qed.

Theorem recv_items_close_any_cut l n k q junk chunks : Forall wf_item l -> wf_len q ->
  concat chunks = items_bytes l ++ rfc_frame true 8 k q ++ junk ->
  recv_all (clean n) chunks =
  ROk (mkS [] (mkP [] None (bump (bumps n (length (expected_pings l))))) true true,
       mkO (expected_msgs l)
           (pongs n (expected_pings l) ++ [rfc_frame true 8 (okey (bumps n (length (expected_pings l)))) []]) 1).
Proof.
  intros W Wq E. rewrite (segmentation keyf client (clean n) chunks eq_refl), E, recv_all_one.
  rewrite (recv_stream_close (clean n) [] l k q junk) by (assumption || reflexivity || constructor).
  cbv zeta. now rewrite after_stream_clean.
Qed.

Theorem roundtrip (text : bool) mk p n chunks : wf_len p ->
  concat chunks = rfc_frame true (if text then 1 else 2) mk p ->
  recv_all (clean n) chunks = ROk (clean n, mkO [(text, p)] [] 0).
Proof.
  intros Wp E. rewrite (recv_items_any_cut [IMsg text (mk, p, []) []] n chunks).
  - cbn. now rewrite app_nil_r.
  - repeat constructor. exact Wp.
  - rewrite E. unfold items_bytes. cbn [map concat item_bytes ctls_bytes conts_bytes]. now rewrite !app_nil_r.
Qed.

Theorem send_rfc s text p : csent s = false ->
  send s text p =
  ROk (mkS (buf s) (mkP (pend (ps s)) (ptype (ps s)) (bump (nk (ps s)))) (crecv s) false,
       mkO [] [rfc_frame true (if text then 1 else 2) (okey (nk (ps s))) p] 0).
Proof.
  intros H. unfold WebSocket.send. rewrite H, out_key_okey, encode_tail_rfc.
  destruct text; reflexivity.
Qed.

Theorem send_closed s text p : csent s = true -> send s text p = ROk (s, no_out).
Proof. intros H. unfold WebSocket.send. now rewrite H. Qed.

Definition masked_as (b : bool) (w : list N) : Prop := frame_mask_bit w = Some b.

Lemma rfc_mask_bit fin op mk p : frame_mask_bit (rfc_frame fin op mk p) = Some (mbit mk).
Proof.
  unfold rfc_frame. rewrite rfc_tail_layout. cbn [frame_mask_bit]. f_equal. apply hdr1, len7_lt.
Qed.

Lemma okey_mask fin op n p : masked_as client (rfc_frame fin op (okey n) p).
Proof. unfold masked_as. rewrite rfc_mask_bit. unfold okey. now destruct client. Qed.

(* the loop body never raises; the only frame it writes is the pong, with the endpoint's key *)
Lemma act_writes cs p fin o pl :
  match next_of (frame_act cs p fin o pl) with
  | Go _ ws _ => Forall (masked_as client) ws
  | Closed => True
  | Crashed => False
  end.
Proof.
  unfold WebSocket.frame_act. rewrite out_key_okey, encode_tail_rfc.
  change (138 :: rfc_tail (okey (nk p)) ?m) with (rfc_frame true 10 (okey (nk p)) m).
  destruct fin; [destruct (o <? 8); [|destruct (o =? 8); [|destruct (o =? 9); [destruct cs|]]]|];
    cbn [next_of]; repeat constructor. apply okey_mask.
Qed.

Lemma decode_writes cs p d : exists r, decode cs p d = ROk r /\ Forall (masked_as client) (r_writes r).
Proof.
  apply decode_ind with (P := fun _ _ res => exists r, res = ROk r /\ Forall (masked_as client) (r_writes r)).
  - intros. eexists. split; [reflexivity|constructor].
  - intros p0 d0 fin o pl r _. pose proof (act_writes cs p0 fin o pl) as A.
    destruct (next_of _); [|eexists; split; [reflexivity|constructor]|contradiction].
    intros res (y & -> & M). eexists. split; [reflexivity|]. cbn [r_writes]. now apply Forall_app.
Qed.

Lemma on_close_masked s : exists s' x, on_close s = ROk (s', x) /\ Forall (masked_as client) (written x).
Proof.
  destruct (csent s) eqn:E; [rewrite on_close_sent by exact E|rewrite on_close_rfc by exact E];
    eexists _, _; (split; [reflexivity|]); repeat constructor. apply okey_mask.
Qed.

Lemma recv_masked s c : exists s' x, recv s c = ROk (s', x) /\ Forall (masked_as client) (written x).
Proof.
  destruct (crecv s) eqn:Ec.
  - rewrite recv_closed by exact Ec. eexists _, _. split; [reflexivity|constructor].
  - rewrite recv_open by exact Ec. destruct (decode_writes (csent s) (ps s) (buf s ++ c)) as (r & -> & M).
    cbn [finish]. destruct (r_closed r); [|eexists _, _; split; [reflexivity|exact M]].
    destruct (on_close_masked (mkS (r_buf r) (r_ps r) true (csent s))) as (s2 & o2 & -> & M2).
    eexists _, _. split; [reflexivity|]. now apply Forall_app.
Qed.

(* with four-byte keys ([keyf]) no operation raises, in whatever state and whatever bytes arrive; and
   every frame a client endpoint writes is masked, every frame a server endpoint writes is not *)
Theorem step_masked s o : exists s' x, step keyf client s o = ROk (s', x) /\ Forall (masked_as client) (written x).
Proof.
  destruct o as [c|text p|]; cbn [step].
  - apply recv_masked.
  - destruct (csent s) eqn:E; [rewrite send_closed by exact E|rewrite send_rfc by exact E];
      eexists _, _; (split; [reflexivity|]); repeat constructor. apply okey_mask.
  - apply on_close_masked.
Qed.

End Items.

Section Upgrade.
Variable keyfn : nat -> list N.
Variable client : bool.
Notation recv := (recv keyfn client).
Notation recv_all := (recv_all keyfn client).
Notation cread_all := (cread_all keyfn client).

Lemma crlf2_app l b : (4 <= length l)%nat -> crlf2 (l ++ b) = crlf2 l.
Proof. destruct l as [|a1 [|a2 [|a3 [|a4 l']]]]; cbn [length]; try lia. reflexivity. Qed.

(* the end of the header block, once found, does not move when more bytes arrive *)
Lemma split_head_grow l b : forall h r, split_head l = Some (h, r) ->
  (4 <= length l)%nat /\ split_head (l ++ b) = Some (h, r ++ b).
Proof.
  induction l as [|c t IH]; intros h r; [discriminate|].
  change ((c :: t) ++ b) with (c :: t ++ b). cbn [split_head].
  destruct (crlf2 (c :: t)) eqn:E.
  - destruct t as [|a2 [|a3 [|a4 l']]]; try discriminate E.
    intros [= <- <-]. split; [cbn [length]; lia|]. cbn [app crlf2] in *. now rewrite E.
  - destruct (split_head t) as [[h' r']|]; [|discriminate]. intros [= <- <-].
    destruct (IH h' r' eq_refl) as [L ->]. split; [cbn [length]; lia|].
    change (c :: t ++ b) with ((c :: t) ++ b). rewrite crlf2_app, E by (cbn [length]; lia). reflexivity.
Qed.

Lemma split_head_app l : forall b h r, split_head l = Some (h, r) -> split_head (l ++ b) = Some (h, r ++ b).
Proof. intros b h r H. now apply split_head_grow. Qed.

Definition lift_open (r : R (st * out)) : R (cstate * out) :=
  match r with
  | ROk (s, o) => ROk (COpen s, o)
  | RCrash => RCrash
  | RFuel => RFuel
  end.

Lemma cread_open s cs : cread_all (COpen s) cs = lift_open (recv_all s cs).
Proof.
  revert s. induction cs as [|d cs IH]; intros s; [reflexivity|].
  cbn [WebSocket.cread_all WebSocket.recv_all cread].
  destruct (recv s d) as [[s1 x]| |]; try reflexivity.
  rewrite IH. destruct (recv_all s1 cs) as [[s2 y]| |]; reflexivity.
Qed.

Theorem client_no_bytes_lost chunks : forall acc h rest,
  split_head acc = None ->
  split_head (acc ++ concat chunks) = Some (h, rest) ->
  cread_all (CHandshake acc) chunks = lift_open (recv init rest).
Proof.
  induction chunks as [|d cs IH]; intros acc h rest HN HS.
  - cbn [concat] in HS. rewrite app_nil_r in HS. congruence.
  - cbn [concat] in HS. rewrite app_assoc in HS.
    cbn [WebSocket.cread_all cread].
    destruct (split_head (acc ++ d)) as [[h' r']|] eqn:E.
    + rewrite (split_head_app _ (concat cs) _ _ E) in HS. inversion HS; subst.
      rewrite <- (recv_all_one keyfn client init (r' ++ concat cs)).
      change (r' ++ concat cs) with (concat (r' :: cs)).
      rewrite <- (segmentation_ne keyfn client cs init r').
      cbn [WebSocket.recv_all].
      destruct (recv init r') as [[s1 x]| |]; try reflexivity.
      rewrite cread_open. destruct (recv_all s1 cs) as [[s2 y]| |]; reflexivity.
    + rewrite (IH (acc ++ d) h rest E HS).
      destruct (recv init rest) as [[s o]| |]; cbn [lift_open]; try reflexivity.
      now rewrite out_app_nil_l.
Qed.

Definition dsock (o : dop) : nat :=
  match o with DUpgrade k | DRead k _ | DSend k _ _ | DClose k | DDisconnect k => k end.
Definition for_sock (k : nat) (ops : list dop) : list dop := filter (fun o => Nat.eqb (dsock o) k) ops.
Definition outs_of (k : nat) (xs : list (nat * out)) : list (nat * out) :=
  filter (fun x => Nat.eqb (fst x) k) xs.
Notation dstep := (dstep keyfn client).
Notation drun := (drun keyfn client).

Lemma t_set_same (t : table) k v : t_set t k v k = v.
Proof. unfold t_set. now rewrite Nat.eqb_refl. Qed.
Lemma t_set_other (t : table) k v j : j <> k -> t_set t k v j = t j.
Proof. intros H. unfold t_set. now destruct (Nat.eqb_spec j k). Qed.

(* an operation of socket k's codec: without a codec nothing happens; otherwise the codec's state is replaced *)
Definition upd (t : table) (k : nat) (f : st -> R (st * out)) : R (table * (nat * out)) :=
  match t k with
  | None => ROk (t, (k, no_out))
  | Some s => match f s with
              | ROk (s', x) => ROk (t_set t k (Some s'), (k, x))
              | RCrash => RCrash
              | RFuel => RFuel
              end
  end.

Lemma dstep_shape o :
  (exists v, forall t, dstep t o = ROk (t_set t (dsock o) v, (dsock o, no_out))) \/
  (exists f, forall t, dstep t o = upd t (dsock o) f).
Proof. destruct o; [left|right|right|right|left]; eexists; reflexivity. Qed.

(* a step reads and writes the entry of its own socket only *)
Lemma dstep_frame t o t1 x : dstep t o = ROk (t1, x) ->
  fst x = dsock o /\ (forall k, k <> dsock o -> t1 k = t k) /\
  forall t', t' (dsock o) = t (dsock o) ->
    exists t2, dstep t' o = ROk (t2, x) /\ t2 (dsock o) = t1 (dsock o).
Proof.
  destruct (dstep_shape o) as [[v E]|[f E]]; rewrite E.
  - intros [= <- <-]. repeat split.
    + intros k. apply t_set_other.
    + intros t' _. rewrite E. eexists. split; [reflexivity|]. now rewrite !t_set_same.
  - unfold upd. destruct (t (dsock o)) as [s|] eqn:Et.
    + destruct (f s) as [[s' y]| |] eqn:Ef; try discriminate. intros [= <- <-]. repeat split.
      * intros k. apply t_set_other.
      * intros t' Et'. rewrite E. unfold upd. rewrite Et', Ef.
        eexists. split; [reflexivity|]. now rewrite !t_set_same.
    + intros [= <- <-]. repeat split.
      intros t' Et'. rewrite E. unfold upd. rewrite Et'. eexists. split; [reflexivity|congruence].
Qed.

Theorem dispatcher_isolation k ops : forall t t' t1 xs, t k = t' k ->
  drun t ops = ROk (t1, xs) ->
  exists t2, drun t' (for_sock k ops) = ROk (t2, outs_of k xs) /\ t2 k = t1 k.
Proof.
  induction ops as [|o ops IH]; intros t t' t1 xs E H.
  - inversion H; subst. exists t'. split; [reflexivity|now symmetry].
  - cbn [WebSocket.drun] in H.
    destruct (dstep t o) as [[ta x]| |] eqn:ES; try discriminate.
    destruct (drun ta ops) as [[tb ys]| |] eqn:ER; try discriminate.
    inversion H; subst. unfold for_sock, outs_of in *. cbn [filter].
    destruct (dstep_frame t o ta x ES) as (Fx & Other & Same). rewrite Fx.
    destruct (Nat.eqb_spec (dsock o) k) as [EQ|NE].
    + subst k. destruct (Same t' (eq_sym E)) as (t2 & ES' & E2).
      destruct (IH ta t2 t1 ys (eq_sym E2) ER) as (t3 & ER' & E3).
      exists t3. cbn [WebSocket.drun]. rewrite ES', ER'. split; [reflexivity|exact E3].
    + apply (IH ta t' t1 ys); [|exact ER]. rewrite Other by congruence. exact E.
Qed.

End Upgrade.
