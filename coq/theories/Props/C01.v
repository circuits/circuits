(* C01 — events reach exactly the matching handlers, once, using the live handler set. *)
From Coq Require Import List ZArith.
From Circ Require Import Model.Handlers Proofs.HandlersP Model.ClassHandlers Proofs.ClassHandlersP.
Import ListNotations.

(* For every pool of components, and every history of addHandler / removeHandler /
   register / unregister(+completion) / fire / flush operations accepted by the API:
   every dispatch invokes each handler at most once, and invokes h iff, in the world as it is
   at the moment of the dispatch, h is registered on a component of the dispatching root's tree,
   is declared for the event's name (or for all events) and listens on the event's channel
   (equal channels, either side '*', or the event addressed to the component itself).
   "World at the moment of dispatch" makes staleness impossible: the handler cache is
   proved coherent ([Inv]) across all operations, including a detached subtree that runs
   as its own root again. *)
Theorem C01_delivery_exact : forall cs ops d, NoDup (map fst cs) ->
  In d (fst (fst (run (fresh_world cs) ops))) ->
  NoDup (d_invoked d) /\
  forall h, In h (d_invoked d) <-> delivers (d_world d) (d_root d) (d_name d) (d_chan d) h.
Proof.
  intros cs ops d N Hd. pose proof (run_good ops _ (fresh_Inv cs N)) as G.
  rewrite Forall_forall in G. destruct (G d Hd) as ((_ & _ & Gl & _) & E).
  rewrite E. split; [apply get_handlers_NoDup|]. intros h. now apply get_handlers_spec.
Qed.
Print Assumptions C01_delivery_exact.

(* the cache never serves anything but an uncached lookup in the live world *)
Theorem C01_never_stale : forall ops w, Inv w -> Forall good (fst (fst (run w ops))).
Proof. exact run_good. Qed.
Print Assumptions C01_never_stale.

(* the lookup itself implements the matching rule of the statement *)
Theorem C01_matching_rule : forall w r n ch h, (forall c, In c w -> global_ok c) ->
  In h (get_handlers w r n ch) <-> delivers w r n ch h.
Proof. exact get_handlers_spec. Qed.
Print Assumptions C01_matching_rule.

(* non-vacuity: X is a root and dispatches (fills its cache), is registered under R, gets a new
   handler, is detached and dispatches again: the new handler is used (the pre-fix code served the
   stale cache here) *)
Example C01_ex_detach :
  let h1 := {| hid := 1; hnames := [0]; hchan := None; hprio := 0%Z |} in
  let h2 := {| hid := 2; hnames := [0]; hchan := None; hprio := 0%Z |} in
  map d_invoked (fst (fst (run (fresh_world [(0, CStar); (1, CStar)])
    [OAdd 1 h1; OFire 1 0 0 CStar; OFlush 1; ORegister 1 0; OAdd 1 h2; ODetach 1 [1];
     OFire 1 1 0 CStar; OFlush 1]))) = [[1]; [2; 1]].
Proof. vm_compute. reflexivity. Qed.

(* Which handlers an instance has, for class hierarchies of any depth.
   A handler definition is in force iff no more derived class of the MRO redefines the
   same attribute as a handler with override=True (the documented semantics of @handler).
   [collect] models BaseComponent.__new__ + __init__'s getmembers loop. *)
Theorem C01_classes_sound : forall mro d, In d (collect mro) -> in_force mro d.
Proof. exact collect_sound. Qed.
Print Assumptions C01_classes_sound.

Theorem C01_classes_complete : forall mro d, uniq_attrs mro -> in_force mro d ->
  exists d', In d' (collect mro) /\ m_fid d' = m_fid d.
Proof. exact collect_complete. Qed.
Print Assumptions C01_classes_complete.

(* non-vacuity: A defines foo; B(A) adds nothing; C(B) redefines foo without override:
   both functions are handlers of a C instance (the pre-fix code dropped A's) *)
Example C01_ex_three_levels :
  let fooA := {| m_attr := 0; m_fid := 10; m_handler := true; m_override := false; m_names := [0] |} in
  let fooC := {| m_attr := 0; m_fid := 12; m_handler := true; m_override := false; m_names := [0] |} in
  handlers_for [[fooC]; []; [fooA]] 0 = [12; 10].
Proof. vm_compute. reflexivity. Qed.
