(* C03 — fire() from other threads: nothing lost or duplicated, the loop always wakes.
   The model is Model/Wake.v; the invariants, the inductions over runs and the longer theorems are in
   Proofs/Wake*.v, and what follows from them in a few lines is derived here.

   The model is an interleaving transition system (one loop thread, any number of firing threads, any
   number of events; every step is one shared-memory access or one lock / Event / pipe operation of
   the real source).  [reachable m s] = s is reached from the initial state by some interleaving. *)
From Coq Require Import List Arith Lia.
From Circ Require Import Model.Wake Proofs.WakeInvP Proofs.WakeP Proofs.WakeOnceP Proofs.WakeProgP.
Import ListNotations.

(* Safety form of "fire() returning implies the loop dispatches that event without needing a timeout":
   whenever the loop thread is parked in its idle wait (FallBackGenerator: Event.wait with or without
   timeout; poller: select/poll/epoll with timeout None or > 0) and the wake object is not signalled
   (flag clear / control pipe empty), no event of a fire() call that has returned is still queued. *)
Theorem C03_no_lost_wakeup : forall m s, reachable m s -> blocked s = true ->
  forall e, In e (pending s) -> returned s e = false.
Proof. exact no_lost_wakeup. Qed.
Print Assumptions C03_no_lost_wakeup.

(* What is queued in such a state belongs to a thread that is still inside _fire, owns the lock, and is
   in reduce_time_left(0) of the very generate_events the loop waits in, before its resume(): the wake-up
   is in flight and that thread is enabled. *)
Theorem C03_wake_in_flight : forall m s, reachable m s -> blocked s = true ->
  forall i k, In (EvF i k) (pending s) ->
  S k = fapp (fts s i) /\
  (exists d, lock s = Some (S i, d)) /\
  exists r, fp (fts s i) = FRed (cur s) r /\ r <> RRel.
Proof. exact blocked_wake_in_flight. Qed.
Print Assumptions C03_wake_in_flight.

(* the RLock double-entry bookkeeping: at most one thread is inside a critical section *)
Theorem C03_mutual_exclusion : forall m s, reachable m s -> forall t u,
  0 < held s t -> 0 < held s u -> t = u.
Proof.
  intros m s Hr t u Ht Hu. destruct (Nat.eq_dec t u) as [E|N]; [exact E|].
  rewrite (excl s t u (i0 _ (Inv_reachable _ _ Hr)) Ht N) in Hu. lia.
Qed.
Print Assumptions C03_mutual_exclusion.

(* Nothing lost, nothing duplicated, firing order kept: for every firing thread i, its events that have
   been handed to the dispatcher ([disp], in dispatch order) followed by those still queued are exactly
   EvF i 0, ..., EvF i (fapp-1), in that order ([fapp] = number of events the thread has appended).
   (All events have the same priority; the queue's heap is keyed by the shared counter, ties possible only
   between a foreign event and one fired by the loop thread itself.) *)
Theorem C03_exactly_once_in_order : forall m s, reachable m s -> forall i,
  proj i (disp s ++ pending s) = map (EvF i) (seq 0 (fapp (fts s i))).
Proof. exact exactly_once_in_order. Qed.
Print Assumptions C03_exactly_once_in_order.

Theorem C03_dispatched_once : forall m s, reachable m s -> forall i,
  NoDup (proj i (disp s)) /\
  exists n, n <= fapp (fts s i) /\ proj i (disp s) = map (EvF i) (seq 0 n).
Proof. exact dispatched_once. Qed.
Print Assumptions C03_dispatched_once.

(* Progress, bounded form.  [all_idle s]: every firing thread is outside fire() (all calls have returned).
   [lrun n s] lets ONLY the loop thread move, for at most n steps, stops as soon as no foreign event is
   queued ([fpend s = []]) and refuses to move out of a blocked wait, i.e. it never uses a Timeout
   transition ([AWait false] on a wait with positive/absent timeout, [ASelect false]).  [measure s] is
   explicit: 40 per heap entry + 41 per deque entry still to be moved + the rank of the loop's program point
   + the cost of one more tick while a foreign event sits in the deque.  Both waiters (m = Fallback / Poller).
   Together with C03_no_lost_wakeup: once fire() has returned, the loop dispatches the event without any
   timeout having to expire. *)
Theorem C03_progress : forall m s, reachable m s -> all_idle s ->
  exists s', lrun (S (measure s)) s = Some s' /\ fpend s' = [] /\ fts s' = fts s /\ reachable m s'.
Proof. exact progress. Qed.
Print Assumptions C03_progress.

(* ... and then every event ever appended by thread i has been handed to the dispatcher, in firing order *)
Theorem C03_progress_dispatched : forall m s, reachable m s -> all_idle s ->
  exists s', lrun (S (measure s)) s = Some s' /\
             forall i, proj i (disp s') = map (EvF i) (seq 0 (fapp (fts s i))).
Proof.
  intros m s Hr Hi. destruct (progress m s Hr Hi) as [s' (A & B & C & D)]. exists s'. split; [exact A|].
  intros i. rewrite <- C, <- (exactly_once_in_order m s' D i), proj_app, (proj_no_foreign _ B), app_nil_r. reflexivity.
Qed.
Print Assumptions C03_progress_dispatched.

(* the same as a trace of the transition system: loop-thread actions only, at most measure+1 of them *)
Theorem C03_progress_trace : forall m s, reachable m s -> all_idle s ->
  exists tr s', length tr <= S (measure s) /\ run s (map (fun a => (0, a)) tr) = Some s' /\ fpend s' = [].
Proof.
  intros m s Hr Hi. destruct (progress m s Hr Hi) as [s' (A & B & _)].
  destruct (lrun_trace _ _ _ A) as [tr [Hl Hrun]]. exists tr, s'. auto.
Qed.
Print Assumptions C03_progress_trace.

(* while a returned event is queued the loop is not blocked (contrapositive of C03_no_lost_wakeup) *)
Theorem C03_not_blocked : forall m s, reachable m s -> all_idle s -> fpend s <> [] -> blocked s = false.
Proof. exact not_blocked. Qed.
Print Assumptions C03_not_blocked.

(* Pollers: the waiter wakes iff the control descriptor is in the watched set AND a byte is in the pipe
   ([blocked] for select/poll/epoll = not (watched && pipe > 0)).  [reachable] is reachability from [init m] =
   [init_k m true]: every descriptor-maintenance step ([APreen]: select failed on a stale descriptor, the lists are
   weeded out) keeps the control descriptor.  Under that configuration the control descriptor stays watched for
   ever, and C03_no_lost_wakeup / C03_progress above are theorems about exactly these states. *)
Theorem C03_control_watched : forall m s, reachable m s -> watched s = true.
Proof. intros m s Hr. exact (proj2 (iw s (Inv_reachable _ _ Hr))). Qed.
Print Assumptions C03_control_watched.

(* non-vacuity: blocked states with a queued foreign event are reachable (the firing thread is mid-fire) *)
Definition idle_fallback : list (nat * lbl) :=
  map (fun a => (0, a))
    [ACount; AAppG Neg; ASnap; AMove; ACall (EvG 0); AAcq; ASetH; AArmTest; ARel; ASetHd HWake;
     AAcq; ARdTl; AClear; ARel; ARdTl; ARdTl].
Definition fire_upto_append : list (nat * lbl) := map (fun a => (1, a)) [AAcq; AFReadH; ACount; AAppF].
Definition fire_rest : list (nat * lbl) :=
  map (fun a => (1, a)) [AAcq; ARdTl; ARWrite; ARHd; ARGet; ASig; ARel; ARel; ARet].

Example C03_ex_blocked_in_flight :
  exists s, run (init Fallback) (idle_fallback ++ fire_upto_append) = Some s /\
            blocked s = true /\ pending s = [EvF 0 0] /\ returned s (EvF 0 0) = false.
Proof. eexists. split; [vm_compute; reflexivity|]. vm_compute. auto. Qed.

Example C03_ex_woken :
  exists s, run (init Fallback) (idle_fallback ++ fire_upto_append ++ fire_rest) = Some s /\
            blocked s = false /\ pending s = [EvF 0 0] /\ returned s (EvF 0 0) = true /\
            step s (0, AWait true) <> None.
Proof. eexists. split; [vm_compute; reflexivity|]. vm_compute. repeat split; discriminate. Qed.

(* a firing thread that skipped resume() is not a behaviour of the model *)
Example C03_ex_no_silent_return :
  accepts Fallback (idle_fallback ++ fire_upto_append ++
                    map (fun a => (1, a)) [AAcq; ARdTl; ARWrite; ARHd; ARGet; ARel]) = false.
Proof. vm_compute. reflexivity. Qed.

Example C03_ex_poller :
  exists s, run (init Poller)
      (map (fun a => (0, a)) [ACount; AAppG Neg; ASnap; AMove; ACall (EvG 0); AAcq; ASetH; AArmTest; ARel;
                              ASetHd HWake; ARdTl] ++ fire_upto_append) = Some s /\
    blocked s = true /\ pending s = [EvF 0 0] /\ returned s (EvF 0 0) = false.
Proof. eexists. split; [vm_compute; reflexivity|]. vm_compute. auto. Qed.

(* two threads, three events, dispatched: per-thread order visible in [disp] *)
Example C03_ex_order :
  exists s, run (init Fallback)
    (idle_fallback ++ fire_upto_append ++ fire_rest ++
     map (fun a => (2, a)) [AAcq; AFReadH; ACount; AAppF; AAcq; ARdTl; ARel; ARel; ARet] ++
     map (fun a => (1, a)) [AAcq; AFReadH; ACount; AAppF; AAcq; ARdTl; ARel; ARel; ARet] ++
     map (fun a => (0, a)) [AWait true; ARdTl; AClr; ACount; AAppG Neg; ASnap; AMove; AMove; AMove; AMove;
                            ACall (EvF 0 0); ASetH; ADisp (EvF 0 0); AClr; ACall (EvF 1 0); ASetH; AClr;
                            ACall (EvF 0 1); ASetH; AClr]) = Some s /\
    disp s = [EvG 0; EvF 0 0; EvF 1 0; EvF 0 1] /\ proj 0 (disp s) = [EvF 0 0; EvF 0 1] /\
    pending s = [EvG 1].
Proof. eexists. split; [vm_compute; reflexivity|]. vm_compute. auto. Qed.

(* progress on a concrete state: loop parked, two threads have fired three events and returned *)
Example C03_ex_progress :
  exists s s', run (init Fallback)
    (idle_fallback ++ fire_upto_append ++ fire_rest ++
     map (fun a => (2, a)) [AAcq; AFReadH; ACount; AAppF; AAcq; ARdTl; ARel; ARel; ARet] ++
     map (fun a => (1, a)) [AAcq; AFReadH; ACount; AAppF; AAcq; ARdTl; ARel; ARel; ARet]) = Some s /\
    fpend s = [EvF 0 0; EvF 1 0; EvF 0 1] /\ measure s = 171 /\
    lrun 17 s = Some s' /\ fpend s' = [] /\ disp s' = [EvG 0; EvF 0 0; EvF 1 0; EvF 0 1] /\ lrun 16 s = None.
Proof. eexists. eexists. split; [vm_compute; reflexivity|]. vm_compute. auto 10. Qed.

(* A maintenance step that DROPS the control descriptor ([init_k Poller false]) refutes the property: the loop weeds
   its lists once, parks in select again, a fire() completes (byte written, fire returned) and the loop stays blocked
   with the event queued.  The same trace on the real configuration ends with the loop NOT blocked. *)
Definition poller_tick (g : nat) : list (nat * lbl) :=
  map (fun a => (0, a)) [ACount; AAppG Neg; ASnap; AMove; ACall (EvG g); AAcq; ASetH; AArmTest; ARel; ASetHd HWake; ARdTl].
Definition preen_then_fire : list (nat * lbl) :=
  poller_tick 0 ++ [(0, APreen); (0, AClr)] ++ poller_tick 1 ++ fire_upto_append ++ fire_rest.

Example C03_leaky_preen_refuted :
  exists s, run (init_k Poller false) preen_then_fire = Some s /\
            blocked s = true /\ pending s = [EvF 0 0] /\ returned s (EvF 0 0) = true /\ pipe s = 1 /\ watched s = false.
Proof. eexists. split; [vm_compute; reflexivity|]. vm_compute. auto 10. Qed.

Example C03_keeping_preen_wakes :
  exists s, run (init Poller) preen_then_fire = Some s /\
            blocked s = false /\ watched s = true /\ step s (0, ASelect true true) <> None.
Proof. eexists. split; [vm_compute; reflexivity|]. vm_compute. repeat split; discriminate. Qed.
