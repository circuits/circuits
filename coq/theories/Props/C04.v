(* C04 — handler results, success/failure/exception feedback and error isolation.
   The invariants and their proofs live in Proofs/FeedbackP.v.  The model (Model/Feedback.v) is the
   model of the REPAIRED code (fixes/C04_success_after_failure.patch,
   fixes/C04_generator_raise_finishes.patch, both committed in /repo).
   [reachable s]: s is the state after ANY program (forest of scripted events: any handler shapes,
   flags, channels, nesting) and ANY sequence of dispatcher / task steps; tick()/run() produce
   particular such sequences.  [reachable_plain s]: the same for programs in which no handler returns
   the Value of a nested event (`return self.fire(e)`, [RNest]) or calls event.stop() ([RStop]) — [plain_ev].
   For programs WITH such handlers the contents of the Values are not characterised (Examples below, the
   witnesses of the three former findings C04-nested-value-...); what is proved for them, over [reachable], is
   C04_pass_failure_blocks_success, C04_each_handler_once, C04_errors_sticky and C04_no_success_after_failure. *)
From Coq Require Import List ZArith Bool.
From Circ Require Import Model.Feedback Proofs.FeedbackP.
Import ListNotations.

(* -- results.  [produced (spec s) e (log s)]: what the handlers of e have produced so far, in
   production order, read off the handler-activity log (a plain handler's non-None return value, every
   non-None yield of a generator handler, the error triple PErr for a raise).  At every moment the
   Value holds exactly what Value.setValue makes of that sequence; `result` says whether there is
   one; `errors` is set iff some handler has raised. *)
Theorem C04_value_tracks : forall s e, reachable_plain s -> e < next s ->
  vv (val s e) = accum (produced (spec s) e (log s)) /\
  vresult (val s e) = nonempty (produced (spec s) e (log s)) /\
  verrors (val s e) = (0 <? nraised (spec s) e (log s)).
Proof.
  intros s e Hr He. destruct (i_vc _ _ (reachable_inv s Hr) e He) as [v1 v2 v3 _ _].
  unfold accum. rewrite <- v1. auto.
Qed.
Print Assumptions C04_value_tracks.

(* Full statement (with fixes/C04_list_result.patch: the Value keeps an explicit `_collecting` flag instead of
   testing `isinstance(_value, list)`): the Value holds nothing / the single result stored as such — also
   when that result is itself a list — / the list of the results in production order, and it is
   collecting iff there are several results *)
Theorem C04_value : forall s e, reachable_plain s -> e < next s ->
  vv (val s e) = pack (produced (spec s) e (log s)) /\
  vcoll (val s e) = (match produced (spec s) e (log s) with _ :: _ :: _ => true | _ => false end).
Proof.
  intros s e Hr He. destruct (i_vc _ _ (reachable_inv s Hr) e He) as [v1 _ _ _ _].
  rewrite (accum_from_pack _ (produced_no_none (spec s) e (log s))) in v1. inversion v1. auto.
Qed.
Print Assumptions C04_value.

Theorem C04_setvalue_pack : forall l, Forall (fun x => is_none x = false) l -> accum l = pack l.
Proof. intros l H. unfold accum. now rewrite accum_from_pack. Qed.
Print Assumptions C04_setvalue_pack.

(* the witness of the former finding C04-list-result-merged: handlers returning [1, 2] and then 3 *)
Example C04_list_first_kept :
  let s := exec [LDisp] (start [Ev 1 true false false false SDefault
                                  [HP [] (RRet (PList [PInt 1; PInt 2])); HP [] (RRet (PInt 3))]]) in
  phase s 0 = PFin /\ vv (val s 0) = PList [PList [PInt 1; PInt 2]; PInt 3] /\ vcoll (val s 0) = true.
Proof. vm_compute. auto. Qed.
(* a single list result is stored as such and is not taken for a collection *)
Example C04_single_list_kept :
  let s := exec [LDisp] (start [Ev 1 true false false false SDefault [HP [] (RRet (PList [PInt 1; PInt 2]))]]) in
  vv (val s 0) = PList [PInt 1; PInt 2] /\ vcoll (val s 0) = false.
Proof. vm_compute. auto. Qed.

(* -- feedback.  [count_der k e (log s)]: number of derived events of kind k fired about e.
   One `exception` event per raise; one <name>_failure per raise iff failure feedback was requested. *)
Theorem C04_feedback_counts : forall s e, reachable_plain s -> e < next s ->
  count_der DExc e (log s) = nraised (spec s) e (log s) /\
  count_der DFail e (log s) = (if ev_fail (spec s e) then nraised (spec s) e (log s) else 0).
Proof. intros s e Hr He. destruct (i_vc _ _ (reachable_inv s Hr) e He). auto. Qed.
Print Assumptions C04_feedback_counts.

(* <name>_success is fired exactly once iff the event has passed the _eventDone gate (all its
   generator handlers have ended), asked for it, and no handler raised; otherwise never *)
Theorem C04_success : forall s e, reachable_plain s -> e < next s -> kind s e = KUser ->
  count_der DSucc e (log s) =
  (if is_fin (phase s e) && Nat.eqb (nraised (spec s) e (log s)) 0 && ev_succ (spec s e) then 1 else 0).
Proof.
  intros s e Hr He Hk. pose proof (reachable_inv s Hr) as HI.
  rewrite (i_s _ _ HI e He Hk). unfold succ_formula.
  destruct (i_vc _ _ HI e He) as [_ _ v3 _ _]. rewrite v3.
  destruct (nraised (spec s) e (log s)); reflexivity.
Qed.
Print Assumptions C04_success.

(* ... and only after every handler step of the event: nothing newer in the log is activity of e *)
Theorem C04_success_last : forall s e l1 l2, reachable_plain s -> e < next s -> kind s e = KUser ->
  log s = l1 ++ LFD DSucc e :: l2 -> forall x, In x l1 -> ~ hentry x e.
Proof. intros s e l1 l2 Hr He Hk. apply (i_sl _ _ (reachable_inv s Hr)); auto. Qed.
Print Assumptions C04_success_last.

(* -- isolation / progress.  Whatever raised: once queue and task set are empty, every event ever
   fired (by handlers that raised, by generator steps, feedback events) has been dispatched and has
   passed the _eventDone gate with waitingHandlers = 0 — no event is lost or left hanging *)
Theorem C04_progress : forall s, reachable_plain s -> quiet s = true ->
  forall d, d < next s -> phase s d = PFin /\ waiting s d = 0.
Proof. exact progress. Qed.
Print Assumptions C04_progress.

(* the dispatcher pass of any plain user event (whose Value has no parent Value) in ANY state invokes every plain handler of the event and
   registers every generator handler, whichever of them raise (a raise never ends the handler loop) *)
Theorem C04_dispatch_isolation : forall s e j h,
  e < next s -> kind s e = KUser -> nth_error (ev_hs (spec s e)) j = Some h ->
  vpar s e = None -> plain_ev (spec s e) = true ->
  match h with
  | HP _ _ => In (LH e j) (log (dispatch e s))
  | HG _ _ _ => In {| tev := e; thd := j; tk := 0 |} (tasks (dispatch e s))
  end.
Proof.
  intros s e j h He Hk Hj _ Hpl. apply dispatch_runs_invoked; auto. now rewrite invoked_plain.
Qed.
Print Assumptions C04_dispatch_isolation.

(* when an event has passed the _eventDone gate, every one of its handlers has run to its end, whichever
   of them raised: every plain handler was invoked, every segment of every generator handler up to and
   including the one that returns or raises was entered *)
Theorem C04_finished_complete : forall s e i h,
  reachable_plain s -> e < next s -> kind s e = KUser -> phase s e = PFin ->
  nth_error (ev_hs (spec s e)) i = Some h -> handler_finished (log s) e i h.
Proof. exact finished_complete. Qed.
Print Assumptions C04_finished_complete.

(* -- ALL programs, including handlers that return the Value of a nested event.
   If a plain handler of e raises, the dispatcher pass of e fires no <name>_success (of any event),
   whatever the other handlers return: the failure is remembered by the pass itself (`err`), apart from
   the errors flag *)
Theorem C04_pass_failure_blocks_success : forall s e d,
  kind s e = KUser -> existsb raising (upto_stop (ev_hs (spec s e))) = true ->
  count_der DSucc d (log (dispatch e s)) = count_der DSucc d (log s).
Proof. exact pass_failure_blocks_success. Qed.
Print Assumptions C04_pass_failure_blocks_success.

(* ALL programs: [hpart (log s)] = the handler-activity entries of the log (newest first).  It has no
   duplicates — every plain handler of every event is invoked at most once, every segment of every
   generator handler is entered at most once — and the segments of one generator handler are entered in
   increasing order *)
Theorem C04_each_handler_once : forall s, reachable s ->
  NoDup (hpart (log s)) /\ hordered (hpart (log s)).
Proof. intros s H. apply reachable_ainv in H. split; [apply (a_o1 _ H) | apply (a_o2 _ H)]. Qed.
Print Assumptions C04_each_handler_once.

(* ALL programs (with the repaired setValue): once a logged handler of an event has raised, the event's
   errors flag is set — whatever Values of nested events its other handlers return *)
Theorem C04_errors_sticky : forall s e, reachable s -> e < next s ->
  0 < nraised (spec s) e (log s) -> verrors (val s e) = true.
Proof. intros s e H. apply (a_n _ (reachable_ainv s H)). Qed.
Print Assumptions C04_errors_sticky.

(* ... and wherever <e>_success appears in the log, no handler of e had raised before it: success is
   never fired after a failure (from the dispatcher pass or from processTask) *)
Theorem C04_no_success_after_failure : forall s e l1 l2, reachable s ->
  log s = l1 ++ LFD DSucc e :: l2 -> nraised (spec s) e l2 = 0.
Proof. intros s e l1 l2 H. apply (a_n _ (reachable_ainv s H)). Qed.
Print Assumptions C04_no_success_after_failure.

(* The three witnesses of the former findings C04-nested-value-* (setValue copied result/errors from the
   unresolved nested Value) on the model of the code repaired by fixes/C04_nested_value_flags.patch *)
Definition nest_ev : ev := Ev 2 false false false false SDefault [HP [] (RRet (PInt 10))].

(* handlers returning 5, self.fire(x), 7: the event holds [5, <Value of x>, 7] and x's Value holds 10 *)
Example C04_nested_value_kept :
  let s := run 20 [] (start [Ev 1 false false false false SDefault
                               [HP [] (RRet (PInt 5)); HP [] (RNest nest_ev); HP [] (RRet (PInt 7))]]) in
  quiet s = true /\ phase s 0 = PFin /\ vv (val s 0) = pack [PInt 5; PRef 1; PInt 7] /\ vv (val s 1) = PInt 10.
Proof. vm_compute. repeat split; auto. Qed.

(* a raising handler, then `return self.fire(x)`: errors stays True, no success *)
Example C04_nested_errors_kept :
  let s := run 20 [] (start [Ev 1 true true false false SDefault [HP [] RRaise; HP [] (RNest nest_ev)]]) in
  quiet s = true /\ phase s 0 = PFin /\ nraised (spec s) 0 (log s) = 1 /\ verrors (val s 0) = true /\
  count_der DSucc 0 (log s) = 0.
Proof. vm_compute. repeat split; auto. Qed.

(* ... also when a generator handler is pending and the event finishes from processTask *)
Example C04_nested_no_success_after_failure :
  let s := run 20 [[]; [(1, 2)]; [(1, 2)]]
             (start [Ev 1 true true false false SDefault
                       [HP [] RRaise; HP [] (RNest nest_ev); HG [([], PInt 1)] [] false]]) in
  quiet s = true /\ phase s 0 = PFin /\ nraised (spec s) 0 (log s) = 1 /\
  count_der DFail 0 (log s) = 1 /\ count_der DSucc 0 (log s) = 0.
Proof. vm_compute. repeat split; auto. Qed.

(* the kind of exception a handler raises (Exception subclass, BaseException subclass that is not an Exception,
   GeneratorExit — the harness' case parameter `xk`) is ignored by the model: programs that differ only in it
   are the same program, so every theorem above holds for every choice of kinds, for plain handlers and for
   generator handlers at any step *)
Theorem C04_raise_kind_irrelevant : forall k k' ys lk gr,
  RRaiseK k = RRaiseK k' /\ HGK k ys lk gr = HGK k' ys lk gr.
Proof. intros. split; reflexivity. Qed.
Print Assumptions C04_raise_kind_irrelevant.

(* non-vacuity: a raising handler, a generator that yields 1, None, 2, a generator that raises late,
   success + failure requested; ticks stepping the two tasks in both orders *)
Definition ex_prog : list ev :=
  [Ev 1 true true true true SOther
      [HP [Ev 2 true false false false SDefault [HP [] (RRet (PInt 0))]] RRaise;
       HG [([], PInt 1); ([], PNone); ([], PInt 2)] [] false;
       HG [([], PInt 5)] [] true;
       HP [] (RRet (PInt 7))]].
Definition ex_state : st := run 50 [[]; [(1, 2); (1, 1)]; [(1, 1); (1, 2)]; [(1, 1)]; [(1, 1)]] (start ex_prog).

Example C04_ex_plain : forallb plain_ev ex_prog = true.
Proof. vm_compute. reflexivity. Qed.
Example C04_ex_raising : existsb raising (upto_stop (ev_hs (spec ex_state 0))) = true /\ kind ex_state 0 = KUser.
Proof. vm_compute. auto. Qed.
Example C04_ex_reaches_quiet : quiet ex_state = true /\ next ex_state = 10.
Proof. vm_compute. auto. Qed.
Example C04_ex_value :
  vv (val ex_state 0) = PList [PErr; PInt 7; PInt 5; PInt 1; PErr; PInt 2] /\
  verrors (val ex_state 0) = true /\ nraised (spec ex_state) 0 (log ex_state) = 2 /\
  count_der DExc 0 (log ex_state) = 2 /\ count_der DFail 0 (log ex_state) = 2 /\
  count_der DSucc 0 (log ex_state) = 0 /\ count_der DSucc 1 (log ex_state) = 1.
Proof. vm_compute. repeat split; reflexivity. Qed.
Example C04_ex_finished : phase ex_state 0 = PFin /\ phase ex_state 1 = PFin /\ kind ex_state 0 = KUser.
Proof. vm_compute. auto. Qed.
