(* C06 — call()/wait() resume the caller exactly once with the result, leaving no residue.
   The statements, each an instance of a fact that Proofs/KTasksP.v proves of any world satisfying its invariant,
   which every run does (run_full); the model is Model/KTasks.v.

   Reading guide.  [run p gen scheds roots n] is the world after n iterations of tick() of the program p
   (handlers per event name), with generate_events fired iff gen, the task set iterated in the order
   given by scheds (any schedule: [order_by] only permutes), and the root events fired as listed.  Every
   theorem is for ALL p, gen, scheds, roots, n, without side condition.
   [bad w] says the machinery itself has raised (removeHandler of an absent handler, a generator resumed
   against the protocol, a table index out of range); C06_no_crash proves it unreachable.
   A wait state (one per executed call()/wait()) carries ghost fields, written only by the model's
   transition functions: s_ph (Armed: waiting for the event; Seen: _on_event ran; Flagged: _on_done ran, the
   wait generator is a task; Dead: resumed or timed out), s_resumes (number of times the suspended handler
   was resumed through this wait, by send() of the result or by throw() of TimeoutError), s_ticks (number of
   generate_events dispatches its tick handler counted), s_tmo0 (the timeout given), s_timedout.
   The log [wlog] (newest first) has one entry per handler step; [LRes tok hi k e vals err] = handler hi of
   event instance tok is resumed in its step k with the Value (vals, err) of instance e; [htok x = Some t]
   says that x is a step of a handler of instance t (LPlain, LStep, LRes, LTmo, LTmoUncaught, LEnd).
   What remains unproved: termination itself (that a run of an acyclic program does go quiet within a bound) - the
   theorems say what holds whenever it has; the generated cases of the correspondence all do. *)
From Coq Require Import List ZArith Lia.
From Circ Require Import Model.KTasks Proofs.KTasksP.
Import ListNotations.
Open Scope Z_scope.

(* the coroutine machinery never raises by itself: every removeHandler finds its handler, every generator is
   resumed the way it is suspended (next / send / throw), every table lookup succeeds *)
Theorem C06_no_crash : forall p g scheds roots n, bad (run p g scheds roots n) = false.
Proof. intros. apply run_full. Qed.
Print Assumptions C06_no_crash.

(* residue: the temporary handlers installed are exactly those the live wait states call for
   (<name> while Armed; <name>_done until resumed/timed out; generate_events while Armed/Seen with a timeout),
   each at most once *)
Theorem C06_residue : forall p g scheds roots n, let w := run p g scheds roots n in
  NoDup (ths w) /\
  forall h, In h (ths w) <-> exists st, nth_error (wsts w) (sid_of h) = Some st /\ wants h st.
Proof. intros. apply IC_residue, run_IC. Qed.
Print Assumptions C06_residue.

(* ... so once every wait has been resumed or has timed out, no temporary handler and no wait generator task is left *)
Theorem C06_no_residue : forall p g scheds roots n, let w := run p g scheds roots n in
  (forall sid st, nth_error (wsts w) sid = Some st -> s_ph st = Dead) ->
  ths w = [] /\ forall t, In t (tasks w) -> forall sid, t_ref t <> RWait sid.
Proof. intros p g scheds roots n w. apply IC_all_dead, run_IC. Qed.
Print Assumptions C06_no_residue.

(* exactly-once accounting: at every moment a wait is exactly one of: live (handlers installed, caller suspended),
   timed out with its TimeoutError pending as a task, or has resumed its caller exactly once *)
Theorem C06_resume_accounting : forall p g scheds roots n sid st, let w := run p g scheds roots n in
  nth_error (wsts w) sid = Some st ->
  (s_resumes st + alive (s_ph st) + count_rt sid (tasks w) = 1)%nat.
Proof. intros p g scheds roots n sid st w Hs. exact (so_credit _ _ _ _ (IC_sid w sid st (run_IC p g scheds roots n) Hs)). Qed.
Print Assumptions C06_resume_accounting.

(* the caller is resumed at most once per call/wait, result and TimeoutError together; after it nothing is pending *)
Theorem C06_resume_at_most_once : forall p g scheds roots n sid st, let w := run p g scheds roots n in
  nth_error (wsts w) sid = Some st ->
  (s_resumes st <= 1)%nat /\ (s_resumes st = 1%nat -> s_ph st = Dead /\ count_rt sid (tasks w) = O).
Proof. intros p g scheds roots n sid st w. apply IC_at_most_once, run_IC. Qed.
Print Assumptions C06_resume_at_most_once.

(* a TimeoutError (fired, or still pending as a task) exists only after the wait has counted tmo0+1 generate_events
   dispatches, i.e. not before tmo0 further loop iterations; until then the countdown is exact *)
Theorem C06_timeout_not_early : forall p g scheds roots n sid st, let w := run p g scheds roots n in
  nth_error (wsts w) sid = Some st ->
  (s_timedout st = true \/ (0 < count_rt sid (tasks w))%nat) ->
  Z.of_nat (s_ticks st) = s_tmo0 st + 1 /\ s_ph st = Dead.
Proof. intros p g scheds roots n sid st w. apply IC_timeout_not_early, run_IC. Qed.
Print Assumptions C06_timeout_not_early.

Theorem C06_countdown : forall p g scheds roots n sid st, let w := run p g scheds roots n in
  nth_error (wsts w) sid = Some st -> s_timedout st = false -> 0 <= s_tmo0 st ->
  0 <= s_timeout st /\ s_timeout st + Z.of_nat (s_ticks st) = s_tmo0 st.
Proof. intros p g scheds roots n sid st w. apply IC_countdown, run_IC. Qed.
Print Assumptions C06_countdown.

(* a wait generator is in the task set only between _on_done and its resumption; then only <name>_done is installed *)
Theorem C06_wait_task : forall p g scheds roots n t sid, let w := run p g scheds roots n in
  In t (tasks w) -> t_ref t = RWait sid ->
  exists st, nth_error (wsts w) sid = Some st /\ s_ph st = Flagged /\ In (THDone sid) (ths w) /\
             ~ In (THEv sid) (ths w) /\ ~ In (THTick sid) (ths w).
Proof. intros p g scheds roots n t sid w. apply IC_wait_task, run_IC. Qed.
Print Assumptions C06_wait_task.

(* resumed only after the callee has finished: in the log (oldest first), after the entry that resumes a caller with
   the result of instance e there is no step of any handler of e (plain handler, generator step, resumption of a
   handler of e from its own nested call, TimeoutError in it, its end); moreover, at the end of the run, no handler
   generator of e is a task and no handler of e is suspended in a call/wait that has not resumed it.  (Nested calls:
   a handler of e continues after its own nested call only through an LRes / LTmo entry of e, which by this theorem
   applied to that entry comes after the last step of the nested callee.) *)
Theorem C06_resume_after_finish : forall p g scheds roots n l1 l2 tok hi k e vals err, let w := run p g scheds roots n in
  rev (wlog w) = l1 ++ LRes tok hi k e vals err :: l2 ->
  (forall x, In x l2 -> htok x <> Some e) /\
  (forall t, In t (tasks w) -> t_ev t = e -> is_gen (t_ref t) = false) /\
  (forall sid st, nth_error (wsts w) sid = Some st -> s_tevent st = e -> s_resumes st <> O).
Proof. intros p g scheds roots n l1 l2 tok hi k e vals err w. apply (EX_resume_after_finish [] O), run_EX. Qed.
Print Assumptions C06_resume_after_finish.

(* the value and error flag delivered at a resumption are those of instance e itself — read from e when the caller is
   resumed (Model: gen_resume (RSend e)), and, because e has passed its waitingHandlers gate by then (dispatched, no
   count left) and nothing writes to it afterwards, still e's value and error flag at the end of the run *)
Theorem C06_resume_value : forall p g scheds roots n tok hi k e vals err, let w := run p g scheds roots n in
  In (LRes tok hi k e vals err) (wlog w) ->
  exists ev, nth_error (evs w) e = Some ev /\ e_vals ev = vals /\ e_errors ev = err /\
             (1 <= e_gate ev)%nat /\ e_dispatched ev = true /\ e_waiting ev = 0.
Proof. intros p g scheds roots n tok hi k e vals err w. apply (EX_resume_value [] O 0), run_EX. Qed.
Print Assumptions C06_resume_value.

(* liveness, in the form a terminating run offers: if the run has gone quiet (no queued event, no task left) and no wait
   by name is still armed (a wait("name") whose event was never dispatched to it and whose timeout, if any, has not
   fired - that one legitimately keeps waiting), then EVERY call()/wait() executed in the run has resumed its caller,
   exactly once (result or TimeoutError), and by C06_no_residue nothing of them is left. *)
Theorem C06_quiescent_all_resumed : forall p g scheds roots n, let w := run p g scheds roots n in
  queue w = [] -> tasks w = [] ->
  (forall sid st, nth_error (wsts w) sid = Some st -> s_ph st = Armed -> s_obj st <> None) ->
  forall sid st, nth_error (wsts w) sid = Some st -> s_ph st = Dead /\ s_resumes st = 1%nat.
Proof. intros p g scheds roots n w. apply quiet_all_resumed, run_full. Qed.
Print Assumptions C06_quiescent_all_resumed.

(* non-vacuity: a call that returns (resumed once with the callee's two values) and a call that times out
   (timeout 1: two generate_events dispatches counted, TimeoutError delivered once) *)
Example C06_ex_ok :
  let w := run prog_ok false [] [(O, O)] 12 in
  bad w = false /\ ths w = [] /\ tasks w = [] /\
  map (fun s => (s_ph s, s_resumes s, s_timedout s)) (wsts w) = [(Dead, 1%nat, false)] /\
  In (LRes 1 0 0 2 [205; 209] false) (wlog w).
Proof. vm_compute. repeat split. tauto. Qed.

Example C06_ex_tmo :
  let w := run prog_tmo true [] [(O, O)] 14 in
  bad w = false /\ ths w = [] /\ tasks w = [] /\
  map (fun s => (s_ph s, s_resumes s, s_timedout s, s_tmo0 s, s_ticks s)) (wsts w) = [(Dead, 1%nat, true, 1, 2%nat)] /\
  In (LTmo 1 0 0) (wlog w).
Proof. vm_compute. repeat split. tauto. Qed.

(* a callee whose generator handler raises after its first yield: the caller is resumed once, with the error *)
Example C06_ex_genraise :
  let w := run prog_genraise false [] [(O, O)] 12 in
  bad w = false /\ ths w = [] /\ tasks w = [] /\
  map (fun s => (s_ph s, s_resumes s)) (wsts w) = [(Dead, 1%nat)] /\
  In (LRes 1 0 0 2 [209; -1] true) (wlog w).
Proof. vm_compute. repeat split. tauto. Qed.

(* a handler that raises right after being resumed from its own call: its event still finishes, its caller is resumed *)
Example C06_ex_raise_resumed :
  let w := run prog_raise_resumed false [] [(O, O)] 14 in
  bad w = false /\ ths w = [] /\ tasks w = [] /\
  map (fun e => e_waiting e) (evs w) = [0; 0; 0; 0] /\
  map (fun s => (s_ph s, s_resumes s)) (wsts w) = [(Dead, 1%nat); (Dead, 1%nat)] /\
  In (LRes 1 0 0 2 [-1] true) (wlog w).
Proof. vm_compute. repeat split. tauto. Qed.

(* the hypothesis of C06_resume_after_finish is met: the callee's steps precede the resumption, the caller goes on after it *)
Example C06_ex_after_finish :
  let w := run prog_ok false [] [(O, O)] 12 in
  exists l1 l2, rev (wlog w) = l1 ++ LRes 1 0 0 2 [205; 209] false :: l2 /\
                In (LPlain 2 0) l1 /\ In (LEnd 2 1) l1 /\ In (LStep 1 0 1) l2.
Proof.
  exists (firstn 14 (rev (wlog (run prog_ok false [] [(O, O)] 12)))), (skipn 15 (rev (wlog (run prog_ok false [] [(O, O)] 12)))).
  vm_compute. repeat split; tauto.
Qed.

(* the hypotheses of C06_quiescent_all_resumed are met by runs that do something: nested calls, a timeout *)
Example C06_ex_quiet :
  let w := run prog_raise_resumed false [] [(O, O)] 14 in
  queue w = [] /\ tasks w = [] /\ length (wsts w) = 2%nat /\
  forallb (fun s => match s_ph s, s_obj s with Armed, None => false | _, _ => true end) (wsts w) = true.
Proof. vm_compute. repeat split. Qed.
Example C06_ex_quiet_tmo :
  let w := run prog_tmo true [] [(O, O)] 14 in
  queue w = [] /\ tasks w = [] /\ length (wsts w) = 1%nat /\
  forallb (fun s => match s_ph s, s_obj s with Armed, None => false | _, _ => true end) (wsts w) = true.
Proof. vm_compute. repeat split. Qed.

(* Several awaited channels (layer model Model/WaitChannels.v).
   One wait of waitEvent with a list [cs] of awaited channels, per channel one temporary handler for <name> and one for
   <name>_done, one generate_events handler; [reach cs obj tmo steps] is its state after ANY sequence of steps (dispatch of
   an event named <name> on any channels, dispatch of a <name>_done, generate_events, a pass over the tasks).
   [cmatch] is getHandlers' rule (handler channel '*', dispatch channel '*', or equal). *)
From Circ Require Import Model.WaitChannels Proofs.WaitChannelsP.

Theorem C06_mc_no_crash : forall cs obj tmo steps, w_crash (reach cs obj tmo steps) = false.
Proof. intros. rewrite reach_shape. reflexivity. Qed.
Print Assumptions C06_mc_no_crash.

(* (1) an armed wait latches onto a dispatched event iff the event is dispatched on at least one awaited channel (and is
   the awaited object, if one was given); it latches onto exactly that event, removes its <name> temporaries on all
   channels, and an event that does not qualify leaves the state untouched; once latched, the event never changes -
   in particular an event matching several awaited channels, or a later one, does not latch a second time *)
Theorem C06_mc_latch : forall cs obj tmo steps eid dcs, let s := reach cs obj tmo steps in armed s ->
  let s' := do_step s (Dispatch eid dcs) in
  (w_run s' = true <-> awaited cs dcs = true /\ WaitChannels.obj_ok obj eid = true) /\
  (w_run s' = true -> w_event s' = Some eid /\ w_ev s' = []) /\
  (w_run s' = false -> s' = s).
Proof.
  intros cs obj tmo steps eid dcs. rewrite reach_shape. destruct (fold_left _ _ _) as [p tm ps wh]. cbv zeta.
  intro Ha. apply armed_phase in Ha. simpl in Ha. subst p. rewrite simulation. simpl next.
  destruct (obj_ok obj eid), (awaited cs dcs); simpl; intuition congruence.
Qed.
Print Assumptions C06_mc_latch.

Theorem C06_mc_latch_once : forall cs obj tmo steps e x, let s := reach cs obj tmo steps in
  w_event s = Some e -> w_event (do_step s x) = Some e.
Proof.
  intros cs obj tmo steps e x. rewrite reach_shape. cbv zeta.
  rewrite simulation. apply next_latched.
Qed.
Print Assumptions C06_mc_latch_once.

(* (2) the caller is resumed at most once (result and TimeoutError together), after which nothing of the wait is left ... *)
Theorem C06_mc_at_most_once : forall cs obj tmo steps, let s := reach cs obj tmo steps in
  (w_resumed s + w_thrown s <= 1)%nat /\
  ((w_resumed s + w_thrown s)%nat = 1%nat -> no_temporaries s /\ w_task_wait s = false /\ w_task_tmo s = false).
Proof.
  intros cs obj tmo steps. rewrite reach_shape. destruct (fold_left _ _ _) as [p tm ps wh]. cbv zeta.
  destruct p; simpl; (split; [lia|]); try discriminate; intros _; repeat split.
Qed.
Print Assumptions C06_mc_at_most_once.

(* ... exactly once when the latched event finishes (its <name>_done goes to the event's channels, one of which is awaited) ... *)
Theorem C06_mc_result_exactly_once : forall cs obj tmo steps e dcs, let s := reach cs obj tmo steps in
  w_event s = Some e -> live s -> w_resumed s = O -> awaited cs dcs = true ->
  let s' := do_step (do_step s (DispatchDone e dcs)) RunTasks in
  w_resumed s' = 1%nat /\ w_thrown s' = O /\ no_temporaries s' /\ w_crash s' = false.
Proof.
  intros cs obj tmo steps e dcs. rewrite reach_shape. destruct (fold_left _ _ _) as [p tm ps wh]. cbv zeta.
  intros Ev L _ Aw. apply live_phase in L as [o L]. simpl in L. subst p. simpl in Ev. subst o.
  rewrite simulation. simpl next. rewrite Nat.eqb_refl, Aw. cbn [andb]. rewrite simulation. repeat split.
Qed.
Print Assumptions C06_mc_result_exactly_once.

(* ... and exactly once when the timeout expires, whether or not an event had been latched, timeout 0 included *)
Theorem C06_mc_timeout_exactly_once : forall cs obj tmo steps k, let s := reach cs obj tmo steps in
  live s -> w_resumed s = O -> w_timeout s = Z.of_nat k ->
  let s' := do_step (fold_left do_step (repeat Tick (S k)) s) RunTasks in
  w_thrown s' = 1%nat /\ w_resumed s' = O /\ no_temporaries s' /\ w_crash s' = false.
Proof.
  intros cs obj tmo steps k. rewrite reach_shape. destruct (fold_left _ _ _) as [p tm ps wh]. cbv zeta.
  intros L _ Tm. apply live_phase in L as [o L]. simpl in Tm, L. subst p.
  destruct (Z.leb_spec 0 tmo) as [G|G]; [apply Nat2Z.inj in Tm; subst tm|lia].
  rewrite run_shape, simulation, ticks_expire by now apply Z.leb_le. repeat split.
Qed.
Print Assumptions C06_mc_timeout_exactly_once.

(* (3) residue: while the wait is armed exactly the installed set remains (one <name> and one <name>_done temporary per
   awaited channel, the tick handler iff a timeout was given); on every exit path - result, timeout, pending TimeoutError -
   all temporaries on all channels are gone; a latched wait has no <name> temporary left *)
Theorem C06_mc_residue : forall cs obj tmo steps, let s := reach cs obj tmo steps in
  (armed s -> w_ev s = cs /\ w_done s = cs /\ w_tick s = (0 <=? tmo)) /\
  (w_resumed s = 1%nat \/ w_thrown s = 1%nat \/ w_task_tmo s = true -> no_temporaries s) /\
  (w_run s = true -> w_ev s = []).
Proof. exact WaitChannelsP.residue. Qed.
Print Assumptions C06_mc_residue.

(* three awaited channels a, b, c: an event on d is ignored, an event on (d, b) latches (once, although (b, '*') would
   match four ways), its <name>_done resumes the caller once and nothing is left; and the same wait with timeout 1
   and no matching event expires after two generate_events *)
Example C06_ex_mc_result :
  let s := reach [CNamed 0; CNamed 1; CNamed 2] None 5
             [Tick; Dispatch 7 [CNamed 3]; Dispatch 8 [CNamed 3; CNamed 1]; Dispatch 9 [CNamed 1; CStar]; Tick;
              RunTasks; DispatchDone 8 [CNamed 3; CNamed 1]; Tick; RunTasks; Tick; RunTasks] in
  w_event s = Some 8%nat /\ w_resumed s = 1%nat /\ w_thrown s = O /\ no_temporaries s /\ w_crash s = false.
Proof. vm_compute. repeat split. Qed.
Example C06_ex_mc_armed :
  let s := reach [CNamed 0; CNamed 1; CNamed 2] None 5 [Tick; Dispatch 7 [CNamed 3]; RunTasks] in
  armed s /\ w_ev s = [CNamed 0; CNamed 1; CNamed 2] /\ w_done s = [CNamed 0; CNamed 1; CNamed 2] /\ w_tick s = true.
Proof. vm_compute. repeat split. Qed.
Example C06_ex_mc_timeout :
  let s := reach [CNamed 0; CNamed 1; CNamed 2] None 1 [Tick; Dispatch 7 [CNamed 3]; RunTasks; Tick; RunTasks] in
  w_event s = None /\ w_thrown s = 1%nat /\ w_resumed s = O /\ no_temporaries s /\ w_crash s = false.
Proof. vm_compute. repeat split. Qed.
