(* C07 - the component tree stays a consistent forest under register/unregister.
   The statements, each a corollary of the lemmas of Proofs/KTreeP.v; the model is Model/KTree.v.
   A history is a list of ops (OReg c p | OUnreg c | OFire x i | OTick r schedules | OFlush x schedule); a
   schedule lists, in dispatch order, the events of the batch, each with the operations (AReg / AUnreg / AFire)
   that the handlers of its receivers performed while handling it (events of kind probe, registered,
   unregistered, prepare_unregister; what a handler of prepare_unregister - or of one of its effects - fires
   delays prepare_unregister_complete, see efx in the model);
   [run n h init = Ok s] says that every op satisfied the preconditions of the property's quantifier
   (register: c detached, not pending, p outside c's subtree; unregister: c attached; tick: r is a root),
   that every schedule was a permutation of the batch it dispatched, and that the model neither ran out of
   fuel nor crashed.  The schedules are universally quantified: the theorems hold for every order in which
   a flush may dispatch its batch. *)
From Coq Require Import List Permutation.
From Circ Require Import Model.KTree Proofs.KTreeP.
Import ListNotations.

(* parent and child links agree, no cycles, every component's root is the top of the tree it is in *)
Theorem C07_forest : forall n h s, run n h init = Ok s -> forest s.
Proof. intros n h s R. exact (inv_forest n s (run_inv n h s R)). Qed.
Print Assumptions C07_forest.

(* the model's executable precondition "root of p is not c" is, for a detached c, exactly
   "p is outside the subtree of c" *)
Theorem C07_subtree_reading : forall n h s c p, run n h init = Ok s -> par s c = c ->
  (rt s p = c <-> desc (kid s) c p).
Proof. intros n h s c p R. exact (subtree_reading (run_inv n h s R) c p). Qed.
Print Assumptions C07_subtree_reading.

(* a component with an unregistration pending is still attached; a detached one is never pending *)
Theorem C07_pending_attached : forall n h s c, run n h init = Ok s -> pend s c = true -> par s c <> c.
Proof. intros n h s c R. exact (i_pend (run_inv n h s R) c). Qed.
Print Assumptions C07_pending_attached.

(* each completed registration / unregistration has been announced by exactly one event: the
   registered(c,p) events still queued anywhere in the pool plus those dispatched so far are as many as the
   completed registrations of c under p - by the history or by handlers; [regd] is extended by [register] and
   by nothing else - likewise unregistered(c,p) and the completed unregistrations *)
Theorem C07_announce_registered : forall n h s c p, run n h init = Ok s ->
  qcount n (q s) (Registered c p) + dcount (disp s) (Registered c p) = cntp c p (regd s).
Proof. intros n h s c p R. exact (run_announce n h s (Registered c p) R eq_refl). Qed.
Print Assumptions C07_announce_registered.

Theorem C07_announce_unregistered : forall n h s c p, run n h init = Ok s ->
  qcount n (q s) (Unregistered c p) + dcount (disp s) (Unregistered c p) = cntp c p (unregd s).
Proof. intros n h s c p R. exact (run_announce n h s (Unregistered c p) R eq_refl). Qed.
Print Assumptions C07_announce_unregistered.

(* events queued on c before it is registered are in the queue of its new root afterwards, in order,
   followed by the registered event; nothing else moves *)
Theorem C07_queue_migrates : forall n h s c p s', run n h init = Ok s -> register n c p s = Ok s' ->
  rt s' c = rt s p /\
  q s' (rt s p) = q s (rt s p) ++ q s c ++ [Registered c p] /\
  q s' c = [] /\
  (forall x, x <> c -> x <> rt s p -> q s' x = q s x).
Proof. intros n h s c p s' R. exact (register_queue n c p s s' (run_inv n h s R)). Qed.
Print Assumptions C07_queue_migrates.

(* ... and a flush of that root dispatches exactly what is queued there (each event once, by that root) *)
Theorem C07_flush_dispatches_batch : forall n h s r sched s', run n h init = Ok s -> par s r = r -> r < n ->
  flush n r sched s = Ok s' ->
  Permutation (map fst sched) (q s r) /\
  exists ds, disp s' = ds ++ disp s /\ map d_ev (rev ds) = map fst sched /\ (forall d, In d ds -> d_root d = r).
Proof.
  intros n h s r sched s' R Hr Hrn F.
  destruct (outcome_inv (flush_spec n r sched s (run_gi n h s R) Hr Hrn) F) as ((Pm & _) & _ & D). exact (conj Pm D).
Qed.
Print Assumptions C07_flush_dispatches_batch.

(* every component that received a dispatched event had the dispatching root as its root at that
   moment.  A component whose unregistration has completed has itself (later: the root of the tree it was
   re-registered in) as root - C07_detach_connected - so it receives nothing from the tree it left. *)
Theorem C07_no_delivery_outside_tree : forall n h s d, run n h init = Ok s -> In d (disp s) -> d_ok d = true.
Proof. intros n h s d R. exact (i_disp (run_inv n h s R) d). Qed.
Print Assumptions C07_no_delivery_outside_tree.

(* the completing component c becomes the root of exactly its subtree; links inside the subtree are kept,
   nothing outside changes *)
Theorem C07_detach_connected : forall n h s c s', run n h init = Ok s -> pend s c = true -> complete n c s = Ok s' ->
  par s' c = c /\ pend s' c = false /\ kid s' (par s c) c = false /\
  (forall x, desc (kid s) c x ->
     rt s' x = c /\ desc (kid s') c x /\ (x <> c -> par s' x = par s x /\ kid s' (par s x) x = kid s (par s x) x)) /\
  (forall x, ~ desc (kid s) c x -> rt s' x = rt s x /\ par s' x = par s x).
Proof. intros n h s c s' R. exact (detach_connected n c s s' (run_inv n h s R)). Qed.
Print Assumptions C07_detach_connected.

(* ... and every member d of the detached subtree whose own unregistration is still pending has its
   prepare_unregister(d) queued at its new root c: its completion event may be with the root that was left,
   where it can no longer reach d, but the unregistration has been started again where d is now
   (fixes/C07_nested_unregister_completes.patch) *)
Theorem C07_detach_restarts : forall n h s c s', run n h init = Ok s -> pend s c = true -> complete n c s = Ok s' ->
  forall d, d <> c -> desc (kid s') c d -> pend s' d = true ->
  rt s' d = c /\ In (PrepUnreg d) (q s' (rt s' d)).
Proof. intros n h s c s' R Hp H d _. exact (detach_restarts n c s s' (run_inv n h s R) Hp H d). Qed.
Print Assumptions C07_detach_restarts.

(* register moves c with its whole subtree under the root of p *)
Theorem C07_move_connected : forall n h s c p s', run n h init = Ok s -> register n c p s = Ok s' ->
  par s' c = p /\ kid s' p c = true /\
  (forall x, desc (kid s) c x ->
     rt s' x = rt s p /\ desc (kid s') c x /\ (x <> c -> par s' x = par s x /\ kid s' (par s x) x = kid s (par s x) x)) /\
  (forall x, ~ desc (kid s) c x -> rt s' x = rt s x /\ par s' x = par s x).
Proof. intros n h s c p s' R. exact (move_connected n c p s s' (run_inv n h s R)). Qed.
Print Assumptions C07_move_connected.

(* [valid n h init]: every op of h satisfies the property's preconditions in the state it is applied to
   (op_pre: register(c,p) with c in the pool, detached, not pending, p in the pool and not in c's subtree;
   unregister(c) with c attached; fire on a pool component; ticks of a current root; flush() on a pool
   component), every flush dispatches its batch in some order (flush_pre: the schedule is a permutation of
   what is queued) and every operation a handler performs while an event is dispatched satisfies the same
   preconditions at that moment and does not register the root that is flushing (act_pre, item_pre).
   Such a history runs to Ok: the model never crashes (delattr of a missing flag, set.remove
   of a missing child) and the fuel n+1 of the _updateRoot recursion is never exhausted (parent links
   decrease a rank, so a descending path has at most n nodes). *)
Theorem C07_run_ok : forall n h, valid n h init -> exists s, run n h init = Ok s.
Proof. exact run_ok. Qed.
Print Assumptions C07_run_ok.

(* and for EVERY history, every schedule and whatever the handlers do, valid or not, the outcome is never Crash and never OutOfFuel
   (it is Ok, or the model's explicit PreViolated / BadSched verdict on the hypotheses) *)
Theorem C07_never_crashes : forall n h, run n h init <> Crash /\ run n h init <> OutOfFuel.
Proof.
  intros n h. pose proof (run_post n h init (gi_init n)) as P.
  split; intro E; rewrite E in P; exact P.
Qed.
Print Assumptions C07_never_crashes.

(* the theorems above, for all histories that satisfy the preconditions *)
Theorem C07_forest_valid : forall n h, valid n h init -> exists s, run n h init = Ok s /\ forest s.
Proof. intros n h V. destruct (C07_run_ok n h V) as [s R]. exists s. exact (conj R (C07_forest n h s R)). Qed.
Print Assumptions C07_forest_valid.

Theorem C07_pending_attached_valid : forall n h, valid n h init ->
  exists s, run n h init = Ok s /\ forall c, pend s c = true -> par s c <> c.
Proof.
  intros n h V. destruct (C07_run_ok n h V) as [s R]. exists s.
  exact (conj R (fun c => C07_pending_attached n h s c R)).
Qed.
Print Assumptions C07_pending_attached_valid.

Theorem C07_announce_valid : forall n h, valid n h init ->
  exists s, run n h init = Ok s /\
    forall c p, qcount n (q s) (Registered c p) + dcount (disp s) (Registered c p) = cntp c p (regd s) /\
                qcount n (q s) (Unregistered c p) + dcount (disp s) (Unregistered c p) = cntp c p (unregd s).
Proof.
  intros n h V. destruct (C07_run_ok n h V) as [s R]. exists s. split; [exact R|].
  intros c p. exact (conj (C07_announce_registered n h s c p R) (C07_announce_unregistered n h s c p R)).
Qed.
Print Assumptions C07_announce_valid.

Theorem C07_no_delivery_outside_tree_valid : forall n h, valid n h init ->
  exists s, run n h init = Ok s /\ forall d, In d (disp s) -> d_ok d = true.
Proof.
  intros n h V. destruct (C07_run_ok n h V) as [s R]. exists s.
  exact (conj R (fun d => C07_no_delivery_outside_tree n h s d R)).
Qed.
Print Assumptions C07_no_delivery_outside_tree_valid.

(* a register op at the end of a valid history succeeds, migrates the queue and moves the subtree as a whole
   (C07_queue_migrates + C07_move_connected; the subtree reading of the precondition is op_pre itself) *)
Theorem C07_register_valid : forall n h c p, valid n (h ++ [OReg c p]) init ->
  exists s s', run n h init = Ok s /\ register n c p s = Ok s' /\
    (rt s' c = rt s p /\ q s' (rt s p) = q s (rt s p) ++ q s c ++ [Registered c p] /\ q s' c = [] /\
     (forall x, x <> c -> x <> rt s p -> q s' x = q s x)) /\
    (par s' c = p /\ kid s' p c = true /\
     (forall x, desc (kid s) c x ->
        rt s' x = rt s p /\ desc (kid s') c x /\
        (x <> c -> par s' x = par s x /\ kid s' (par s x) x = kid s (par s x) x)) /\
     (forall x, ~ desc (kid s) c x -> rt s' x = rt s x /\ par s' x = par s x)).
Proof.
  intros n h c p V. destruct (valid_app _ _ _ _ V) as [Vh Pre]. destruct (C07_run_ok n h Vh) as [s R].
  destruct (outcome_ok (register_spec n c p s (run_inv n h s R)) (proj1 (Pre s R))) as [s' [Rg _]].
  exists s, s'.
  exact (conj R (conj Rg (conj (C07_queue_migrates n h s c p s' R Rg) (C07_move_connected n h s c p s' R Rg)))).
Qed.
Print Assumptions C07_register_valid.

(* after a valid history the completion of any pending component succeeds and detaches its subtree as a whole *)
Theorem C07_detach_valid : forall n h, valid n h init ->
  exists s, run n h init = Ok s /\
    forall c, pend s c = true ->
    exists s', complete n c s = Ok s' /\
      par s' c = c /\ pend s' c = false /\ kid s' (par s c) c = false /\
      (forall x, desc (kid s) c x ->
         rt s' x = c /\ desc (kid s') c x /\
         (x <> c -> par s' x = par s x /\ kid s' (par s x) x = kid s (par s x) x)) /\
      (forall x, ~ desc (kid s) c x -> rt s' x = rt s x /\ par s' x = par s x).
Proof.
  intros n h V. destruct (C07_run_ok n h V) as [s R]. exists s. split; [exact R|].
  intros c Hp. destruct (complete_spec n c s (run_inv n h s R)) as (s' & C & _). exists s'.
  exact (conj C (C07_detach_connected n h s c s' R Hp C)).
Qed.
Print Assumptions C07_detach_valid.

(* a flush at the end of a valid history succeeds and dispatches exactly its batch *)
Theorem C07_flush_valid : forall n h x sched, valid n (h ++ [OFlush x sched]) init ->
  exists s s', run n h init = Ok s /\ flush n (rt s x) sched s = Ok s' /\
    Permutation (map fst sched) (q s (rt s x)) /\
    exists ds, disp s' = ds ++ disp s /\ map d_ev (rev ds) = map fst sched /\
               (forall d, In d ds -> d_root d = rt s x).
Proof.
  intros n h x sched V. destruct (valid_app _ _ _ _ V) as [Vh Pre]. destruct (C07_run_ok n h Vh) as [s R].
  destruct (Pre s R) as [Hx P]. pose proof (run_gi n h s R) as G.
  destruct (outcome_ok (flush_spec n (rt s x) sched s G (i_rtroot (proj1 G) x) (i_rtlt (proj1 G) x Hx)) P)
    as (s' & F & _ & D).
  exists s, s'. exact (conj R (conj F (conj (proj1 P) D))).
Qed.
Print Assumptions C07_flush_valid.

(* the schedule of a flush in which no handler does anything: the queued events in the order given *)
Definition quiet (l : list ev) : list item := map (fun e => (e, [])) l.

(* 2 under 1 under 0; events queued on 3 before it is registered under 2; 1 is unregistered with its subtree
   and re-registered under 4 *)
Definition ex_hist : list op :=
  [OReg 1 0; OReg 2 1; OFire 3 7; OReg 3 2;
   OTick 0 [quiet [Registered 1 0; Registered 2 1; Probe 7; Registered 3 2]];
   OUnreg 1; OTick 0 [quiet [PrepUnreg 1]; quiet [PrepDone 1]; quiet [Unregistered 1 0]];
   OReg 1 4; OFire 3 8; OTick 4 [quiet [Registered 1 4; Probe 8]]].

Example C07_ex_run :
  match run 5 ex_hist init with
  | Ok s => (map (par s) [0;1;2;3;4], map (rt s) [0;1;2;3;4], map d_recv (rev (disp s)))
            = ([0;4;1;2;4], [0;4;4;4;4],
               [[0;1;2;3]; [0;1;2;3]; [0;1;2;3]; [0;1;2;3]; [0;1;2;3]; [0;1;2;3]; [0]; [1;2;3;4]; [1;2;3;4]])
  | _ => False
  end.
Proof. vm_compute. reflexivity. Qed.

(* handlers that act: while the root 0 dispatches registered(1,0), the handler of 1 registers 2 under itself
   and unregisters itself, the handler of 0 fires; the subtree {1,2} is then detached as a whole *)
Example C07_ex_handlers :
  match run 3 [OReg 1 0;
               OTick 0 [[(Registered 1 0, [(0, [AFire 0 9]); (1, [AReg 2 1; AUnreg 1])])];
                        quiet [Probe 9; Registered 2 1; PrepUnreg 1]; quiet [PrepDone 1];
                        quiet [Unregistered 1 0]]] init with
  | Ok s => (map (par s) [0;1;2], map (rt s) [0;1;2], map d_recv (rev (disp s)), regd s, unregd s)
            = ([0;1;1], [0;1;1], [[0;1]; [0;1;2]; [0;1;2]; [0;1;2]; [0;1;2]; [0]], [(2,1); (1,0)], [(1,0)])
  | _ => False
  end.
Proof. vm_compute. reflexivity. Qed.

(* a handler of prepare_unregister(1) fires: the probe is an effect of the prepare_unregister event, whose
   completion event - and with it the detaching of 1 - waits until the probe has been dispatched *)
Example C07_ex_delayed_completion :
  match run 2 [OReg 1 0; OTick 0 [quiet [Registered 1 0]]; OUnreg 1;
               OTick 0 [[(PrepUnreg 1, [(0, [AFire 0 7])])]; quiet [Probe 7]; quiet [PrepDone 1]]] init with
  | Ok s => (par s 1, pend s 1, q s 0, map d_ev (rev (disp s)))
            = (1, false, [Unregistered 1 0], [Registered 1 0; PrepUnreg 1; Probe 7; PrepDone 1])
  | _ => False
  end.
Proof. vm_compute. reflexivity. Qed.

(* a handler that tries to register the root whose flush is in progress is outside the preconditions *)
Example C07_ex_flushing_root :
  run 3 [OReg 1 0; OTick 0 [[(Registered 1 0, [(1, [AReg 0 2])])]]] init = PreViolated.
Proof. vm_compute. reflexivity. Qed.

(* parent 1 and then its child 2 are unregistered before any tick; 1 completes first and takes 2 along; the
   completion event of 2 is dispatched by the old root, which no longer contains 2.  With
   fixes/C07_nested_unregister_completes.patch the detaching parent starts the unregistration of 2 again in
   the new tree (root 1), where it completes as soon as that root is ticked *)
Example C07_ex_nested_unregister_completes :
  match run 3 [OReg 1 0; OReg 2 1; OUnreg 1; OUnreg 2;
               OTick 0 [quiet [Registered 1 0; Registered 2 1; PrepUnreg 1; PrepUnreg 2];
                        quiet [PrepDone 1; PrepDone 2]; quiet [Unregistered 1 0]; []]] init with
  | Ok s => match ticks 3 1 [quiet [PrepUnreg 2]; quiet [PrepDone 2]; quiet [Unregistered 2 1]] s with
            | Ok s' => (pend s 2, par s 2, rt s 2, q s 0, q s 1, pend s' 2, par s' 2, rt s' 2, unregd s')
                       = (true, 1, 1, [], [PrepUnreg 2], false, 2, 2, [(2, 1); (1, 0)])
            | _ => False
            end
  | _ => False
  end.
Proof. vm_compute. reflexivity. Qed.

(* the hypotheses of C07_detach_connected / C07_move_connected are satisfiable *)
Example C07_ex_complete :
  match run 3 [OReg 1 0; OReg 2 1; OUnreg 1] init with
  | Ok s => match complete 3 1 s with Ok s' => (rt s' 2, par s' 2, par s' 1) = (1, 1, 1) | _ => False end
  | _ => False
  end.
Proof. vm_compute. reflexivity. Qed.

(* the hypothesis [valid] is satisfiable, also with a handler that acts *)
Example C07_ex_valid : valid 2 [OReg 1 0; OFlush 0 [(Registered 1 0, [(0, [AFire 1 5])])]] init.
Proof. eapply run_valid; [apply gi_init | vm_compute; reflexivity]. Qed.
