(* C08 — run()/stop(): started once, everything queued is drained, stopped once, exit code propagates.
   The model is Model/KLoop.v; the invariant and [run_spec], of which the theorems about run() below are
   projections, are in Proofs/KLoopP.v.

   All theorems are about [run false false P d fuel s0 = Some (s1, out)]: run() entered in state s0 returns in state s1
   and hands [out] to its caller (Some c: raises SystemExit(c); None: returns normally).  They hold
     for every program P       (evk -> list body: plain and generator handlers of started / stopped /
                                exception / user events that fire events, call stop(code) themselves or from a
                                joined second thread, raise SystemExit(code) / KeyboardInterrupt / errors),
     for every idle start state s0  (not running, empty queue; ANY leftover tasks, ANY task-set iteration
                                schedule [sched s0], ANY script of second-thread actions [ext s0], any
                                earlier trace: so they hold for the n-th run of a manager as for the first),
     for every fuel and nesting depth on which run returns (None = the loop did not finish within fuel).
   The second argument [false] of run selects the dispatcher's wait decision for generate_events as it is in the
   code (with its `or not self._running` clause; [true]: without, see C08_ge_clause_dropped_refuted).
   The first argument [false] of run selects the statement order of Manager.stop() as it is in the code
   (`_running = False; _exit_code = code; fire(stopped)`); [true] is the order with the code recorded after the
   fire, kept only to be refuted (C08_exit_code_legacy_order_refuted).
   Second-thread stops in [ext s0] come in three schedules: PJoin (the stopping thread finishes stop() before the
   loop moves), PLate (pre-empted right after fire(stopped) woke the loop, finishes only after run() has
   returned; every later pre-emption is equivalent to PJoin or PLate because the loop reads _exit_code and the
   stopping thread reads _executing_thread exactly once) and PEarly (pre-empted after `_running = False;
   _exit_code = code`, BEFORE fire(stopped), while the loop is in the timed idle wait, until run() has returned).
   Only C08_stopped_once_partial needs a hypothesis about PEarly (it is refuted without); started_once, drained,
   exit_code, idle_stop, rerun and run_spec are stated and proved for every schedule.
   [delta] is the part of the trace produced by this run(); firedK / dispK / reqs are its projections on
   queued events, dispatched events and stop requests (chronological). *)
From Coq Require Import List ZArith Bool.
From Circ Require Import Model.KLoop Proofs.KLoopP.
Import ListNotations.

(* `started` is dispatched exactly once per run() *)
Theorem C08_started_once : forall P d fuel s0 s1 out, idle s0 -> run false false P d fuel s0 = Some (s1, out) ->
  exists delta, trace s1 = trace s0 ++ delta /\ cnt KStarted (dispK delta) = 1.
Proof.
  intros P d fuel s0 s1 out Hi E. destruct (run_spec P d fuel s0 s1 out Hi E) as (dl & Ht & Hf & Hs & _).
  exists dl. now rewrite <- Hf.
Qed.
Print Assumptions C08_started_once.

(* `stopped` is dispatched exactly once per run(), wherever and however often stop was requested -- PARTIAL:
   under the exact complement of open finding C08-early-return-race: no stopping second thread that was
   pre-empted between its `_exit_code = code` and its fire(stopped) is still parked when run() returns
   ([pend s1 = Some (true, _)] is set by nothing else; the trace then contains TEarly) *)
Theorem C08_stopped_once_partial : forall P d fuel s0 s1 out, idle s0 -> run false false P d fuel s0 = Some (s1, out) ->
  is_early (pend s1) = false ->
  exists delta, trace s1 = trace s0 ++ delta /\ cnt KStopped (dispK delta) = 1.
Proof.
  intros P d fuel s0 s1 out Hi E He. destruct (run_spec P d fuel s0 s1 out Hi E) as (dl & Ht & Hf & _ & Hst & _).
  exists dl. now rewrite <- Hf, Hst, He.
Qed.
Print Assumptions C08_stopped_once_partial.

(* the full statement (without the hypothesis) is refuted: stop(5) by a second thread that is pre-empted before
   its fire(stopped) while the loop sits in the timed idle wait (a generator task is pending): run() raises
   SystemExit(5) without `stopped` having been dispatched -- it has not even been queued *)
Theorem C08_stopped_before_return_refuted : exists P d fuel s0 s1 out delta,
  idle s0 /\ run false false P d fuel s0 = Some (s1, out) /\
  trace s1 = trace s0 ++ delta /\ cnt KStopped (dispK delta) = 0 /\ out = Some 5%Z.
Proof.
  exists (prog_of [(KStarted, [BGen [([], RYield); ([], RYield); ([], RYield)]])]), 3, 50,
         (init [] [XStop PEarly (Some 5%Z)]).
  eexists. eexists. eexists.
  split; [repeat split|].
  split; [vm_compute; reflexivity|].
  split; [simpl; reflexivity|].
  vm_compute. split; reflexivity.
Qed.
Print Assumptions C08_stopped_before_return_refuted.

(* full strength, every schedule: never more than once *)
Theorem C08_stopped_at_most_once : forall P d fuel s0 s1 out, idle s0 -> run false false P d fuel s0 = Some (s1, out) ->
  exists delta, trace s1 = trace s0 ++ delta /\ cnt KStopped (dispK delta) <= 1.
Proof.
  intros P d fuel s0 s1 out Hi E. destruct (run_spec P d fuel s0 s1 out Hi E) as (dl & Ht & Hf & _ & Hst & _).
  exists dl. rewrite <- Hf, Hst. destruct (is_early (pend s1)); auto.
Qed.
Print Assumptions C08_stopped_at_most_once.

(* run() returns with an empty queue, and the sequence of events dispatched during the run IS the sequence
   of events queued during the run (started, stopped, generate_events, exception and user events alike) *)
Theorem C08_drained : forall P d fuel s0 s1 out, idle s0 -> run false false P d fuel s0 = Some (s1, out) ->
  fifo s1 = [] /\ heap s1 = [] /\ batch s1 = 0 /\
  exists delta, trace s1 = trace s0 ++ delta /\ dispK delta = firedK delta.
Proof. exact drained. Qed.
Print Assumptions C08_drained.

(* run() does not return unless a stop was requested, and what it hands to its caller is the code of the
   FIRST request of this run (stop(code), SystemExit(code) raised in a handler or a generator step,
   KeyboardInterrupt = None, from the loop's thread or the second thread) *)
Theorem C08_exit_code : forall P d fuel s0 s1 out, idle s0 -> run false false P d fuel s0 = Some (s1, out) ->
  exists delta r, trace s1 = trace s0 ++ delta /\ reqs delta = out :: r.
Proof.
  intros P d fuel s0 s1 out Hi E. destruct (run_spec P d fuel s0 s1 out Hi E) as (dl & Ht & _ & _ & _ & (r & Hq) & _).
  exists dl, r. auto.
Qed.
Print Assumptions C08_exit_code.

(* stop() on a manager that is not running is the identity and does not raise (any code, any ticker) *)
Theorem C08_idle_stop : forall (tk : st -> st) c s, running s = false -> stop tk c s = (s, false).
Proof. exact stop_idle. Qed.
Print Assumptions C08_idle_stop.

(* C08_idle_stop lifted to component trees: stop(c) called on a registered CHILD component (a manager on which
   run() was never invoked: its own state is [never_run]) while the root runs -- from a handler of the child or of
   the root, mid-chain, before or after the root's own stop, from the loop's thread or a second thread -- leaves the
   root's loop state unchanged (only the ghost trace records the call) and raises nothing into the caller.  The
   run() theorems above quantify over programs containing such steps. *)
Theorem C08_child_stop_no_effect : forall tk thr c s,
  exec_act tk (AStopChild thr c) s = (logt (TChildStop c) s, None).
Proof. intros tk thr c s. unfold exec_act. now rewrite (stop_idle tk c never_run eq_refl). Qed.
Print Assumptions C08_child_stop_no_effect.

Theorem C08_child_stop_second_thread_no_effect : forall lg tk tm c s,
  do_xact lg tk tm (XStopChild c) s = (logt (TChildStop c) s, false).
Proof. intros lg tk tm c s. unfold do_xact. now rewrite (stop_idle tk c never_run eq_refl). Qed.
Print Assumptions C08_child_stop_second_thread_no_effect.

(* child.stop(4) mid-chain and child.stop() from a second thread right before the root's stop(6): the chain
   completes, `stopped` once, run() raises SystemExit(6) *)
Example C08_ex_child_stop :
  option_map (fun r => (dispK (trace (fst r)), snd r))
    (run false false (prog_of [(KStarted, [BPlain [AFire false 0] RRet]);
                               (KUser 0, [BPlain [AStopChild false (Some 4%Z); AFire false 1] RRet]);
                               (KUser 1, [BPlain [AStopChild true None; AStop false (Some 6%Z)] RRet])])
         3 50 (init [] []))
  = Some ([KStarted; KGE; KUser 0; KGE; KUser 1; KGE; KStopped], Some 6%Z).
Proof. vm_compute. reflexivity. Qed.

(* a manager that has stopped is at rest again (not running, no executing thread, nothing queued), and idle --
   so that every theorem above applies to its next run() -- unless a pre-empted stopping thread is still parked
   (its remainder, Model finish_late, runs outside run(): three inline ticks by the second thread) *)
Theorem C08_rerun : forall P d fuel s0 s1 out, idle s0 -> run false false P d fuel s0 = Some (s1, out) ->
  at_rest s1 /\ (pend s1 = None -> idle s1).
Proof.
  intros P d fuel s0 s1 out Hi E. destruct (run_spec P d fuel s0 s1 out Hi E) as (dl & _ & _ & _ & _ & _ & Hr).
  split; [exact Hr | intros Hp; split; assumption].
Qed.
Print Assumptions C08_rerun.

(* all of it at once, exact (the lemma the others are projections of): the count of `stopped` is 1 except in
   the class of the open finding, where it is 0 *)
Theorem C08_run_spec : forall P d fuel s0 s1 out, idle s0 -> run false false P d fuel s0 = Some (s1, out) ->
  exists delta, trace s1 = trace s0 ++ delta /\
    firedK delta = dispK delta /\
    cnt KStarted (firedK delta) = 1 /\
    cnt KStopped (firedK delta) = (if is_early (pend s1) then 0 else 1) /\
    (exists r, reqs delta = out :: r) /\
    at_rest s1.
Proof. exact run_spec. Qed.
Print Assumptions C08_run_spec.

(* recording the exit code AFTER fire(stopped) loses it: stop(c) from a second thread that is pre-empted right
   after the wake-up; run() returns normally although the first (only) request carried c *)
Theorem C08_exit_code_legacy_order_refuted : exists P d fuel s0 s1 delta r c,
  idle s0 /\ run true false P d fuel s0 = Some (s1, None) /\
  trace s1 = trace s0 ++ delta /\ reqs delta = Some c :: r.
Proof.
  exists (prog_of []), 3, 50, (init [] [XStop PLate (Some 3%Z)]).
  eexists. eexists. eexists. eexists.
  split; [repeat split|].
  split; [vm_compute; reflexivity|].
  split; [simpl; reflexivity|].
  vm_compute. reflexivity.
Qed.
Print Assumptions C08_exit_code_legacy_order_refuted.

(* a generate_events dispatched while the manager is not running never waits (the dispatcher's
   `or not self._running` clause); it can be reached: a second thread's whole stop() landing in tick() between
   `if self._running` and fire(generate_events) ([mid s0], any position, any code -- all theorems above hold for
   every such script) *)
Theorem C08_ge_not_running_never_waits : forall lg P tk s, running s = false ->
  dispatch lg false P tk KGE s = logt (TDisp KGE) s.
Proof.
  intros lg P tk s R. unfold dispatch. change (running (logt (TDisp KGE) s)) with (running s).
  rewrite R. cbn. now rewrite !orb_true_r.
Qed.
Print Assumptions C08_ge_not_running_never_waits.

(* without that clause: stop() lands between the test and the fire of the first tick of the empty program; the
   batch is [started; stopped; generate_events]; the model's loop enters the unbounded wait on a stopped manager
   where nothing can wake it, and run does not return (fuel 50 and 400), while the code's variant returns *)
Theorem C08_ge_clause_dropped_refuted : exists P d s0,
  idle s0 /\ run false true P d 50 s0 = None /\ run false true P d 400 s0 = None /\
  run false false P d 50 s0 <> None.
Proof.
  exists (prog_of []), 3, (set_mid [Some None] (init [] [])).
  split; [repeat split|]. split; [vm_compute; reflexivity|]. split; [vm_compute; reflexivity|].
  vm_compute. discriminate.
Qed.
Print Assumptions C08_ge_clause_dropped_refuted.

Example C08_ex_stop_between_test_and_fire :
  option_map (fun r => dispK (trace (fst r))) (run false false (prog_of []) 3 50 (set_mid [Some None] (init [] [])))
  = Some [KStarted; KStopped; KGE].
Proof. vm_compute. reflexivity. Qed.

(* the schedule of the refutation, with the order of the code: SystemExit(3) reaches the caller *)
Example C08_ex_late_stop :
  option_map snd (run false false (prog_of []) 3 50 (init [] [XStop PLate (Some 3%Z)])) = Some (Some 3%Z).
Proof. vm_compute. reflexivity. Qed.

(* the three witnesses of the defects repaired by fixes/C08_1..3 *)
Definition ex_exit7 : prog := prog_of [(KStarted, [BPlain [] (RExit (Some 7%Z))])].
Definition ex_stop3 : prog := prog_of [(KStarted, [BPlain [AStop false (Some 3%Z)] RRet])].
Definition ex_gen : prog := prog_of
  [(KStarted, [BPlain [AFire false 0] RRet]);
   (KUser 0, [BGen [([AStop false None], RYield); ([AFire false 1], RYield); ([AFire false 1], RYield);
                    ([AFire false 1], RYield); ([AFire false 1], RYield); ([AFire false 1], RYield)]]);
   (KUser 1, [BPlain [AFire false 2] RRet])].

Example C08_ex_idle : idle (init [] []).
Proof. repeat split. Qed.

Example C08_ex_exit7 :
  option_map (fun r => (dispK (trace (fst r)), snd r)) (run false false ex_exit7 3 50 (init [] []))
  = Some ([KStarted; KGE; KStopped], Some 7%Z).
Proof. vm_compute. reflexivity. Qed.

Example C08_ex_stop3 :
  option_map (fun r => (dispK (trace (fst r)), snd r)) (run false false ex_stop3 3 50 (init [] []))
  = Some ([KStarted; KGE; KStopped], Some 3%Z).
Proof. vm_compute. reflexivity. Qed.

(* the generator keeps firing during the fade-out ticks; the last e2 is dispatched by the final drain;
   the second run() continues the leftover generator and still gives every guarantee *)
Definition two_runs (P : prog) (s : st) : option (st * option Z * st * option Z) :=
  match run false false P 3 50 s with
  | Some (s1, o1) => match run false false P 3 50 s1 with Some (s2, o2) => Some (s1, o1, s2, o2) | None => None end
  | None => None
  end.

Example C08_ex_gen_two_runs :
  option_map (fun '(s1, o1, s2, o2) =>
                (qlen s1, length (tasks s1), o1, qlen s2, length (tasks s2), o2, cnt KStopped (dispK (trace s2))))
             (two_runs ex_gen (init [] []))
  = Some (0, 1, None, 0, 1, None, 2).
Proof. vm_compute. reflexivity. Qed.

Example C08_ex_gen_two_runs_all_dispatched :
  match two_runs ex_gen (init [] []) with
  | Some (_, _, s2, _) => dispK (trace s2) = firedK (trace s2) /\ length (dispK (trace s2)) = 28
  | None => False
  end.
Proof. vm_compute. split; reflexivity. Qed.

(* a stop from the second thread while the loop idles, with an exit code *)
Example C08_ex_ext_stop :
  option_map (fun r => (dispK (trace (fst r)), reqs (trace (fst r)), snd r))
             (run false false (prog_of []) 3 50 (init [] [XFire 4; XStop PJoin (Some 5%Z)]))
  = Some ([KStarted; KGE; KUser 4; KGE; KStopped], [Some 5%Z], Some 5%Z).
Proof. vm_compute. reflexivity. Qed.
