(* C09 — timers never fire early, fire as often as specified, and bound the idle sleep.
   The consequences of acceptance are derived here from the general facts about the specification monitor in
   Proofs/TimersP.v; the refinement and removal proofs live there.

   The model (Model/Timers.v) runs the Manager loop tick by tick over arbitrary programs: scripts of ordinary events,
   of the handlers of timer events and of generator tasks that create / reset / unregister timers and consume time,
   external events arriving at arbitrary times, an arbitrary recorded firing order.  [history] is what happened:
     LCreate t iv p dl    a timer (id = number of timers created before) was created at t with interval iv
     LReset i t niv       timer i was reset at t (to a new interval)
     LUnreq i t           unregistration of timer i was requested at t
     LIter t fired w      a loop iteration dispatched generate_events at t; the timers in [fired] fired, then the loop
                          waited [w] (None: no wait)
     LRereg i t           timer i, out of the tree, was registered again at t
   [spec_after p pre] is the specification's book-keeping after the history [pre]: per timer the time it was last
   armed (s_t0: creation, reset, or last firing of a persistent timer), its interval (s_iv), persistence (s_p) and
   whether it is alive (s_alive: registered, no unregistration requested, a one-shot has not fired yet).
   All theorems quantify over every program, every start time, every arrival script, every schedule of simultaneous
   firings ([sch]), every order in which the task set is iterated ([tsch]) and every number of ticks; the only hypothesis is that the TIMEOUT constant has a positive denominator. *)
From Coq Require Import List ZArith Bool Lia.
From Circ Require Import Model.Timers Proofs.TimersP.
Import ListNotations.
Open Scope Z_scope.

Definition hist (p : prog) (t0 : Z) (sts : list (Z * bool * nat)) (sch tsch : list nat) (n : nat) : list lrec :=
  history (fst (run p (init t0 sts sch tsch) n)).

(* every run is accepted by the specification monitor (which checks, at every iteration: nobody fires twice, only
   alive timers whose interval has elapsed fire, every alive timer that is due fires, a wait happens only when
   nothing fired and does not pass the expiry of any alive timer), and the monitor's book-keeping agrees with the
   timers' own fields at the end *)
Theorem C09_run_conforms : forall p, 0 < p_tmo_den p -> forall t0 sts sch tsch n,
  spec_after p (hist p t0 sts sch tsch n) = Some (map abs (timers (fst (run p (init t0 sts sch tsch) n)))).
Proof. exact run_conforms. Qed.
Print Assumptions C09_run_conforms.

(* never early: a timer that fires at t is alive and was armed at some t0 with t0 + interval <= t *)
Theorem C09_not_early : forall p, 0 < p_tmo_den p -> forall t0 sts sch tsch n pre t fired w post i,
  hist p t0 sts sch tsch n = pre ++ LIter t fired w :: post -> In i fired ->
  exists ms x, spec_after p pre = Some ms /\ nth_error ms i = Some x /\
               s_alive x = true /\ s_t0 x + s_iv x <= t.
Proof.
  intros p Hden * H I.
  apply (run_split p Hden) in H as [ms [ms' [A [B _]]]].
  apply (fired_due i B) in I as [x Hx]. exists ms, x. auto.
Qed.
Print Assumptions C09_not_early.

(* the first firing after creation is not before creation time + interval; a datetime deadline counts at
   whole-second resolution: the timer is armed for floorsec(deadline) *)
Theorem C09_first_firing : forall p, 0 < p_tmo_den p -> forall t0 sts sch tsch n pre tc iv pp dl mid t fired w post ms,
  hist p t0 sts sch tsch n = pre ++ LCreate tc iv pp dl :: mid ++ LIter t fired w :: post ->
  spec_after p pre = Some ms ->
  In (length ms) fired -> (forall e, In e mid -> touches (length ms) e = false) ->
  tc + iv <= t /\ match dl with Some d => tc + iv = floorsec d | None => True end.
Proof.
  intros p Hden * H S I T.
  apply (run_split p Hden) in H as [ms0 [ms' [A [B C]]]]. rewrite S in A. inversion A; subst ms0.
  apply create_state in B as [N D]. split; auto.
  apply (iter_track C N) in I. rewrite track_untouched in I by auto. apply I.
Qed.
Print Assumptions C09_first_firing.

Theorem C09_datetime_whole_seconds : forall d, floorsec d <= d < floorsec d + UNIT.
Proof.
  intros d. unfold floorsec, UNIT.
  pose proof (Z.div_mod d 1024 ltac:(lia)). pose proof (Z.mod_pos_bound d 1024 ltac:(lia)). lia.
Qed.
Print Assumptions C09_datetime_whole_seconds.

(* a one-shot timer fires at most once, in any run (unless the program registers it again after its removal) *)
Theorem C09_oneshot_once : forall p, 0 < p_tmo_den p -> forall t0 sts sch tsch n pre t fired w mid t' fired' w' post ms i x,
  hist p t0 sts sch tsch n = pre ++ LIter t fired w :: mid ++ LIter t' fired' w' :: post ->
  In i fired -> spec_after p pre = Some ms -> nth_error ms i = Some x -> s_p x = false ->
  (forall r, In r mid -> is_rereg i r = false) -> ~ In i fired'.
Proof.
  intros p Hden * H I S N P RR I'.
  apply (iter_track (mid := _ :: mid) (run_from p Hden H S) N) in I' as [A _].
  simpl in A. rewrite track_dead in A; auto; try discriminate.
  unfold eff, s_fired. simpl. apply memb_In in I. rewrite I, P. reflexivity.
Qed.
Print Assumptions C09_oneshot_once.

Theorem C09_fires_once_per_iteration : forall p, 0 < p_tmo_den p -> forall t0 sts sch tsch n pre t fired w post,
  hist p t0 sts sch tsch n = pre ++ LIter t fired w :: post -> NoDup fired.
Proof.
  intros p Hden * H.
  apply (run_split p Hden) in H as [ms [ms' [_ [B _]]]]. apply iter_iff in B. tauto.
Qed.
Print Assumptions C09_fires_once_per_iteration.

(* consecutive firings of a persistent timer are at least one interval apart *)
Theorem C09_persistent_gap : forall p, 0 < p_tmo_den p -> forall t0 sts sch tsch n pre t1 f1 w1 mid t2 f2 w2 post ms i x,
  hist p t0 sts sch tsch n = pre ++ LIter t1 f1 w1 :: mid ++ LIter t2 f2 w2 :: post ->
  In i f1 -> In i f2 -> (forall r, In r mid -> touches i r = false) ->
  spec_after p pre = Some ms -> nth_error ms i = Some x -> s_p x = true ->
  t1 + s_iv x <= t2.
Proof.
  intros p Hden * H I1 I2 T S N P.
  apply (iter_track (mid := _ :: mid) (run_from p Hden H S) N) in I2 as [_ L].
  simpl in L. rewrite track_untouched in L by auto.
  unfold eff, s_fired in L. simpl in L. apply memb_In in I1. rewrite I1, P in L. exact L.
Qed.
Print Assumptions C09_persistent_gap.

(* once unregistration of a timer has been requested it never fires again (unless registered again) *)
Theorem C09_unregistered_silent : forall p, 0 < p_tmo_den p -> forall t0 sts sch tsch n pre i t mid t' fired w post,
  hist p t0 sts sch tsch n = pre ++ LUnreq i t :: mid ++ LIter t' fired w :: post ->
  (forall r, In r mid -> is_rereg i r = false) -> ~ In i fired.
Proof.
  intros p Hden * H RR I.
  destruct (run_split p Hden _ _ _ _ _ _ _ _ H) as [ms [ms' [S [B _]]]].
  simpl in B. destruct (nth_error ms i) as [x|] eqn:N; try discriminate.
  apply (iter_track (mid := _ :: mid) (run_from p Hden H S) N) in I as [A _].
  simpl in A. rewrite track_dead in A; auto; try discriminate.
  unfold eff. simpl. rewrite Nat.eqb_refl. reflexivity.
Qed.
Print Assumptions C09_unregistered_silent.

(* reset() restarts the countdown: the next firing is at least one (new) interval after the reset *)
Theorem C09_reset : forall p, 0 < p_tmo_den p -> forall t0 sts sch tsch n pre i r niv mid t fired w post ms x,
  hist p t0 sts sch tsch n = pre ++ LReset i r niv :: mid ++ LIter t fired w :: post ->
  In i fired -> (forall e, In e mid -> touches i e = false) ->
  spec_after p pre = Some ms -> nth_error ms i = Some x ->
  r + (match niv with Some v => v | None => s_iv x end) <= t.
Proof.
  intros p Hden * H I T S N.
  apply (iter_track (mid := _ :: mid) (run_from p Hden H S) N) in I as [_ L].
  simpl in L. rewrite track_untouched in L by auto.
  unfold eff in L. simpl in L. rewrite Nat.eqb_refl in L. exact L.
Qed.
Print Assumptions C09_reset.

(* sleep bound: the loop waits only when nothing fired, and the wait it asks for ends no later than the expiry of any
   alive timer (in particular it is not unbounded while a timer is pending) *)
Theorem C09_sleep_bound : forall p, 0 < p_tmo_den p -> forall t0 sts sch tsch n pre t fired w post,
  hist p t0 sts sch tsch n = pre ++ LIter t fired (Some w) :: post ->
  fired = [] /\
  forall ms i x, spec_after p pre = Some ms -> nth_error ms i = Some x -> s_alive x = true ->
    exists d, dur (p_tmo_num p) (p_tmo_den p) w = Some d /\ t + d <= s_t0 x + s_iv x.
Proof.
  intros p Hden * H.
  apply (run_split p Hden) in H as [ms0 [ms' [A [B _]]]].
  apply iter_iff in B as [[_ [_ [F W]]] _]. split; auto.
  intros ms i x S. rewrite S in A. inversion A; subst ms0. exact (wait_ok_nth W).
Qed.
Print Assumptions C09_sleep_bound.

(* ... and the clock after the wait is within what was asked for (an external event may end it earlier) *)
Theorem C09_wait_ends : forall s d, 0 <= d -> now s <= now (idle_wait s (Some d)) <= now s + d.
Proof.
  intros. unfold idle_wait. destruct (stims s) as [|[[a b] c] r]; simpl; try lia.
  destruct (a <? now s + d) eqn:E; simpl; lia.
Qed.
Print Assumptions C09_wait_ends.

(* a due timer fires in the first loop iteration at or after its expiry: in every iteration, every alive timer whose
   interval has elapsed fires *)
Theorem C09_due_fires : forall p, 0 < p_tmo_den p -> forall t0 sts sch tsch n pre t fired w post ms i x,
  hist p t0 sts sch tsch n = pre ++ LIter t fired w :: post ->
  spec_after p pre = Some ms -> nth_error ms i = Some x -> s_alive x = true -> s_t0 x + s_iv x <= t ->
  In i fired.
Proof.
  intros p Hden * H S N L D.
  apply (iter_track (mid := []) (run_from p Hden H S) N). auto.
Qed.
Print Assumptions C09_due_fires.

(* "then removes itself", for every run: if a one-shot timer has fired anywhere in the history of the first n ticks
   and the program never registers it again ([prog_ok i p]: no script contains OReReg i), then two ticks later it is
   out of the component tree ([Gone]: not registered, no removal pending).  With n = the tick in which it fired: out
   by iteration n+2.  No hypothesis about the state: the invariant "every pending timer has its prepare_unregister
   or the completion event queued" is proved for all runs. *)
Theorem C09_oneshot_removed : forall p, 0 < p_tmo_den p -> forall t0 sts sch tsch n i pre t fired w post ms x,
  prog_ok i p ->
  hist p t0 sts sch tsch n = pre ++ LIter t fired w :: post -> In i fired ->
  spec_after p pre = Some ms -> nth_error ms i = Some x -> s_p x = false ->
  (forall r, In r post -> is_rereg i r = false) ->
  Gone (tick p (tick p (fst (run p (init t0 sts sch tsch) n)))) i.
Proof.
  intros p Hden * OK H I S N P RR.
  apply (dead_removed _ _ OK Hden H S N). simpl. apply track_dead; auto.
  unfold eff, s_fired. simpl. apply memb_In in I. rewrite I, P. reflexivity.
Qed.
Print Assumptions C09_oneshot_removed.

(* likewise a timer whose unregistration was requested *)
Theorem C09_unregistered_removed : forall p, 0 < p_tmo_den p -> forall t0 sts sch tsch n i pre t post,
  prog_ok i p ->
  hist p t0 sts sch tsch n = pre ++ LUnreq i t :: post -> (forall r, In r post -> is_rereg i r = false) ->
  Gone (tick p (tick p (fst (run p (init t0 sts sch tsch) n)))) i.
Proof.
  intros p Hden * OK H RR.
  destruct (run_split p Hden _ _ _ _ _ _ _ _ H) as [ms [ms' [S [B _]]]].
  simpl in B. destruct (nth_error ms i) as [x|] eqn:N; try discriminate.
  apply (dead_removed _ _ OK Hden H S N). simpl. apply track_dead; auto.
  unfold eff. simpl. rewrite Nat.eqb_refl. reflexivity.
Qed.
Print Assumptions C09_unregistered_removed.

(* and it stays out (in states whose tasks run only steps of such a program, e.g. all states of a run) *)
Theorem C09_gone_stays : forall i p s, prog_ok i p -> tasks_ok i s -> Gone s i -> Gone (tick p s) i.
Proof. intros i p s OK. exact (gone_stays i p OK s). Qed.
Print Assumptions C09_gone_stays.

(* what starts the removal, for every state: a one-shot that fires queues its event and its prepare_unregister and
   carries the pending flag *)
Theorem C09_oneshot_starts_removal : forall s i tm, nth_error (timers s) i = Some tm -> t_persist tm = false ->
  t_reg tm && negb (t_pend tm) = true ->
  In (ETimer i) (queue (fire_timer s i)) /\ In (EPrep i) (queue (fire_timer s i)) /\ PG (fire_timer s i) i.
Proof.
  intros. unfold fire_timer. rewrite H, H0.
  destruct (unregister_starts (push_ev s (ETimer i)) i tm H H1) as [A B]. repeat split; auto.
  apply (xt_unregister i). simpl. auto with datatypes.
Qed.
Print Assumptions C09_oneshot_starts_removal.

(* TIMEOUT = 0.1 s in units of 2^-10 s, as an exact ratio *)
Definition tmo_num : Z := 3602879701896397.
Definition tmo_den : Z := 35184372088832.

(* a one-shot 2 s timer and a persistent 0.75 s timer (the probe of DESIGN §6); time starts at 4 s = 4096 *)
Definition ex_prog : prog :=
  mkProg [[OCreate 2048 false; OCreate 768 true]] [] [] tmo_num tmo_den.

Example C09_ex_den : 0 < p_tmo_den ex_prog.
Proof. reflexivity. Qed.

Example C09_ex_history :
  hist ex_prog 4096 [(4096, false, 0%nat)] [] [] 12 =
  [ LCreate 4096 2048 false None; LCreate 4096 768 true None;
    LIter 4096 [] None; LIter 4096 [] (Some (Fin 768));
    LIter 4864 [1%nat] None; LDisp 1 4864; LIter 4864 [] (Some (Fin 768));
    LIter 5632 [1%nat] None; LDisp 1 5632; LIter 5632 [] (Some (Fin 512));
    LIter 6144 [0%nat] None; LDisp 0 6144; LIter 6144 [] None; LIter 6144 [] None;
    LIter 6144 [] (Some (Fin 256)); LIter 6400 [1%nat] None; LDisp 1 6400; LIter 6400 [] (Some (Fin 768)) ].
Proof. vm_compute. reflexivity. Qed.

(* the specification rejects an early firing, an oversleep, a missed firing and a second firing of a one-shot *)
Example C09_ex_rejects :
  mon_run tmo_num tmo_den [] [LCreate 0 100 false None; LIter 99 [0%nat] None] = None /\
  mon_run tmo_num tmo_den [] [LCreate 0 100 false None; LIter 0 [] (Some (Fin 101))] = None /\
  mon_run tmo_num tmo_den [] [LCreate 0 100 false None; LIter 0 [] (Some Inf)] = None /\
  mon_run tmo_num tmo_den [] [LCreate 0 100 false None; LIter 100 [] None] = None /\
  mon_run tmo_num tmo_den [] [LCreate 0 100 false None; LIter 100 [0%nat] None; LIter 300 [0%nat] None] = None /\
  mon_run tmo_num tmo_den [] [LCreate 0 100 true None; LIter 100 [0%nat] None; LIter 199 [0%nat] None] = None /\
  mon_run tmo_num tmo_den [] [LCreate 0 100 true None; LUnreq 0 50; LIter 100 [0%nat] None] = None /\
  mon_run tmo_num tmo_den [] [LCreate 0 100 true None; LIter 100 [0%nat] None; LIter 200 [0%nat] None;
                              LIter 200 [] (Some (Fin 100))] <> None.
Proof. vm_compute. repeat split; discriminate. Qed.

(* the hypotheses of the gap / reset / first-firing theorems are satisfiable on the example run *)
Example C09_ex_gap :
  exists pre mid post ms x,
    hist ex_prog 4096 [(4096, false, 0%nat)] [] [] 12 =
      pre ++ LIter 4864 [1%nat] None :: mid ++ LIter 5632 [1%nat] None :: post /\
    (forall r, In r mid -> touches 1 r = false) /\
    spec_after ex_prog pre = Some ms /\ nth_error ms 1 = Some x /\ s_p x = true /\ s_iv x = 768.
Proof.
  exists [LCreate 4096 2048 false None; LCreate 4096 768 true None; LIter 4096 [] None; LIter 4096 [] (Some (Fin 768))],
         [LDisp 1 4864; LIter 4864 [] (Some (Fin 768))].
  eexists. eexists. eexists. split. vm_compute. reflexivity.
  split. intros r [H | [H | []]]; subst; reflexivity.
  vm_compute. repeat split; reflexivity.
Qed.

(* the example run ends with the one-shot (timer 0) out of the tree and the persistent one still registered *)
Example C09_ex_removed :
  map (fun tm => (t_reg tm, t_pend tm)) (timers (fst (run ex_prog (init 4096 [(4096, false, 0%nat)] [] []) 12)))
  = [(false, false); (true, false)].
Proof. vm_compute. reflexivity. Qed.

(* a persistent 1 s timer, reset by an external event at +504 units (the wait of 1024 is cut short), unregistered by
   another at 7000: the firing moves from 5120 to 5624 = 4600 + 1024, the next one is 1024 later, nothing fires after
   the request, and only then the loop waits without bound.  Instantiates C09_reset / C09_unregistered_silent. *)
Definition ex_prog2 : prog :=
  mkProg [[OCreate 1024 true]; [OReset 0]; [OUnreg 0]] [] [] tmo_num tmo_den.

Example C09_ex_reset_unregister :
  hist ex_prog2 4096 [(4096, false, 0%nat); (4600, false, 1%nat); (7000, false, 2%nat)] [] [] 16 =
  [ LCreate 4096 1024 true None; LIter 4096 [] None; LIter 4096 [] (Some (Fin 1024));
    LReset 0 4600 None; LIter 4600 [] (Some (Fin 1024));
    LIter 5624 [0%nat] None; LDisp 0 5624; LIter 5624 [] (Some (Fin 1024));
    LIter 6648 [0%nat] None; LDisp 0 6648; LIter 6648 [] (Some (Fin 1024));
    LUnreq 0 7000; LIter 7000 [] None; LIter 7000 [] None; LIter 7000 [] None; LIter 7000 [] (Some Inf) ].
Proof. vm_compute. reflexivity. Qed.

(* "gap >= interval" is tight, and a late tick delays all later firings (no catch-up is promised): a persistent 1 s
   timer, and a handler that keeps the loop busy from 5000 to 6500, over the expiry 5120.  The timer fires at 6500 and
   then at 7524, 8548, ... — consecutive firings exactly one interval apart, every one 1380 units later than the
   5120 + k * 1024 of an undisturbed run. *)
Definition ex_late : prog := mkProg [[OCreate 1024 true]; [OWork 1500]] [] [] tmo_num tmo_den.

Example C09_ex_gap_tight :
  hist ex_late 4096 [(4096, false, 0%nat); (5000, false, 1%nat)] [] [] 8 =
  [ LCreate 4096 1024 true None; LIter 4096 [] None; LIter 4096 [] (Some (Fin 1024));
    LIter 6500 [0%nat] None; LDisp 0 6500; LIter 6500 [] (Some (Fin 1024));
    LIter 7524 [0%nat] None; LDisp 0 7524; LIter 7524 [] (Some (Fin 1024));
    LIter 8548 [0%nat] None; LDisp 0 8548; LIter 8548 [] (Some (Fin 1024)) ].
Proof. vm_compute. reflexivity. Qed.

(* registering a removed one-shot again does not re-arm it: it keeps its old expiry and fires at once (6000), a second
   time in its second life; reset() on a timer outside the tree has no effect on the loop (it waits without bound) *)
Definition ex_rereg : prog := mkProg [[OCreate 512 false]; [OReReg 0]; [OReset 0]] [] [] tmo_num tmo_den.

Example C09_ex_reregister :
  hist ex_rereg 4096 [(4096, false, 0%nat); (6000, false, 1%nat); (7000, false, 2%nat)] [] [] 20 =
  [ LCreate 4096 512 false None; LIter 4096 [] None; LIter 4096 [] (Some (Fin 512));
    LIter 4608 [0%nat] None; LDisp 0 4608; LIter 4608 [] None; LIter 4608 [] None; LIter 4608 [] (Some Inf);
    LRereg 0 6000; LIter 6000 [0%nat] None; LDisp 0 6000; LIter 6000 [] None; LIter 6000 [] None;
    LIter 6000 [] (Some Inf); LReset 0 7000 None; LIter 7000 [] (Some Inf) ].
Proof. vm_compute. reflexivity. Qed.

(* two generator tasks alive at once: the order in which the task set is iterated (the [tsch] argument) changes when
   the timer is reset and hence when it fires (4699 vs 4696); the theorems hold for every order *)
Definition ex_tasks : prog :=
  mkProg [[OCreate 300 false]] [] [[GOps [OWork 200]; GYield; GOps [OReset 0]]; [GOps [OReset 0]; GYield]] tmo_num tmo_den.

Example C09_ex_task_order :
  let sts := [(4096, false, 0%nat); (4096, true, 0%nat); (4096, true, 1%nat)] in
  In (LIter 4699 [0%nat] None) (hist ex_tasks 4096 sts [] [] 8) /\
  In (LIter 4696 [0%nat] None) (hist ex_tasks 4096 sts [] [1; 0; 0; 1]%nat 8).
Proof. vm_compute. split; intuition. Qed.

(* the hypotheses of C09_oneshot_removed hold on the first example: its program never registers anything again, the
   one-shot (timer 0) fires in the 7th tick (it is then pending removal), and two ticks later it is out of the tree *)
Example C09_ex_prog_ok : forall i, prog_ok i ex_prog.
Proof.
  intros i. repeat split; simpl; intros l H;
    repeat (destruct H as [H | H]; [subst; intros o Ho; simpl in Ho;
                                    repeat (destruct Ho as [Ho | Ho]; [subst; reflexivity|]); contradiction |]);
    contradiction.
Qed.

Example C09_ex_oneshot_removed :
  In (LIter 6144 [0%nat] None) (hist ex_prog 4096 [(4096, false, 0%nat)] [] [] 7) /\
  map (fun tm => (t_reg tm, t_pend tm)) (timers (fst (run ex_prog (init 4096 [(4096, false, 0%nat)] [] []) 7)))
    = [(true, true); (true, false)] /\
  map (fun tm => (t_reg tm, t_pend tm)) (timers (fst (run ex_prog (init 4096 [(4096, false, 0%nat)] [] []) 9)))
    = [(false, false); (true, false)].
Proof. vm_compute. repeat split; intuition. Qed.
