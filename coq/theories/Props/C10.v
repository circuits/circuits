(* C10 — pollers report exactly the registered-and-ready descriptors; Select, Poll and EPoll agree.
   The statements, each derived in a few lines from Proofs/PollerP.v.  The model (Model/Poller.v) follows /repo HEAD, i.e. it
   includes the repaired Poll._process (staleness test) and EPoll._updateRegistration dropping its _map entries.

   Reading guide.  [reach k s]: s is reachable from the empty poller of kind k by any history of
   Open / Close / AddR / AddW / RemR / RemW / Discard / Tick steps that do not raise, respecting the API precondition
   [pre] (a role is added only when it is not registered already) and, for Tick, the kernel assumption [order_ok]
   (poll/epoll report each number of the interest table at most once, in any order).
   [registered s o] = o is in _read or _write (isReading / isWriting).  [target s o] = getTarget(o). *)
From Coq Require Import List Arith Bool.
From Circ Require Import Model.Poller Proofs.PollerP.
Import ListNotations.

(* invariant: the kernel interest table mirrors list membership, _map = registered objects by current number *)
Theorem C10_mirror : forall k s, k <> KSelect -> reach k s ->
  (forall o f, fds s o = Some f -> registered s o -> kreg s f = Some (mem o (rd s), mem o (wr s)) /\ pmap s f = Some o) /\
  (forall o f m, fds s o = Some f -> pmap s f = Some o -> kreg s f = Some m -> m = (mem o (rd s), mem o (wr s)) /\ registered s o) /\
  (forall o f, fds s o = Some f -> ~ registered s o -> pmap s f = Some o -> kreg s f = None).
Proof.
  intros k s Hk Hre. destruct (reach_Inv _ _ Hre) as (_ & HM & _). destruct (HM Hk) as [_ Mm Me]. split; [|split].
  - intros o f Hf Hr. destruct (Mm o f Hf Hr). split; assumption.
  - intros o f m Hf Hp Hkr. exact (Me f o m Hp Hf Hkr).
  - intros o f Hf Hn Hp. destruct (kreg s f) as [m|] eqn:Ek; [|reflexivity]. destruct Hn. exact (proj2 (Me f o m Hp Hf Ek)).
Qed.
Print Assumptions C10_mirror.

(* epoll: every kernel entry belongs to an open registered object with exactly that interest *)
Theorem C10_mirror_epoll : forall s f m, reach KEPoll s -> kreg s f = Some m ->
  exists o, fds s o = Some f /\ registered s o /\ m = (mem o (rd s), mem o (wr s)).
Proof.
  intros s f m Hre Hk. destruct (reach_Inv _ _ Hre) as (_ & HM & HE).
  destruct (HE eq_refl f m Hk) as (o & Hp & Hf). exists o. split; [exact Hf|].
  destruct (m_exact _ (HM ltac:(discriminate)) f o m Hp Hf Hk). split; assumption.
Qed.
Print Assumptions C10_mirror_epoll.

(* registrations follow the set model; the target is the registering component's channel *)
Theorem C10_registration : forall k s x s' e, step k s x = Ok s' e ->
  match x with
  | AddR c o => rd s' = rd s ++ [o] /\ wr s' = wr s
  | AddW c o => rd s' = rd s /\ wr s' = wr s ++ [o]
  | RemR o => rd s' = remove1 o (rd s) /\ wr s' = wr s
  | RemW o => rd s' = rd s /\ wr s' = remove1 o (wr s)
  | Discard o => rd s' = remove1 o (rd s) /\ wr s' = remove1 o (wr s)
  | Open _ _ | Close _ => rd s' = rd s /\ wr s' = wr s
  | Tick _ _ => (forall o, In o (rd s') -> In o (rd s)) /\ (forall o, In o (wr s') -> In o (wr s))
  end.
Proof. exact step_lists. Qed.
Print Assumptions C10_registration.

Theorem C10_target : forall k s x s' e, step k s x = Ok s' e ->
  match x with
  | AddR c o | AddW c o => tg s' o = Some c /\ forall o', o' <> o -> tg s' o' = tg s o'
  | RemR o => (In o (wr s) -> tg s' o = tg s o) /\ forall o', o' <> o -> tg s' o' = tg s o'
  | RemW o => (In o (rd s) -> tg s' o = tg s o) /\ forall o', o' <> o -> tg s' o' = tg s o'
  | Discard o => forall o', o' <> o -> tg s' o' = tg s o'
  | Open _ _ | Close _ => tg s' = tg s
  | Tick _ _ => True
  end.
Proof. exact step_target. Qed.
Print Assumptions C10_target.

Theorem C10_discard_unregisters : forall k s o s' e, reach k s -> step k s (Discard o) = Ok s' e -> ~ registered s' o.
Proof.
  intros k s o s' e Hre H. destruct (reach_Inv _ _ Hre) as (HW & _).
  rewrite registered_mask, (step_mask _ _ (Discard o) _ _ o HW I H). unfold mask_step, reg. simpl.
  rewrite Nat.eqb_refl, !andb_false_r. discriminate.
Qed.
Print Assumptions C10_discard_unregisters.

(* one iteration emits read(o) / write(o) iff registered and ready, addressed to the target *)
Theorem C10_emit_select_read : forall s st o c,
  In (ERead o c) (snd (select_tick s st)) <->
  clean s /\ In o (rd s) /\ (exists f, fds s o = Some f /\ sr (st f) = true) /\ c = target s o.
Proof. exact select_read. Qed.
Print Assumptions C10_emit_select_read.

Theorem C10_emit_select_write : forall s st o c,
  In (EWrite o c) (snd (select_tick s st)) <->
  clean s /\ In o (wr s) /\ (exists f, fds s o = Some f /\ sw (st f) = true) /\ c = target s o.
Proof. exact select_write. Qed.
Print Assumptions C10_emit_select_write.

(* Select meeting a closed descriptor: the iteration reports nothing, drops exactly the closed descriptors,
   and the next iteration is covered by the two theorems above *)
Theorem C10_select_preen : forall s st, ~ clean s ->
  snd (select_tick s st) = [] /\ clean (fst (select_tick s st)) /\
  (forall o, closed s o = false -> (In o (rd (fst (select_tick s st))) <-> In o (rd s)) /\
                                   (In o (wr (fst (select_tick s st))) <-> In o (wr s))).
Proof.
  intros s st Hn. unfold select_tick, clean in *.
  destruct (existsb (closed s) (rd s) || existsb (closed s) (wr s)) eqn:E; [|congruence].
  simpl. split; [reflexivity|]. split.
  - apply orb_false_iff. split; apply not_true_is_false; intro H; apply existsb_exists in H;
      destruct H as (x & Hx & Hc); apply filter_In in Hx; destruct Hx as [_ Hx];
      unfold closed in *; simpl in Hc; destruct (fds s x); simpl in Hx; congruence.
  - intros o Hc. split; rewrite filter_In, Hc; simpl; tauto.
Qed.
Print Assumptions C10_select_preen.

Theorem C10_emit_poll_read : forall k s st order o c, k <> KSelect -> reach k s -> order_ok s order ->
  (In (ERead o c) (snd (tick k s st order)) <->
   In o (rd s) /\ (exists f, fds s o = Some f /\ pin (st f) = true) /\ c = target s o).
Proof. intros k s st order o c Hk Hr. apply poll_read; [exact Hk | apply reach_Inv; exact Hr]. Qed.
Print Assumptions C10_emit_poll_read.

(* a write event is suppressed exactly when the kernel reports hang-up / error for the number without
   readable data for a registered reader: then _disconnect is emitted instead (next theorem) *)
Theorem C10_emit_poll_write : forall k s st order o c, k <> KSelect -> reach k s -> order_ok s order ->
  (In (EWrite o c) (snd (tick k s st order)) <->
   In o (wr s) /\ (exists f, fds s o = Some f /\ pout (st f) = true /\ hang_only s st o f = false) /\ c = target s o).
Proof. intros k s st order o c Hk Hr. apply poll_write; [exact Hk | apply reach_Inv; exact Hr]. Qed.
Print Assumptions C10_emit_poll_write.

Theorem C10_emit_poll_disconnect : forall k s st order o c, k <> KSelect -> reach k s -> order_ok s order ->
  In (EDisc o c) (snd (tick k s st order)) ->
  registered s o /\ c = target s o /\
  (fds s o = None \/ exists f, fds s o = Some f /\ hang_only s st o f = true).
Proof. intros k s st order o c Hk Hr. apply poll_disc; [exact Hk | apply reach_Inv; exact Hr]. Qed.
Print Assumptions C10_emit_poll_disconnect.

(* no ghost events, for every continuation of the history (number reuse included: Open is unconstrained
   except that the number is not open) *)
Theorem C10_no_ghost_unregistered : forall k h s tr oc sf o,
  reach k s -> run_pre k s h -> run k s h = (tr, oc, sf) ->
  ~ registered s o -> (forall x, In x h -> ~ adds o x) ->
  forall s' evs e, In (s', evs) tr -> In e evs -> ev_obj e <> o.
Proof.
  intros k h s tr oc sf o Hre Hpre Hrun Hn Hadds.
  refine (trace_never k (fun s => ~ registered s o) (fun x => ~ adds o x) (fun e => ev_obj e = o) _ _
            h s tr oc sf Hre Hpre Hrun Hn Hadds).
  - intros s0 x s1 e Hn0 Ha H Hr. destruct (step_reg_cases _ _ _ _ _ _ H Hr); contradiction.
  - intros s0 st order e HI Hn0 Hord Hin He.
    destruct (tick_event_registered _ _ _ _ _ HI Hord Hin) as [Hr _]. rewrite He in Hr. contradiction.
Qed.
Print Assumptions C10_no_ghost_unregistered.

Theorem C10_no_ghost_closed : forall k h s tr oc sf o,
  reach k s -> run_pre k s h -> run k s h = (tr, oc, sf) ->
  fds s o = None -> born s o <> None ->
  forall s' evs e, In (s', evs) tr -> In e evs -> is_rw e -> ev_obj e <> o.
Proof.
  intros k h s tr oc sf o Hre Hpre Hrun Hf Hb s' evs e Hin He Hrw Ho.
  refine (trace_never k (fun s => fds s o = None /\ born s o <> None) (fun _ => True) (fun e => is_rw e /\ ev_obj e = o) _ _
            h s tr oc sf Hre Hpre Hrun (conj Hf Hb) (fun _ _ => I) s' evs e Hin He (conj Hrw Ho)).
  - intros s0 x s1 e0 [Hf0 Hb0] _ H. exact (world_after_closed _ _ _ _ (step_world _ _ _ _ _ H) Hf0 Hb0).
  - intros s0 st order e0 HI [Hf0 _] Hord Hi [Hrw0 <-].
    destruct (tick_event_registered _ _ _ _ _ HI Hord Hi) as [_ Hopen]. exact (Hopen Hrw0 Hf0).
Qed.
Print Assumptions C10_no_ghost_closed.

Theorem C10_close_closes : forall k s o s' e, reach k s -> step k s (Close o) = Ok s' e -> fds s' o = None /\ born s' o <> None.
Proof.
  intros k s o s' e Hre H. destruct (step_world _ _ _ _ _ H) as (f & Ef & -> & _ & ->).
  split; [apply upd_same|]. destruct (reach_Inv _ _ Hre) as (HW & _). rewrite (w_born _ HW _ _ Ef). discriminate.
Qed.
Print Assumptions C10_close_closes.

(* the three pollers agree: a Select state and a Poll / EPoll state with the same registrations emit the same
   events in an iteration, provided no registered descriptor is closed and none is in hang-up / error state *)
Theorem C10_agree : forall k s1 s2 st order e,
  k <> KSelect -> reach KSelect s1 -> reach k s2 -> order_ok s2 order ->
  (forall o, In o (rd s1) <-> In o (rd s2)) -> (forall o, In o (wr s1) <-> In o (wr s2)) ->
  (forall o, tg s1 o = tg s2 o) -> (forall o, fds s1 o = fds s2 o) ->
  clean s1 -> (forall o f, registered s1 o -> fds s1 o = Some f -> plain (st f)) ->
  (In e (snd (tick KSelect s1 st order)) <-> In e (snd (tick k s2 st order))).
Proof.
  intros k s1 s2 st order e Hk _ H2. apply agree_tick; [exact Hk | apply reach_Inv; exact H2].
Qed.
Print Assumptions C10_agree.

(* agreement along whole histories.
   [joint k h s1 s2]: the same history h has been applied, step by step and without raising, to Select (reaching s1)
   and to k = Poll / EPoll (reaching s2), every step satisfying [joint_pre]: the API precondition on both sides; a
   descriptor that Poll/EPoll have hung up on is discarded before it is registered again; descriptors are discarded
   before they are closed; every status has select-readable = POLLIN and select-writable = POLLOUT ([consistent]).
   [joint] is built by appending steps, so the theorems speak about every prefix of a history.
   [Rel s1 s2]: same descriptor table; Poll/EPoll's lists are subsets of Select's; on every descriptor Poll/EPoll
   still have registered, roles and target coincide.  [dropped s1 s2 o] = registered for Select, not for Poll/EPoll. *)
Theorem C10_agree_history : forall k h s1 s2, k <> KSelect -> joint k h s1 s2 ->
  Rel s1 s2 /\ reach KSelect s1 /\ reach k s2.
Proof. exact agree_history. Qed.
Print Assumptions C10_agree_history.

(* the iteration after any such history: Poll/EPoll's read events are Select's restricted to the descriptors they still
   have; their write events additionally leave out the descriptors in hang-up-only state, for which they emit
   _disconnect (iff) and drop the registration (iff); Select emits no _disconnect and keeps its state *)
Theorem C10_agree_history_events : forall k h s1 s2 st order, k <> KSelect -> joint k h s1 s2 ->
  order_ok s2 order -> (forall f, consistent (st f)) ->
  let e1 := snd (tick KSelect s1 st order) in
  let e2 := snd (tick k s2 st order) in
  let s2' := fst (tick k s2 st order) in
  (forall o c, In (ERead o c) e2 <-> In (ERead o c) e1 /\ registered s2 o) /\
  (forall o c, In (EWrite o c) e2 <->
               In (EWrite o c) e1 /\ registered s2 o /\ forall f, fds s2 o = Some f -> hang_only s2 st o f = false) /\
  (forall o c, In (EDisc o c) e2 <->
               registered s2 o /\ c = target s2 o /\ exists f, fds s2 o = Some f /\ hang_only s2 st o f = true) /\
  (forall o c, ~ In (EDisc o c) e1) /\
  fst (tick KSelect s1 st order) = s1 /\
  (forall o, registered s2 o -> (~ registered s2' o <-> exists c, In (EDisc o c) e2)).
Proof.
  intros k h s1 s2 st order Hk Hj Hord Hc. destruct (agree_history _ _ _ _ Hk Hj) as (HR & _ & R2).
  apply Rel_masks in HR. destruct HR as ((F & _) & Rs & Ro).
  exact (agree_events k s1 s2 st order Hk F Rs Ro (reach_Inv _ _ R2) Hord (fun _ f _ _ => Hc f)).
Qed.
Print Assumptions C10_agree_history_events.

(* the hang-up difference, stated as a relation instead of an exclusion *)
Theorem C10_hangup_difference : forall k h s1 s2 st order o c, k <> KSelect -> joint k h s1 s2 ->
  order_ok s2 order -> (forall f, consistent (st f)) ->
  let e1 := snd (tick KSelect s1 st order) in
  let e2 := snd (tick k s2 st order) in
  let s2' := fst (tick k s2 st order) in
  (In (ERead o c) e2 -> In (ERead o c) e1) /\ (In (EWrite o c) e2 -> In (EWrite o c) e1) /\
  (In (ERead o c) e1 -> In (ERead o c) e2 \/ dropped s1 s2 o) /\
  (In (EWrite o c) e1 -> In (EWrite o c) e2 \/ dropped s1 s2 o \/
                         ((exists c', In (EDisc o c') e2) /\ ~ registered s2' o)).
Proof. exact hangup_difference. Qed.
Print Assumptions C10_hangup_difference.

(* how the difference evolves: only a _disconnect in an iteration enlarges it; discard(o) by the client removes o
   from it; no other operation adds to it *)
Theorem C10_resync : forall k h s1 s2 x s1' e1 s2' e2 o, k <> KSelect -> joint k h s1 s2 -> joint_pre s1 s2 x ->
  step KSelect s1 x = Ok s1' e1 -> step k s2 x = Ok s2' e2 ->
  match x with
  | Discard o' => dropped s1' s2' o <-> dropped s1 s2 o /\ o <> o'
  | Tick _ _ => dropped s1' s2' o <-> dropped s1 s2 o \/ exists c, In (EDisc o c) e2
  | _ => dropped s1' s2' o -> dropped s1 s2 o
  end.
Proof.
  intros k h s1 s2 x s1' e1 s2' e2 o Hk Hj Hp H1 H2. destruct (agree_history _ _ _ _ Hk Hj) as (HR & R1 & R2).
  exact (dropped_step k s1 s2 x s1' e1 s2' e2 o Hk HR (reach_Inv _ _ R1) (reach_Inv _ _ R2) Hp H1 H2).
Qed.
Print Assumptions C10_resync.

(* once every hung-up descriptor has been discarded the pollers are in full agreement again: equal lists, targets and
   descriptor table, i.e. the hypotheses of C10_agree *)
Theorem C10_synced : forall k h s1 s2, k <> KSelect -> joint k h s1 s2 -> (forall o, ~ dropped s1 s2 o) ->
  (forall o, In o (rd s1) <-> In o (rd s2)) /\ (forall o, In o (wr s1) <-> In o (wr s2)) /\
  (forall o, tg s1 o = tg s2 o) /\ (forall o, fds s1 o = fds s2 o).
Proof.
  intros k h s1 s2 Hk Hj Hn. destruct (agree_history _ _ _ _ Hk Hj) as (HR & R1 & R2).
  exact (synced_equal s1 s2 HR (proj1 (reach_Inv _ _ R1)) (proj1 (reach_Inv _ _ R2)) Hn).
Qed.
Print Assumptions C10_synced.

Definition rdy : status := {| pin := true; pout := true; phup := false; perr := false; sr := true; sw := true |}.

(* close without discard, number reused by an unregistered descriptor that is readable:
   the repaired Poll tells the owner once (_disconnect) and never reports o1 again; epoll and select stay silent *)
Definition witness : list op :=
  [Open 1 0; AddR 1 1; Tick (fun _ => rdy) [0]; Close 1; Open 2 0; Tick (fun _ => rdy) [0]; Tick (fun _ => rdy) [0]].
Example C10_ex_poll_reuse :
  map snd (fst (fst (run KPoll init witness))) = [[ERead 1 1]; [EDisc 1 1]; []].
Proof. vm_compute. reflexivity. Qed.
Example C10_ex_epoll_reuse :
  map snd (fst (fst (run KEPoll init witness))) = [[ERead 1 1]; []; []].
Proof. vm_compute. reflexivity. Qed.
Example C10_ex_select_reuse :
  map snd (fst (fst (run KSelect init witness))) = [[ERead 1 1]; []; []].
Proof. vm_compute. reflexivity. Qed.

(* remove one role while the other stays; both owners' channel kept *)
Example C10_ex_roles :
  map snd (fst (fst (run KPoll init [Open 1 0; AddR 2 1; AddW 2 1; Tick (fun _ => rdy) [0]; RemR 1; Tick (fun _ => rdy) [0]])))
  = [[ERead 1 2; EWrite 1 2]; [EWrite 1 2]].
Proof. vm_compute. reflexivity. Qed.

(* a reachable state satisfying the hypotheses of the emission theorems *)
Example C10_ex_reach : exists s, reach KPoll s /\ In 1 (rd s) /\ fds s 1 = Some 0 /\ order_ok s [0] /\ kreg s 0 = Some (true, false).
Proof.
  eexists. split.
  - eapply (reach_step _ _ (AddR 1 1)); [eapply (reach_step _ init (Open 1 0)); [apply reach_init | exact I | reflexivity] | simpl; intros [] | reflexivity].
  - simpl. repeat split; auto.
    + constructor; [intros [] | constructor].
    + intros f Hf. unfold upd in Hf. simpl in Hf. destruct f; [left; reflexivity | simpl in Hf; congruence].
Qed.

(* hang-up: registered for writing only, peer closes.  Select keeps reporting write; Poll / EPoll disconnect once and
   drop; after the client's discard nothing is reported by anyone *)
Definition hup : status := {| pin := true; pout := true; phup := true; perr := false; sr := true; sw := true |}.
Definition hangup_hist : list op :=
  [Open 1 0; AddW 2 1; Tick (fun _ => rdy) [0]; Tick (fun _ => hup) [0]; Tick (fun _ => hup) [0]; Discard 1; Tick (fun _ => hup) [0]].
Example C10_ex_hangup_select :
  map snd (fst (fst (run KSelect init hangup_hist))) = [[EWrite 1 2]; [EWrite 1 2]; [EWrite 1 2]; []].
Proof. vm_compute. reflexivity. Qed.
Example C10_ex_hangup_poll :
  map snd (fst (fst (run KPoll init hangup_hist))) = [[EWrite 1 2]; [EDisc 1 2]; []; []].
Proof. vm_compute. reflexivity. Qed.
Example C10_ex_hangup_epoll :
  map snd (fst (fst (run KEPoll init hangup_hist))) = [[EWrite 1 2]; [EDisc 1 2]; []; []].
Proof. vm_compute. reflexivity. Qed.

(* a jointly valid history (hypotheses of the history theorems are satisfiable, with a non-trivial state) *)
Example C10_ex_joint : exists s1 s2, joint KEPoll [Open 1 0; AddW 2 1] s1 s2 /\ In 1 (wr s1) /\ In 1 (wr s2) /\ tg s2 1 = Some 2.
Proof.
  eexists. eexists. split.
  - change [Open 1 0; AddW 2 1] with (([] ++ [Open 1 0]) ++ [AddW 2 1]).
    eapply joint_snoc; [eapply joint_snoc; [apply joint_nil | | reflexivity | reflexivity] | | reflexivity | reflexivity].
    + repeat split.
    + split; [simpl; intros [] | split; [simpl; intros [] |]].
      intros [[H|H] _]; simpl in H; destruct H.
  - simpl. auto.
Qed.
