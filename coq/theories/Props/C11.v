(* C11 — stream writes arrive in order, each byte once, and close waits for the buffer.
   Each theorem is a short consequence of the general lemmas of Proofs/StreamWriteP.v (the invariant [sound]
   of a run, the refinement [server_follows]).  [fixed k] is the write path of endpoint k in {Server, Client, File}
   with fixes/C11_client_requeue_transient, C11_file_requeue_transient, C11_client_fatal_close and
   C11_file_late_write applied; [legacy k] the code before them and before C12's repairs.  Every theorem
   quantifies over all payload sequences (any bytes, any lengths, empty included), all scripts of send()
   outcomes and every position of the close request: all three are part of [ops : list op]. *)
From Coq Require Import List NArith Bool.
From Circ Require Import Model.StreamWrite Model.StreamWriteObs Proofs.StreamWriteP.
Import ListNotations.

(* in order, each byte once: at every moment  accepted-by-the-OS ++ still-buffered = everything written;
   after the endpoint closed the accepted bytes are a prefix of what was written *)
Theorem C11_prefix : forall (k : kind) (ops : list op),
  exists rest, accepted (snd (run (fixed k) init ops)) ++ rest = written ops /\
               forall s, fst (run (fixed k) init ops) = Open s -> rest = concat (buf s).
Proof.
  intros k ops. pose proof (run_init k ops) as S. unfold sound in S.
  destruct (fst (run (fixed k) init ops)) as [s|c].
  - destruct S as (_ & A & _). exists (concat (buf s)). split; [exact A|].
    intros s0 E. injection E as <-. reflexivity.
  - destruct S as (_ & [rest A] & _). exists rest. split; [exact A|discriminate].
Qed.
Print Assumptions C11_prefix.

(* writer interest is registered exactly while something is buffered (so the poller keeps calling until the
   buffer is drained and stops then); a close is pending only while something is buffered *)
Theorem C11_interest_iff_buffered : forall k ops s,
  fst (run (fixed k) init ops) = Open s ->
  (writing s = true <-> buf s <> []) /\ (closereq s = true -> buf s <> []).
Proof.
  intros k ops s E. pose proof (run_init k ops) as S. unfold sound in S. rewrite E in S.
  destruct S as ([Hw Hc] & _). rewrite Hw. split; [apply nonempty_true|].
  intros H. apply nonempty_true, Hc, H.
Qed.
Print Assumptions C11_interest_iff_buffered.

(* close waits for the buffer: whenever a step closes the endpoint without a fatal refusal, a close had been
   requested, the closing step is not a write, and every byte written so far has been accepted by the OS *)
Theorem C11_close_after_drain : forall k ops s evs1 o,
  run (fixed k) init ops = (Open s, evs1) ->
  fst (step (fixed k) (Open s) o) = Closed empty ->
  has_fatal (snd (step (fixed k) (Open s) o)) = false ->
  accepted (evs1 ++ snd (step (fixed k) (Open s) o)) = written (ops ++ [o]) /\
  (closereq s = true \/ o = Close) /\ o <> Write (pay o).
Proof.
  intros k ops s evs1 o R C F. pose proof (run_init k ops) as S. rewrite R in S. destruct S as (Hi & A & _).
  destruct (graceful_close k s o Hi C F) as (G & Q). split; [|exact Q]. cbn [snd] in A.
  rewrite accepted_app, G, app_assoc, A, written_app, written_cons, app_nil_r. reflexivity.
Qed.
Print Assumptions C11_close_after_drain.

(* nothing is written after the endpoint has closed.  The closed endpoint's transitions are those of the code
   (Server: write/close/_on_write return for a socket not in _clients; Client: write returns when the socket
   is closed, close finds an empty buffer and _close returns; File: write returns when the file is closed,
   close likewise): once closed NO state is kept (c = empty: no buffered payload, no pending close, no writer
   interest) and whatever operations follow - writes, closes, poller iterations with any outcome - leave the
   state and the event list exactly as they were: no send call, no state, no event *)
Theorem C11_nothing_after_close : forall k ops1 ops2 c,
  fst (run (fixed k) init ops1) = Closed c ->
  c = empty /\ run (fixed k) init (ops1 ++ ops2) = run (fixed k) init ops1.
Proof.
  intros k ops1 ops2 c C. pose proof (run_init k ops1) as S. unfold sound in S. rewrite C in S. destruct S as (-> & _).
  split; [reflexivity|]. rewrite run_app.
  destruct (run (fixed k) init ops1) as [st e]. cbn [fst] in C. subst st.
  rewrite run_closed, app_nil_r. reflexivity.
Qed.
Print Assumptions C11_nothing_after_close.

(* the only transition the model does not transcribe (a `_write` event for a closed endpoint that still has
   writer interest) is never reached *)
Theorem C11_always_modelled : forall k ops,
  existsb is_unmodelled (snd (run (fixed k) init ops)) = false.
Proof.
  intros k ops. pose proof (run_init k ops) as S. unfold sound in S.
  destruct (fst (run (fixed k) init ops)).
  - destruct S as (_ & _ & B). apply no_close_no_unmodelled, B.
  - destruct S as (_ & _ & [a [-> B]]). rewrite existsb_app, (proj2 (no_close_no_unmodelled a B)). reflexivity.
Qed.
Print Assumptions C11_always_modelled.

(* ... and inside the closing step the descriptor is closed after the last send: the only thing that ever
   follows the close of the descriptor is the disconnect event *)
Theorem C11_close_is_last : forall k ops x y,
  snd (run (fixed k) init ops) = x ++ SockClose :: y ->
  y = [EvDisc] /\ fst (run (fixed k) init ops) = Closed empty.
Proof.
  intros k ops x y E. pose proof (run_init k ops) as S. unfold sound in S.
  destruct (fst (run (fixed k) init ops)) as [s|c].
  - destruct S as (_ & _ & B). apply no_close_no_unmodelled in B. destruct B as [B _].
    rewrite E, sock_closed_app in B. cbn in B. rewrite orb_true_r in B. discriminate B.
  - destruct S as (-> & _ & [a [Ea B]]). split; [|reflexivity]. rewrite Ea in E.
    exact (closing_is_last a B x y E).
Qed.
Print Assumptions C11_close_is_last.

(* a fatal send error (any errno outside the transient set) closes the endpoint, is signalled by an error or
   disconnect event, hands nothing more to the OS, and the bytes accepted up to then are a prefix *)
Theorem C11_fatal_signalled : forall k ops s evs1 e,
  run (fixed k) init ops = (Open s, evs1) -> transient e = false -> buf s <> [] ->
  fst (step (fixed k) (Open s) (Tick (Refuse e))) = Closed empty /\
  signalled (snd (step (fixed k) (Open s) (Tick (Refuse e)))) = true /\
  accepted (snd (step (fixed k) (Open s) (Tick (Refuse e)))) = [] /\
  exists rest, accepted evs1 ++ rest = written ops.
Proof.
  intros k ops s evs1 e R T B. pose proof (run_init k ops) as S. rewrite R in S. destruct S as ([Hw _] & A & _).
  destruct (buf s) as [|d rest] eqn:E; [contradiction|].
  cbn [step]. rewrite (tick_refuse k e s d rest Hw E), T.
  split; [reflexivity|]. split; [destruct (quiet (fixed k) e); reflexivity|].
  split; [destruct (quiet (fixed k) e); reflexivity|]. exists (concat (d :: rest)). exact A.
Qed.
Print Assumptions C11_fatal_signalled.

(* a transient refusal (EINTR, EAGAIN/EWOULDBLOCK, ENOBUFS) at any point changes nothing at all *)
Theorem C11_transient_harmless : forall k s e,
  transient e = true -> buf s <> [] ->
  fst (step (fixed k) (Open s) (Tick (Refuse e))) = Open s /\
  accepted (snd (step (fixed k) (Open s) (Tick (Refuse e)))) = [] /\
  sock_closed (snd (step (fixed k) (Open s) (Tick (Refuse e)))) = false /\
  signalled (snd (step (fixed k) (Open s) (Tick (Refuse e)))) = false.
Proof.
  intros k s e T B. cbn [step]. destruct (writing s) eqn:W.
  - destruct (buf s) as [|d rest] eqn:E; [contradiction|].
    rewrite (tick_refuse k e s d rest W E), T. repeat split; reflexivity.
  - rewrite tick_idle by exact W. repeat split; reflexivity.
Qed.
Print Assumptions C11_transient_harmless.

(* liveness: once the OS accepts what it is offered, one writability event per buffered payload hands over
   everything that was written, and then (and only then) a requested close takes effect *)
Theorem C11_drains : forall k ops s evs1 kk,
  run (fixed k) init ops = (Open s, evs1) ->
  Forall (fun d => (N.of_nat (length d) <= kk)%N) (buf s) ->
  let r := run (fixed k) init (ops ++ repeat (Tick (Accept kk)) (length (buf s))) in
  fst r = (if closereq s then Closed empty else Open drained) /\
  accepted (snd r) = written ops /\
  sock_closed (snd r) = closereq s.
Proof. exact drains. Qed.
Print Assumptions C11_drains.

(* every send that accepts at least one byte (or an empty payload) strictly reduces what is buffered *)
Theorem C11_progress : forall k s kk s',
  writing s = true -> buf s <> [] -> (1 <= kk)%N ->
  fst (step (fixed k) (Open s) (Tick (Accept kk))) = Open s' -> load (buf s') < load (buf s).
Proof. exact progress. Qed.
Print Assumptions C11_progress.

(* the per-operation trace compared with the implementation by the correspondence check is this run *)
Theorem C11_trace_is_run : forall p ops st,
  concat (map fst (trace p st ops)) = snd (run p st ops) /\
  last (map snd (trace p st ops)) st = fst (run p st ops).
Proof. exact trace_is_run. Qed.
Print Assumptions C11_trace_is_run.

(* The Server with its real tables (_clients, _buffers, _closeq, the poller's writer list), any number
   of connections, any interleaving of operations and outcomes (ops : list mop; On t o = operation o for
   socket t, CloseAll = close() without argument) *)

(* refinement: projected on any socket s, the tables behave exactly as the per-connection model run on the
   operations that concern s *)
Theorem C11_server_refines : forall ops m s, wf m ->
  view (fst (mrun m ops)) s = fst (run (fixed Server) (view m s) (proj s ops)) /\
  projev s (snd (mrun m ops)) = snd (run (fixed Server) (view m s) (proj s ops)).
Proof.
  intros ops m s W. rewrite <- (proj2 (server_follows ops m W) s). split; reflexivity.
Qed.
Print Assumptions C11_server_refines.

(* isolation: what is handed to the OS for socket s (and every event for s, and s's state) is the same in any
   two histories that agree on the operations and outcomes for s - operations and outcomes for t <> s never
   change it *)
Theorem C11_server_isolation : forall l ops1 ops2 s, NoDup l -> proj s ops1 = proj s ops2 ->
  projev s (snd (mrun (fresh l) ops1)) = projev s (snd (mrun (fresh l) ops2)) /\
  view (fst (mrun (fresh l) ops1)) s = view (fst (mrun (fresh l) ops2)) s.
Proof.
  intros l ops1 ops2 s ND E. destruct (C11_server_refines ops1 (fresh l) s (wf_fresh l ND)) as (A1 & A2).
  destruct (C11_server_refines ops2 (fresh l) s (wf_fresh l ND)) as (B1 & B2).
  rewrite A1, A2, B1, B2, E. split; reflexivity.
Qed.
Print Assumptions C11_server_isolation.

(* C11_prefix per connection, for any interleaving *)
Theorem C11_server_prefix : forall l ops s, NoDup l -> In s l ->
  exists rest, accepted (projev s (snd (mrun (fresh l) ops))) ++ rest = written (proj s ops) /\
               forall o, view (fst (mrun (fresh l) ops)) s = Open o -> rest = concat (buf o).
Proof.
  intros l ops s ND I. destruct (C11_server_refines ops (fresh l) s (wf_fresh l ND)) as (A1 & A2).
  rewrite A1, A2, (view_fresh l s I). apply C11_prefix.
Qed.
Print Assumptions C11_server_prefix.

(* after the disconnect of s the tables hold nothing for s, and nothing more is handed to the OS or signalled
   for s whatever follows (on any socket) *)
Theorem C11_server_nothing_after_close : forall l ops1 ops2 s c, NoDup l -> In s l ->
  view (fst (mrun (fresh l) ops1)) s = Closed c ->
  c = empty /\
  view (fst (mrun (fresh l) (ops1 ++ ops2))) s = Closed empty /\
  projev s (snd (mrun (fresh l) (ops1 ++ ops2))) = projev s (snd (mrun (fresh l) ops1)).
Proof.
  intros l ops1 ops2 s c ND I C. pose proof (wf_fresh l ND) as W.
  destruct (C11_server_refines ops1 (fresh l) s W) as (A1 & A2).
  destruct (C11_server_refines (ops1 ++ ops2) (fresh l) s W) as (B1 & B2).
  rewrite (view_fresh l s I) in *. rewrite A1 in C. rewrite proj_app in B1, B2.
  destruct (C11_nothing_after_close Server (proj s ops1) (proj s ops2) c C) as (-> & N).
  rewrite N in B1, B2. rewrite B1, B2, A2, C. repeat split; reflexivity.
Qed.
Print Assumptions C11_server_nothing_after_close.

(* the code before the patches violates C11_prefix: Client and File lose the payload that was refused with
   EAGAIN (and send the next one); Client keeps sending after ECONNRESET, leaving a gap *)
Theorem C11_legacy_client_refuted :
  ~ exists rest, accepted (snd (run (legacy Client) init lost_witness)) ++ rest = written lost_witness.
Proof. vm_compute. intros [rest H]. discriminate H. Qed.
Print Assumptions C11_legacy_client_refuted.

Theorem C11_legacy_file_refuted :
  ~ exists rest, accepted (snd (run (legacy File) init lost_witness)) ++ rest = written lost_witness.
Proof. vm_compute. intros [rest H]. discriminate H. Qed.
Print Assumptions C11_legacy_file_refuted.

Theorem C11_legacy_client_gap_refuted :
  ~ exists rest, accepted (snd (run (legacy Client) init reset_witness)) ++ rest = written reset_witness.
Proof. vm_compute. intros [rest H]. discriminate H. Qed.
Print Assumptions C11_legacy_client_gap_refuted.

(* before the repair a closed File kept a late payload, registered writer interest for the closed file and
   remembered a late close (C11_nothing_after_close fails for `legacy File`), and the next `_write` event
   reaches the untranscribed transition (ValueError from fileno() in the real code) *)
Theorem C11_legacy_file_late_refuted :
  fst (run (legacy File) init late_witness) =
    Closed {| buf := [[7%N]]; closereq := true; writing := true |} /\
  existsb is_unmodelled (snd (run (legacy File) init (late_witness ++ [Tick (Accept 9%N)]))) = true.
Proof. split; vm_compute; reflexivity. Qed.
Print Assumptions C11_legacy_file_late_refuted.

(* non-vacuity: a run with a transient refusal, a partial send, a deferred close and a late write *)
Example C11_ex_run :
  run (fixed Client) init ex_ops =
  (Closed empty, [SendErr [1; 2; 3]%N EAGAIN; Send [1; 2; 3]%N 2; Send [3]%N 1; SendErr [] EINTR; Send [] 0;
            Send [4; 5]%N 2; SockClose; EvDisc]).
Proof. vm_compute. reflexivity. Qed.
Example C11_ex_accepted :
  accepted (snd (run (fixed Client) init ex_ops)) = [1; 2; 3; 4; 5]%N /\ written ex_ops = [1; 2; 3; 4; 5; 6]%N.
Proof. vm_compute. split; reflexivity. Qed.
(* hypotheses of C11_close_after_drain / C11_fatal_signalled / C11_drains are satisfiable *)
Example C11_ex_open :
  exists s evs, run (fixed Server) init (firstn 6 ex_ops) = (Open s, evs) /\ closereq s = true /\
                buf s = [[3]; []; [4; 5]]%N /\
                fst (step (fixed Server) (Open s) (Tick (Refuse EPIPE))) = Closed empty /\
                Forall (fun d => (N.of_nat (length d) <= 9)%N) (buf s).
Proof.
  eexists. eexists. split; [vm_compute; reflexivity|]. cbn [closereq buf].
  repeat split; try reflexivity. repeat constructor; vm_compute; discriminate.
Qed.
Example C11_ex_fatal_kinds :
  snd (step (fixed Client) (Open {| buf := [[7%N]]; closereq := false; writing := true |}) (Tick (Refuse EPIPE)))
    = [SendErr [7%N] EPIPE; SockClose; EvDisc] /\
  snd (step (fixed Client) (Open {| buf := [[7%N]]; closereq := false; writing := true |}) (Tick (Refuse 104%N)))
    = [SendErr [7%N] 104%N; EvError; SockClose; EvDisc] /\
  snd (step (fixed File) (Open {| buf := [[7%N]]; closereq := false; writing := true |}) (Tick (Refuse EPIPE)))
    = [SendErr [7%N] EPIPE; EvError; SockClose; EvDisc].
Proof. vm_compute. repeat split; reflexivity. Qed.
(* two connections interleaved: socket 1's refusals and close leave socket 0's stream alone; close() closes
   the drained socket 0 at once and defers socket 2, which still has data *)
Example C11_ex_server :
  let ops := [On 0 (Write [1; 2]%N); On 1 (Write [9]%N); On 2 (Write [5]%N); On 1 (Tick (Refuse EPIPE));
              On 0 (Tick (Accept 1)); On 1 (Write [8]%N); On 0 (Tick (Accept 7)); CloseAll;
              On 2 (Tick (Accept 7)); On 0 (Write [3]%N)]%nat in
  snd (mrun (fresh [0; 1; 2]%nat) ops) =
    [(1, SendErr [9]%N EPIPE); (1, EvError); (1, SockClose); (1, EvDisc);
     (0, Send [1; 2]%N 1); (0, Send [2]%N 1); (0, SockClose); (0, EvDisc);
     (2, Send [5]%N 1); (2, SockClose); (2, EvDisc)]%nat /\
  fst (mrun (fresh [0; 1; 2]%nat) ops) = {| clients := []; buffers := []; closeq := []; writers := [] |} /\
  wf (fresh [0; 1; 2]%nat).
Proof.
  cbn zeta. split; [vm_compute; reflexivity|]. split; [vm_compute; reflexivity|].
  apply wf_fresh. repeat constructor; cbn; intuition discriminate.
Qed.
