(* C12 — every connection: one connect, ordered reads, one disconnect, then no trace.
   The model is Model/ServerConn.v (the Server/Client code after fixes/C12_*.patch); each statement here is derived
   in a few lines from the general theorems of Proofs/ServerConnP.v.

   A history [h : list stim] is ANY sequence of handler invocations the Server component receives, each with
   the answer of the kernel to the call the handler makes: accepts, readable/writable/hang-up reports of the
   poller (also stale or spurious ones), recv() results (data, EOF, EWOULDBLOCK, error), send() results
   (partial, transient, fatal), write(sock, data) and close(sock) requests — also for sockets that were
   disconnected long ago.  [hm] says whether the poller keeps a fileno map (Poll/EPoll: true, Select: false).
   The only hypothesis: accept() never returns the same socket object twice, [NoDup (accepted h)]. *)
From Coq Require Import List NArith Arith Bool.
From Circ Require Import Model.ServerConn Proofs.ServerConnP.
Import ListNotations.

(* Per socket the observers' view is a run of the automaton  connect . read* . error? . disconnect :
   nothing before the accept, `PLive` exactly while the socket is in _clients, `PDead` (one disconnect seen,
   nothing after it, or the automaton would be in PBad) for ever after — for every socket whose peer had not
   already reset before accept() (complement: C12_automaton_refuted, known finding C12-reset-before-accept). *)
Theorem C12_automaton_partial : forall hm h s, NoDup (accepted h) -> ~ In s (gone h) ->
  phase_of s (snd (run hm h)) =
  if mem s (accepted h) then if mem s (clients (fst (run hm h))) then PLive else PDead else PNone.
Proof. exact automaton. Qed.
Print Assumptions C12_automaton_partial.

(* the same in list terms: whatever an observer sees for s starts with connect(s), and nothing follows disconnect(s) *)
Theorem C12_connect_first : forall hm h s e rest, NoDup (accepted h) -> ~ In s (gone h) ->
  proj s (snd (run hm h)) = e :: rest -> e = EConnect s.
Proof.
  intros hm h s e rest ND NG E. pose proof (phase_not_bad hm h s ND NG) as NB. unfold phase_of in NB. rewrite E in NB.
  destruct (astep_first e rest NB) as [t ->]. f_equal. apply (proj_sock s (snd (run hm h)) (EConnect t)).
  rewrite E. left. reflexivity.
Qed.
Print Assumptions C12_connect_first.

Theorem C12_nothing_after_disconnect : forall hm h s pre post, NoDup (accepted h) -> ~ In s (gone h) ->
  proj s (snd (run hm h)) = pre ++ EDisconnect s :: post -> post = [].
Proof.
  intros hm h s pre post ND NG E. apply (astep_last pre s). rewrite <- E. apply (phase_not_bad hm h s ND NG).
Qed.
Print Assumptions C12_nothing_after_disconnect.

(* full statement (without "~ In s (gone h)") is false for the code as it is: a connection reset before
   accept() is reported as error + disconnect without a connect *)
Theorem C12_automaton_refuted :
  exists h, NoDup (accepted h) /\ phase_of 0 (snd (run true h)) = PBad.
Proof. exists [SAcceptGone 0]. split. repeat constructor; simpl; tauto. vm_compute. reflexivity. Qed.
Print Assumptions C12_automaton_refuted.

(* read events = what recv() returned, chunk by chunk, same order, nothing lost, nothing twice, nothing else *)
Theorem C12_reads_exact : forall hm h s, NoDup (accepted h) ->
  reads s (snd (run hm h)) = recvd s (snd (run hm h)).
Proof. exact reads_exact. Qed.
Print Assumptions C12_reads_exact.

(* exactly one disconnect per accepted socket, fired when it leaves _clients; none otherwise — all sockets *)
Theorem C12_disconnect_once : forall hm h s, NoDup (accepted h) ->
  count (is_disc s) (snd (run hm h)) =
  if mem s (accepted h) && negb (mem s (clients (fst (run hm h)))) then 1 else 0.
Proof. intros hm h s ND. apply (I_disc _ _ _ _ (Inv_run hm h ND)). Qed.
Print Assumptions C12_disconnect_once.

Theorem C12_connect_once : forall hm h s, NoDup (accepted h) ->
  count (is_conn s) (snd (run hm h)) = if mem s (accepted h) && negb (mem s (gone h)) then 1 else 0.
Proof. intros hm h s ND. apply (I_conn _ _ _ _ (Inv_run hm h ND)). Qed.
Print Assumptions C12_connect_once.

(* no trace: once disconnect(s) has been fired, s is in none of _clients, _buffers, _closeq, poller _read,
   _write, _targets, _map — after ANY continuation of the history (late writes, late closes, stale poller
   events for s included, since h is arbitrary) *)
Theorem C12_no_trace : forall hm h s, NoDup (accepted h) ->
  In (OEv (EDisconnect s)) (snd (run hm h)) -> no_state s (fst (run hm h)).
Proof.
  intros hm h s ND Hd. pose proof (Inv_run hm h ND) as I. apply (wf_nostate s _ (I_wf _ _ _ _ I)). intros C.
  pose proof (count_pos (is_disc s) _ _ Hd) as P. simpl in P.
  rewrite Nat.eqb_refl, (I_disc _ _ _ _ I), (mem_true _ _ C), andb_false_r in P. specialize (P eq_refl). inversion P.
Qed.
Print Assumptions C12_no_trace.

(* stronger form: at every moment every key of every table is a live client *)
Theorem C12_tables_live : forall hm h s, NoDup (accepted h) ->
  let x := fst (run hm h) in
  In s (map fst x.(bufs)) \/ In s x.(closeq) \/ In s x.(rd) \/ In s x.(wr) \/ In s x.(tg) \/ In s x.(mp) ->
  In s x.(clients) /\ In s (accepted h).
Proof.
  intros hm h s ND x Q. pose proof (Inv_run hm h ND) as I. apply (wf_sub _ (I_wf _ _ _ _ I)) in Q.
  split. exact Q. apply (I_sub _ _ _ _ I), Q.
Qed.
Print Assumptions C12_tables_live.

(* liveness relative to the stimuli: the very step that processes a terminal stimulus for a live socket s —
   recv() error, EOF or close(s) with nothing buffered, a send() that fails fatally, the poller's hang-up, or
   the flush of the last buffered payload when a close was deferred (Model.terminal) — fires disconnect(s)
   and leaves s in no table.  With C12_disconnect_once: exactly one disconnect, and it comes at that step. *)
Theorem C12_disconnect_follows : forall hm h s i, NoDup (accepted h) ->
  In s (clients (fst (run hm h))) -> terminal s (fst (run hm h)) i = true ->
  In (OEv (EDisconnect s)) (snd (step hm (fst (run hm h)) i)) /\ no_state s (fst (step hm (fst (run hm h)) i)).
Proof. intros hm h s i ND. apply disconnect_follows_wf, (Inv_run hm h ND). Qed.
Print Assumptions C12_disconnect_follows.

(* EOF or close(s) while output is buffered: s is queued in _closeq with its buffer intact (then the flush of the
   last payload, or any error, is terminal) *)
Theorem C12_deferred_close : forall hm h s i, NoDup (accepted h) ->
  In s (clients (fst (run hm h))) -> deferring s (fst (run hm h)) i = true ->
  In s (closeq (fst (step hm (fst (run hm h)) i))) /\ In s (clients (fst (step hm (fst (run hm h)) i))) /\
  bget s (bufs (fst (step hm (fst (run hm h)) i))) = bget s (bufs (fst (run hm h))).
Proof. intros hm h s i ND. apply deferred_close_wf, (Inv_run hm h ND). Qed.
Print Assumptions C12_deferred_close.

(* many connections at once: whatever happens on other sockets (any number of them, any stimuli, from any
   state x) leaves the table rows of s, the events observers see for s and the kernel calls made on s unchanged *)
Theorem C12_isolation : forall hm s h x acc, Forall (fun i => touches s i = false) h ->
  row_of s (fst (run_from hm x acc h)) = row_of s x /\
  proj s (snd (run_from hm x acc h)) = proj s acc /\
  calls s (snd (run_from hm x acc h)) = calls s acc.
Proof. exact isolation. Qed.
Print Assumptions C12_isolation.

(* close() of the whole server, in any reachable state: the listening socket is down afterwards (its disconnect is
   reported iff it was still open), every client with nothing buffered gets its disconnect in this step and leaves
   no trace, every other client is queued for a deferred close, no client appears, closed() is fired *)
Theorem C12_close_all : forall hm h, NoDup (accepted h) ->
  let x := fst (run hm h) in
  let r := step hm x SCloseAll in
  lis (fst r) = false /\
  (forall s, In s (clients x) -> bget s (bufs x) = [] ->
             In (OEv (EDisconnect s)) (snd r) /\ no_state s (fst r)) /\
  (forall s, In s (clients x) -> bget s (bufs x) <> [] -> In s (clients (fst r)) /\ In s (closeq (fst r))) /\
  (forall s, In s (clients (fst r)) -> In s (clients x)) /\
  In (OSrv VClosed) (snd r) /\ (In (OSrv VListenDown) (snd r) <-> lis x = true).
Proof. intros hm h ND. apply close_all_wf, (Inv_run hm h ND). Qed.
Print Assumptions C12_close_all.

(* "whichever poller": what Poll / EPoll make of one kernel report (Model.pemit, tied to the real pollers by
   scripted poll results) never puts the hang-up before readable input: with IN set no _disconnect is emitted for
   the report, and the server's first reaction is the recv() and the read event carrying its data *)
Theorem C12_hangup_after_reads : forall hm h s eout ehup d w, NoDup (accepted h) ->
  In s (clients (fst (run hm h))) -> d <> [] ->
  forallb (fun i => negb (is_hangup_stim i)) (pemit s true eout ehup (RData d) w) = true /\
  exists post, snd (run_from hm (fst (run hm h)) [] (pemit s true eout ehup (RData d) w))
               = OCall (CRecv s (RData d)) :: OEv (ERead s d) :: post.
Proof. intros hm h s eout ehup d w _ I D. split. apply pemit_no_hangup. apply read_first; auto. Qed.
Print Assumptions C12_hangup_after_reads.

(* clients: #connected = #disconnected (+1 while connected), for every history of connect results, recv/send
   outcomes, poller hang-ups, writes and closes (also after the disconnect) in which connect is not requested
   while connected *)
Theorem C12_client_balance_partial : forall h, connect_when_down cinit h = true ->
  count is_kconn (snd (crun h)) = count is_kdisc (snd (crun h)) + b2n (conn (fst (crun h))).
Proof. intros h P. apply crun_from_balance; auto. Qed.
Print Assumptions C12_client_balance_partial.

Theorem C12_client_balance_refuted :
  exists h, count is_kconn (snd (crun h)) = 2 /\ count is_kdisc (snd (crun h)) = 0.
Proof. exists [KConnect true false; KConnect true false]. vm_compute. auto. Qed.
Print Assumptions C12_client_balance_refuted.

(* after `disconnected` (code after fixes/C12_client_late_write.patch), for EVERY history: while the socket object is
   closed the client is not connected, buffers nothing and has no deferred close ... *)
Theorem C12_client_closed_clean : forall h, sopen (fst (crun h)) = false -> cdown (fst (crun h)).
Proof. intros h. apply (crun_from_cinv h cinit []). intros S. discriminate S. Qed.
Print Assumptions C12_client_closed_clean.

(* ... the step that reports `disconnected` is the one that closes the socket and clears everything ... *)
Theorem C12_client_disconnected_closes : forall x i, In KDisconnected (snd (cstep x i)) ->
  sopen (fst (cstep x i)) = false /\ cdown (fst (cstep x i)).
Proof.
  intros x i. destruct i as [[|] fr| | | | | |]; try (eapply CEff_disc, cstep_eff; exact I); simpl; intuition discriminate.
Qed.
Print Assumptions C12_client_disconnected_closes.

(* ... and every late request (write, close, stale poller event) changes nothing, sends nothing, announces nothing *)
Theorem C12_client_late_requests_inert : forall h i, sopen (fst (crun h)) = false ->
  match i with KConnect _ _ => False | _ => True end ->
  fst (cstep (fst (crun h)) i) = fst (crun h) /\
  (forall e, In e (snd (cstep (fst (crun h)) i)) -> is_ksend e = false /\ is_kconn e = false /\ is_kdisc e = false).
Proof. intros h i S NC. apply cstep_down_inert; auto. apply C12_client_closed_clean, S. Qed.
Print Assumptions C12_client_late_requests_inert.

(* non-vacuity: a history satisfying the hypotheses that goes through accept, reads, a partial send, a
   deferred close, a reset while writing, and late write / close / poller events to the dead socket *)
Definition ex_h : list stim :=
  [SAccept 0; SAccept 1; SRead 0 (RData [104; 105]%N); SWrite 0 20000%N; SWritable 0 (WAcc 9088%N);
   SClose 0; SRead 1 (RData [1]%N); SRead 0 RErr; SWritable 0 WTrans; SWrite 0 5%N; SClose 0; SDisc 0;
   SRead 0 (RData [9]%N); SAcceptGone 2; SWrite 2 1%N; SAccept 3; SWrite 3 7%N; SCloseAll; SCloseAll].
Example C12_ex_hyps : NoDup (accepted ex_h) /\ ~ In 0 (gone ex_h).
Proof. split. repeat constructor; simpl; intuition discriminate. simpl. intuition discriminate. Qed.
Example C12_ex_view :
  proj 0 (snd (run true ex_h)) = [EConnect 0; ERead 0 [104; 105]%N; EError 0; EDisconnect 0]
  /\ phase_of 0 (snd (run true ex_h)) = PDead
  /\ phase_of 1 (snd (run true ex_h)) = PDead
  /\ fst (run true ex_h) = mk [3] [(3, [7%N])] [3] [3] [3] [3] [3] false
  /\ count (fun o => match o with OSrv VListenDown => true | _ => false end) (snd (run true ex_h)) = 1
  /\ count (fun o => match o with OSrv VClosed => true | _ => false end) (snd (run true ex_h)) = 2.
Proof. vm_compute. repeat split; auto. Qed.
Definition ex_c : list cstim :=
  [KConnect true false; KWrite 10%N; KClose; KWritable (WAcc 4%N) false; KRead RErr;
   KWrite 5%N; KClose; KWritable WTrans false; KRead RErr;          (* late requests: inert *)
   KConnect false false; KConnect true true; KRead REof; KWrite 3%N].
(* hypotheses of C12_disconnect_follows / C12_deferred_close / C12_isolation are satisfiable *)
Example C12_ex_terminal :
  let x := fst (run true [SAccept 0; SAccept 1; SWrite 1 9%N]) in
  terminal 0 x (SRead 0 REof) = true /\ terminal 1 x (SWritable 1 WFatal) = true
  /\ deferring 1 x (SClose 1) = true
  /\ terminal 1 (fst (step true x (SClose 1))) (SWritable 1 (WAcc 9%N)) = true
  /\ Forall (fun i => touches 0 i = false) [SRead 1 REof; SWrite 1 3%N; SAccept 2; SClose 2; SSnap].
Proof. vm_compute. repeat split; auto. repeat constructor. Qed.
Example C12_ex_pemit :
  pemit 0 true true true (RData [1%N]) WTrans = [SRead 0 (RData [1%N]); SWritable 0 WTrans]
  /\ pemit 0 false true true RWould WTrans = [SDrop 0; SDisc 0].
Proof. vm_compute. auto. Qed.
Example C12_ex_client :
  connect_when_down cinit ex_c = true
  /\ snd (crun ex_c) = [KConnected; KSend 10%N; KErr; KDisconnected; KErr; KConnected; KDisconnected]
  /\ fst (crun ex_c) = cmk false [] false false.
Proof. vm_compute. repeat split; auto. Qed.
