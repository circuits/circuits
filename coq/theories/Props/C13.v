(* C13 — HTTP messages are parsed identically however the stream is segmented.
   The statements; each is an instance or a short corollary of theorems of Proofs/HttpFramingP.v, where the
   proofs live (the examples at the end are checked here).  The model (Model/HttpFraming.v) is the
   model of circuits/web/parsers/http.py + the gating in web/http.py and protocols/http.py (used by
   web/client.py) with fixes/C13_*.patch applied.
   kind_resp = false: server side (requests); true: client side (responses).
   parse_fl / parse_hd are arbitrary functions (oracles for first-line and header-block content parsing),
   so every theorem holds whatever those parsers accept.  Reads are non-empty ([nonempty]). *)
From Coq Require Import List ZArith Bool.
From Circ Require Import Model.HttpFraming Proofs.HttpFramingP.
Import ListNotations.
Open Scope N_scope.

(* the split law of HttpParser.execute, for EVERY parser state s and all byte strings: while the message is
   still incomplete after the read [a] (and the parser has not failed), reading [a] then [b] equals reading
   [a ++ b] *)
Theorem C13_split_law : forall kind_resp parse_fl parse_hd s a b,
  a <> [] -> b <> [] ->
  splittable (feed kind_resp parse_fl parse_hd s a) ->
  feed kind_resp parse_fl parse_hd (feed kind_resp parse_fl parse_hd s a) b
  = feed kind_resp parse_fl parse_hd s (a ++ b).
Proof. intros. now apply feed_split. Qed.
Print Assumptions C13_split_law.

(* every segmentation into non-empty reads in which no proper prefix of the reads already completes the
   message gives the state that one-piece delivery gives (any number of cuts, byte-at-a-time included) *)
Theorem C13_segmentation : forall kind_resp parse_fl parse_hd cs s,
  cs <> [] -> Forall nonempty cs ->
  (forall p q, cs = p ++ q -> p <> [] -> q <> [] ->
     splittable (feed kind_resp parse_fl parse_hd s (concat p))) ->
  run kind_resp parse_fl parse_hd s cs = feed kind_resp parse_fl parse_hd s (concat cs).
Proof. exact run_segmentation. Qed.
Print Assumptions C13_segmentation.

(* well-formed messages: first line L; header section HS = either a block blk of header lines followed by
   CRLF CRLF, or just CRLF (no header field at all, hl = true); body B sent with Content-Length, chunked
   (any chunk-size lines with extensions, optional trailers), absent for a request, absent for a 204 response
   without fields.  EVERY segmentation of the bytes of the message ends in the same completed state, carrying
   L, blk and the decoded body. *)
Theorem C13_message : forall kind_resp parse_fl parse_hd L HS blk i204 clen chunked hl,
  wf_head parse_fl parse_hd L HS blk i204 clen chunked hl ->
  forall B body, wf_body kind_resp i204 hl clen chunked B body ->
  forall cs, Forall nonempty cs -> concat cs = msg_bytes L HS B ->
  run kind_resp parse_fl parse_hd (PFirst []) cs = PDone L blk body.
Proof. intros. eapply proj1, message_segmentation; eassumption. Qed.
Print Assumptions C13_message.

(* obsolete line folding: the framing condition on a header block (wf_hsec's "only the final CRLFCRLF, not
   starting with CRLF") holds for ANY non-empty list of non-empty lines without CR / LF inside joined by CRLF;
   a continuation line is such a line (it starts with SP / HT).  So C13_message covers every cut inside a
   folded header, including between the CRLF and the SP. *)
Theorem C13_folded_headers : forall ls, ls <> [] -> Forall clean_line ls ->
  split_on CRLF2 (join_lines ls ++ CRLF2) = Some (join_lines ls, []) /\
  is_prefix CRLF (join_lines ls ++ CRLF2) = false.
Proof. exact header_block_wf. Qed.
Print Assumptions C13_folded_headers.

(* server (HTTP._on_read): keep-alive sequence of well-formed requests, each cut in any way (no read spans
   two requests): exactly one request event per request, with that request's first line, headers and body;
   the per-connection parser is released after each *)
Theorem C13_server_keepalive : forall parse_fl parse_hd ms css,
  Forall (wf_message false parse_fl parse_hd) ms ->
  Forall2 (fun m cs => Forall nonempty cs /\ concat cs = message_bytes m) ms css ->
  conn_run false parse_fl parse_hd srv_emit (PFirst []) (concat css) = (PFirst [], map message_event ms).
Proof. intros. apply keepalive_segmentation; auto using srv_emit_wait. Qed.
Print Assumptions C13_server_keepalive.

(* client (protocols.http.HTTP._on_client_read, used by web.client.Client): same for responses that are
   complete by themselves (Content-Length, chunked, 204 without fields) *)
Theorem C13_client_keepalive : forall parse_fl parse_hd ms css,
  Forall (wf_message true parse_fl parse_hd) ms ->
  Forall2 (fun m cs => Forall nonempty cs /\ concat cs = message_bytes m) ms css ->
  conn_run true parse_fl parse_hd cli_emit (PFirst []) (concat css) = (PFirst [], map message_event ms).
Proof. intros. apply keepalive_segmentation; auto using cli_emit_wait. Qed.
Print Assumptions C13_client_keepalive.

(* client, response delimited by the end of the connection (no Content-Length, not chunked; any status; header
   fields or none; excluded only: 204 without fields, which is complete by itself), after any keep-alive sequence
   of complete responses: in EVERY segmentation one event per complete response, no event for the last one, and
   the same parser state holding the body bytes received so far.  (The client components never tell the parser
   that the connection ended, so such a response is never delivered — in any segmentation.) *)
Theorem C13_client_until_close : forall parse_fl parse_hd ms css L HS blk i204 hl B cs,
  Forall (wf_message true parse_fl parse_hd) ms ->
  Forall2 (fun m cs => Forall nonempty cs /\ concat cs = message_bytes m) ms css ->
  wf_head parse_fl parse_hd L HS blk i204 None false hl -> hl && i204 = false ->
  (Z.of_nat (length B) < maxsize)%Z ->
  Forall nonempty cs -> concat cs = msg_bytes L HS B ->
  conn_run true parse_fl parse_hd cli_emit (PFirst []) (concat css ++ cs)
  = (PBody L blk None (Some (maxsize - Z.of_nat (length B))%Z) B, map message_event ms).
Proof.
  intros * Hms H2 WH Hh LB Hall E.
  rewrite conn_run_app,
    (keepalive_segmentation true parse_fl parse_hd cli_emit cli_emit_wait (fun _ _ _ => eq_refl) ms css Hms H2).
  destruct (until_close_segmentation true parse_fl parse_hd _ _ _ _ _ _ _ WH B eq_refl eq_refl eq_refl Hh LB cs Hall E)
    as [Hrun Hpre].
  (* the reads of the last response fire nothing: it never leaves the splittable states *)
  rewrite (conn_run_quiet true parse_fl parse_hd cli_emit splittable cli_emit_splittable cs (PFirst [])).
  - now rewrite Hrun, app_nil_r.
  - intros p [|q0 q] Ep Hp; [|now apply (Hpre p (q0 :: q))]. rewrite app_nil_r in Ep. now rewrite <- Ep, Hrun.
Qed.
Print Assumptions C13_client_until_close.

(* 204 / 304 (any status) without Content-Length and without body: the case B = [] *)
Theorem C13_client_nobody : forall parse_fl parse_hd ms css L HS blk i204 hl cs,
  Forall (wf_message true parse_fl parse_hd) ms ->
  Forall2 (fun m cs => Forall nonempty cs /\ concat cs = message_bytes m) ms css ->
  wf_head parse_fl parse_hd L HS blk i204 None false hl -> hl && i204 = false ->
  Forall nonempty cs -> concat cs = msg_bytes L HS [] ->
  conn_run true parse_fl parse_hd cli_emit (PFirst []) (concat css ++ cs)
  = (PBody L blk None (Some maxsize) [], map message_event ms).
Proof. intros. now apply (C13_client_until_close parse_fl parse_hd ms css L HS blk i204 hl []). Qed.
Print Assumptions C13_client_nobody.

(* non-vacuity (data in Proofs/HttpFramingP.v): a chunked request
   "POST / HTTP/1.1 | Host: x | X-F: a | SP b (continuation) | TE: c || 3;x CRLF a CR LF CRLF 01 CRLF b CRLF 0 CRLF T:v CRLF CRLF" *)
Example C13_ex_wf_head : wf_head ex_fl ex_hd ex_L (ex_H ++ CRLF2) ex_H false None true false.
Proof.
  destruct (C13_folded_headers ex_lines) as [A B]; [discriminate|repeat constructor; discriminate|].
  constructor; [vm_compute; reflexivity|vm_compute; reflexivity|].
  apply hs_fields; [reflexivity|exact A|exact B|vm_compute; reflexivity|reflexivity].
Qed.
Example C13_ex_wf_body : wf_body false false false None true ex_B [97;13;10;98].
Proof.
  exists ex_cks, [48], [84;58;118;13;10;13;10]. repeat split; try (vm_compute; reflexivity).
  - repeat constructor; try (vm_compute; reflexivity); discriminate.
  - right. split; [reflexivity|]. exists [84;58;118]. split; vm_compute; reflexivity.
Qed.
(* byte-at-a-time delivery of that request, computed *)
Example C13_ex_bytewise :
  run false ex_fl ex_hd (PFirst []) (map (fun b => [b]) (msg_bytes ex_L (ex_H ++ CRLF2) ex_B)) = PDone ex_L ex_H [97;13;10;98].
Proof. vm_compute. reflexivity. Qed.
(* a message without header fields satisfies wf_head (request: kind = false; 204 response: kind = true) *)
Example C13_ex_wf_head_empty : forall kind, wf_head (fun _ => Some kind) (fun _ => None) [71] CRLF [] kind None false true.
Proof. constructor; [reflexivity|reflexivity|]. apply hs_empty; reflexivity. Qed.
(* a response without header fields and with a body, cut after the empty line vs delivered whole (the case of
   fixes/C13_headerless_response.patch): same state *)
Example C13_ex_headerless_response :
  run true (fun _ => Some false) (fun _ => None) (PFirst []) [[72;13;10;13;10]; [104;105]]
  = run true (fun _ => Some false) (fun _ => None) (PFirst []) [[72;13;10;13;10;104;105]].
Proof. vm_compute. reflexivity. Qed.
(* a Content-Length response cut between CR and LF of the status line and inside the body *)
Example C13_ex_cl :
  run true (fun _ => Some false) (fun _ => Some (Some 3%Z, false)) (PFirst [])
      [[72;13]; [10;65;58;49;13;10;13;10;120]; [121;122]] = PDone [72] [65;58;49] [120;121;122].
Proof. vm_compute. reflexivity. Qed.
