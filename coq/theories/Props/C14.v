(* C14 — any bytes on an HTTP connection: wait, exactly one valid (error) response, or close;
   never a crash; nothing retained after disconnect.
   The statements, each with at most a few lines from the lemmas of Proofs/HttpRobustP.v; the model is
   Model/HttpRobust.v.
   "Any bytes" enters the model as "any answer of every partial operation on the read path":
   each theorem is quantified over all [answers] records (every oracle may say [Raise]), all
   connection states [c] and, where histories matter, all operation lists. *)
From Coq Require Import List ZArith.
From Circ Require Import Lib.FunUpd Model.HttpRobust Proofs.HttpRobustP.
Import ListNotations.
Open Scope N_scope.

(* One read event, processed until the component's own events have settled, produces exactly one of:
   nothing (waits) | close | reject+one response that says close+close (status 301/400/500/505)
   | dispatch+one response (+close iff it says close).  Status-line versions are 1.0 or 1.1. *)
Theorem C14_outcome : forall secure c a, shape (effs_of (read_conn secure c a)).
Proof. exact read_shape. Qed.
Print Assumptions C14_outcome.

(* no internal inconsistency (del of an absent table key) and the self-fired events always settle *)
Theorem C14_never_crash : forall secure c a,
  ~ In ECrash (effs_of (read_conn secure c a)) /\ ~ In EOutOfFuel (effs_of (read_conn secure c a)).
Proof. intros. apply shape_never_crash, read_shape. Qed.
Print Assumptions C14_never_crash.

Theorem C14_one_response : forall secure c a, (n_writes (effs_of (read_conn secure c a)) <= 1)%nat.
Proof. intros. apply shape_one, read_shape. Qed.
Print Assumptions C14_one_response.

(* a rejected message is never dispatched, is answered with 301/400/500/505, and the connection is closed *)
Theorem C14_rejected_not_dispatched : forall secure c a code,
  In (EReject code) (effs_of (read_conn secure c a)) ->
  ~ In EDispatch (effs_of (read_conn secure c a))
  /\ In code [301; 400; 500; 505]
  /\ exists v hd, okver v /\ effs_of (read_conn secure c a) = [EReject code; EWrite code v true hd; EClose].
Proof. intros secure c a code. apply shape_reject, read_shape. Qed.
Print Assumptions C14_rejected_not_dispatched.

(* a response that says close is directly followed by the close, and nothing else *)
Theorem C14_close_when_said : forall secure c a st v hd,
  In (EWrite st v true hd) (effs_of (read_conn secure c a)) ->
  exists pre, effs_of (read_conn secure c a) = pre ++ [EWrite st v true hd; EClose].
Proof. intros secure c a st v hd. apply shape_close, read_shape. Qed.
Print Assumptions C14_close_when_said.

(* the status line never carries a version other than HTTP/1.0 or HTTP/1.1, whatever the request said *)
Theorem C14_version_spoken : forall secure c a st v cl hd,
  In (EWrite st v cl hd) (effs_of (read_conn secure c a)) -> v = (1, 0) \/ v = (1, 1).
Proof. intros secure c a st v cl hd. apply shape_version, read_shape. Qed.
Print Assumptions C14_version_spoken.

(* a parser error before the end of the headers: 400, close, and both tables empty for the socket -- also
   when the rejected message is a HEAD request, whose throw-away Request was never put into _clients *)
Theorem C14_parser_error_reported : forall secure c a f e v hd,
  buf c = true \/ a_ssl a = Ret false ->
  a_exec a = Ret f -> hc f = false -> perrno f = Some e -> a_errreq a = Ret (v, hd) ->
  effs_of (read_conn secure c a)
  = [EReject 400; EWrite 400 (resp_version (match e with BadFirstLine => (1, 1) | _ => v end)) true
                         (match e with BadFirstLine => false | _ => hd end); EClose]
  /\ conn_of (read_conn secure c a) = empty_conn.
Proof. exact parser_error_reported. Qed.
Print Assumptions C14_parser_error_reported.

(* whichever oracle raises on the read path: 500 + close, or (the exception handler's own Request
   constructor raising as well) silence *)
Theorem C14_raise_answered : forall secure c a,
  hres_of (on_read secure c a) = HRaise ->
  effs_of (read_conn secure c a)
  = match a_excreq a with Raise => [] | Ret _ => [EReject 500; EWrite 500 (1, 1) true false; EClose] end.
Proof.
  intros secure c a E. unfold effs_of. rewrite read_conn_settle, E. cbn.
  destruct (a_excreq a); reflexivity.
Qed.
Print Assumptions C14_raise_answered.

(* a request event implies that the message passed every test: headers complete, Content-Length parsed and
   not negative, body complete when one is announced, Host present unless HTTP/1.0, canonical path, and
   (for a request built by this read) major version 1 *)
Theorem C14_dispatch_sound : forall secure c a,
  In EDispatch (effs_of (read_conn secure c a)) ->
  exists ri, accepted (if buf c then c else set_buf c true) a ri.
Proof. intros secure c a F. exact (proj1 (dispatched_read secure c a F)). Qed.
Print Assumptions C14_dispatch_sound.

(* a response that does not close belongs to a dispatched request, and it leaves both tables without the socket: the next
   message on the open connection is parsed afresh (every answer the component makes itself closes) *)
Theorem C14_open_means_clean : forall secure c a st v hd,
  In (EWrite st v false hd) (effs_of (read_conn secure c a)) ->
  In EDispatch (effs_of (read_conn secure c a)) /\ conn_of (read_conn secure c a) = empty_conn.
Proof.
  intros secure c a st v hd W.
  assert (D : In EDispatch (effs_of (read_conn secure c a))) by (eapply shape_open; [apply read_shape | exact W]).
  split; [exact D | exact (proj2 (dispatched_read secure c a D))].
Qed.
Print Assumptions C14_open_means_clean.

(* histories over any number of connections *)
Theorem C14_released : forall secure h s t, fst (run secure t (h ++ [Disc s])) s = empty_conn.
Proof. exact released. Qed.
Print Assumptions C14_released.

Theorem C14_stays_released : forall secure h h' s t,
  (forall o, In o h' -> op_sock o <> s) ->
  fst (run secure t (h ++ [Disc s] ++ h')) s = empty_conn.
Proof.
  intros secure h h' s t H. rewrite app_assoc, run_app, isolation; [apply released | exact H].
Qed.
Print Assumptions C14_stays_released.

Theorem C14_isolation : forall secure h t s,
  (forall o, In o h -> op_sock o <> s) -> fst (run secure t h) s = t s.
Proof. exact isolation. Qed.
Print Assumptions C14_isolation.

(* in every reachable state request/response state exists only beside parser state and only for major version 1 *)
Theorem C14_reachable_inv : forall secure h s ri,
  cli (fst (run secure empty_tables h) s) = Some ri ->
  buf (fst (run secure empty_tables h) s) = true /\ fst (rver ri) = 1.
Proof. intros secure h. exact (run_inv secure h empty_tables (fun _ => inv_empty)). Qed.
Print Assumptions C14_reachable_inv.

(* the parser's decision about the head of a request, as a function of the bytes *)

(* every byte string without backslash, byte >= 128 and square bracket gets a definite verdict (classify is a total
   Gallina function: there is nothing that could crash; the point is that [Unmodelled] is confined to those bytes) *)
Theorem C14_classify_total : forall bs, (forall c, In c bs -> dirty c = false) ->
  classify bs = NeedMore \/ (exists e, classify bs = Bad e /\ e <> InvalidChunk) \/ classify bs = HeadersOk.
Proof.
  intros bs C. destruct (classify_cases bs C) as [E|[E|[E|E]]]; rewrite E; auto;
    right; left; eexists; (split; [reflexivity | discriminate]).
Qed.
Print Assumptions C14_classify_total.

(* composition: a head classified Bad, on a connection whose parser reports what classify says (that agreement is what the
   correspondence check compares on every run), is answered with exactly one 400 that says close, the close, no dispatch,
   and nothing is kept *)
Theorem C14_bad_is_rejected : forall secure c a bs e v hd,
  classify bs = Bad e -> exec_agrees a (classify bs) ->
  buf c = true \/ a_ssl a = Ret false -> a_errreq a = Ret (v, hd) ->
  effs_of (read_conn secure c a)
  = [EReject 400; EWrite 400 (resp_version (match e with BadFirstLine => (1, 1) | _ => v end)) true
                         (match e with BadFirstLine => false | _ => hd end); EClose]
  /\ ~ In EDispatch (effs_of (read_conn secure c a))
  /\ conn_of (read_conn secure c a) = empty_conn.
Proof.
  intros secure c a bs e v hd Hc Ha Hs Hr. rewrite Hc in Ha. destruct Ha as [m Hx].
  destruct (parser_error_reported secure c a _ e v hd Hs Hx eq_refl eq_refl Hr) as [E1 E2].
  split; [exact E1|]. split; [|exact E2]. rewrite E1. intros F. inl F.
Qed.
Print Assumptions C14_bad_is_rejected.

Theorem C14_needmore_waits : forall secure c a bs,
  classify bs = NeedMore -> exec_agrees a (classify bs) ->
  buf c = true \/ a_ssl a = Ret false ->
  effs_of (read_conn secure c a) = [] /\ buf (conn_of (read_conn secure c a)) = true.
Proof.
  intros secure c a bs Hc Ha Hs. rewrite Hc in Ha. destruct Ha as [m Hx].
  unfold effs_of, conn_of. rewrite read_conn_settle. destruct (on_read_opened secure c a Hs) as [tags ->].
  unfold after_exec. rewrite Hx. cbn. split; [reflexivity | apply opened_buf].
Qed.
Print Assumptions C14_needmore_waits.

(* bursts: reads and disconnects queued before the loop runs (two-phase reading of the FIFO interleaving) *)
Theorem C14_burst_outcome : forall secure h, Forall (fun x => shape (snd x)) (snd (burst secure h)).
Proof. exact burst_outcome. Qed.
Print Assumptions C14_burst_outcome.

Theorem C14_burst_never_crash : forall secure h s effs,
  In (s, effs) (snd (burst secure h)) -> ~ In ECrash effs /\ ~ In EOutOfFuel effs /\ (n_writes effs <= 1)%nat.
Proof.
  intros secure h s effs I. pose proof (burst_outcome secure h) as F. rewrite Forall_forall in F.
  specialize (F _ I). destruct (shape_never_crash _ F) as [A B]. repeat split; auto. now apply shape_one.
Qed.
Print Assumptions C14_burst_never_crash.

Theorem C14_burst_released : forall secure h1 h2 s,
  (forall o, In o h2 -> op_sock o <> s) ->
  fst (burst secure (h1 ++ Disc s :: h2)) s = empty_conn.
Proof.
  intros secure h1 h2 s H. unfold burst.
  pose proof (phase1_ok secure (h1 ++ Disc s :: h2) empty_tables) as F.
  pose proof (phase1_tables secure (h1 ++ Disc s :: h2) empty_tables) as A.
  destruct (phase1 secure empty_tables (h1 ++ Disc s :: h2)) as [[t1 ps] tg]. cbn [fst snd] in F, A.
  assert (E : t1 s = empty_conn).
  { rewrite A, fold_left_app. cbn [fold_left]. rewrite fold_other by (apply p1step_local || exact H).
    apply upd_same. }
  pose proof (phase2_keeps_empty ps t1 s F E) as K. destruct (phase2 t1 ps) as [[t2 es] tgs]. exact K.
Qed.
Print Assumptions C14_burst_released.

(* non-vacuity: concrete answers reaching each outcome *)
Definition A0 : answers :=
  {| a_ssl := Ret false; a_exec := Raise; a_errreq := Raise; a_req := Raise; a_clen := Raise;
     a_path := Raise; a_excreq := Ret tt; a_app := Ret (200, false) |}.
Definition with_exec (a : answers) (x : res pflags) : answers :=
  {| a_ssl := a_ssl a; a_exec := x; a_errreq := a_errreq a; a_req := a_req a; a_clen := a_clen a;
     a_path := a_path a; a_excreq := a_excreq a; a_app := a_app a |}.
Definition R11 : reqinfo := {| rver := (1, 1); is_head := false; has_host := true; host_ctl := false; te_chunked := false; keepalive := true |}.
Definition R20 : reqinfo := {| rver := (2, 0); is_head := true; has_host := true; host_ctl := false; te_chunked := false; keepalive := true |}.
Definition Agood (ri : reqinfo) (n : Z) : answers :=
  {| a_ssl := Ret false; a_exec := Ret {| hc := true; perrno := None; mc := true |}; a_errreq := Raise;
     a_req := Ret ri; a_clen := Ret n; a_path := Ret PCanon; a_excreq := Ret tt; a_app := Ret (200, false) |}.

(* unicode_escape of the request line raises: 500, close; the parser stays until the disconnect *)
Example C14_ex_raise :
  read_conn false empty_conn A0
  = ({| buf := true; cli := None |}, [EReject 500; EWrite 500 (1, 1) true false; EClose], [TSsl; TExec; TExcReq]).
Proof. vm_compute. reflexivity. Qed.
(* invalid header on an HTTP/9.9 HEAD request (pair never registered): one 400 with an HTTP/1.1 status line,
   head only, close; nothing left *)
Example C14_ex_invalid_header :
  effs_of (read_conn false empty_conn
     {| a_ssl := Ret false; a_exec := Ret {| hc := false; perrno := Some InvalidHeader; mc := false |};
        a_errreq := Ret ((9, 9), true); a_req := Raise; a_clen := Raise; a_path := Raise; a_excreq := Raise; a_app := Raise |})
  = [EReject 400; EWrite 400 (1, 1) true true; EClose].
Proof. vm_compute. reflexivity. Qed.
Example C14_ex_505 :
  effs_of (read_conn false empty_conn (Agood R20 0)) = [EReject 505; EWrite 505 (1, 1) true true; EClose].
Proof. vm_compute. reflexivity. Qed.
Example C14_ex_negative_length :
  effs_of (read_conn false empty_conn (Agood R11 (-5))) = [EReject 400; EWrite 400 (1, 1) true false; EClose].
Proof. vm_compute. reflexivity. Qed.
Example C14_ex_request :
  read_conn false empty_conn (Agood R11 0)
  = (empty_conn, [EDispatch; EWrite 200 (1, 1) false false], [TSsl; TExec; TReq; TInt]).
Proof. vm_compute. reflexivity. Qed.
(* a handler of the request event raises (body processing of a lone surrogate): one 500, close *)
Example C14_ex_app_raises :
  effs_of (read_conn false empty_conn
     {| a_ssl := Ret false; a_exec := Ret {| hc := true; perrno := None; mc := true |}; a_errreq := Raise;
        a_req := Ret R11; a_clen := Ret 0%Z; a_path := Ret PCanon; a_excreq := Ret tt; a_app := Raise |})
  = [EDispatch; EWrite 500 (1, 1) true false; EClose].
Proof. vm_compute. reflexivity. Qed.
Example C14_ex_tls_hello :
  read_conn false empty_conn (with_exec {| a_ssl := Ret true; a_exec := Raise; a_errreq := Raise; a_req := Raise;
     a_clen := Raise; a_path := Raise; a_excreq := Raise; a_app := Raise |} Raise)
  = (empty_conn, [EClose], [TSsl]).
Proof. vm_compute. reflexivity. Qed.
(* hypotheses of C14_parser_error_reported / C14_raise_answered / C14_dispatch_sound are satisfiable *)
Example C14_ex_raise_hyp : hres_of (on_read false empty_conn A0) = HRaise.
Proof. vm_compute. reflexivity. Qed.
Example C14_ex_dispatch_hyp : In EDispatch (effs_of (read_conn false empty_conn (Agood R11 0))).
Proof. vm_compute. left. reflexivity. Qed.
(* two connections; 0 waits with headers incomplete and is disconnected: released, 1 untouched *)
Example C14_ex_history :
  let t := fst (run false empty_tables
     [Read 0 (with_exec A0 (Ret {| hc := false; perrno := None; mc := false |}));
      Read 1 (with_exec A0 (Ret {| hc := false; perrno := None; mc := false |})); Disc 0]) in
  (t 0%nat, t 1%nat) = (empty_conn, {| buf := true; cli := None |}).
Proof. vm_compute. reflexivity. Qed.

Example C14_ex_classify_ok : classify [71; 69; 84; 32; 47; 32; 72; 84; 84; 80; 47; 49; 46; 49; 13; 10; 72; 111; 115; 116; 58; 32; 97; 13; 10; 13; 10] = HeadersOk.
Proof. vm_compute. reflexivity. Qed.
Example C14_ex_classify_nocolon : classify [72; 69; 65; 68; 32; 47; 32; 72; 84; 84; 80; 47; 49; 46; 49; 13; 10; 72; 111; 115; 116; 32; 97; 13; 10; 13; 10] = Bad InvalidHeader.
Proof. vm_compute. reflexivity. Qed.
Example C14_ex_classify_nul_name : classify [71; 69; 84; 32; 47; 32; 72; 84; 84; 80; 47; 49; 46; 49; 13; 10; 65; 0; 58; 32; 99; 13; 10; 13; 10] = Bad InvalidHeader.
Proof. vm_compute. reflexivity. Qed.
Example C14_ex_classify_garbage : classify [71; 65; 82; 66; 65; 71; 69; 13; 10] = Bad BadFirstLine.
Proof. vm_compute. reflexivity. Qed.
Example C14_ex_classify_fragment : classify [71; 69; 84; 32; 47; 35; 120; 32; 72; 84; 84; 80; 47; 49; 46; 49; 13; 10] = Bad BadFirstLine.
Proof. vm_compute. reflexivity. Qed.
Example C14_ex_classify_prefix : classify [71; 69; 84; 32; 47; 32; 72; 84; 84; 80; 47; 49; 46; 49; 13; 10; 72; 111; 115; 116; 58; 32; 97; 13; 10] = NeedMore.
Proof. vm_compute. reflexivity. Qed.
Example C14_ex_classify_regex : classify [71; 64; 84; 32; 47; 32; 72; 84; 84; 80; 47; 49; 50; 51; 13; 10; 13; 10] = HeadersOk.
Proof. vm_compute. reflexivity. Qed.
Example C14_ex_classify_escape : classify [71; 69; 84; 32; 47; 92; 120; 32; 72; 84; 84; 80; 47; 49; 46; 49; 13; 10; 13; 10] = Unmodelled.
Proof. vm_compute. reflexivity. Qed.

(* a burst is NOT the same as processing the reads one after the other: two requests on one connection, both reads handled
   before the first response is written -- the second is served with the pair of the first (here: not as a HEAD) *)
Definition Rhead : reqinfo := {| rver := (1, 1); is_head := true; has_host := true; host_ctl := false; te_chunked := false; keepalive := true |}.
Example C14_ex_burst_differs :
  map snd (snd (burst false [Read 0 (Agood R11 0); Read 0 (Agood Rhead 0)]))
    = [[EDispatch; EWrite 200 (1, 1) false false]; [EDispatch; EWrite 200 (1, 1) false false]]
  /\ snd (run false empty_tables [Read 0 (Agood R11 0); Read 0 (Agood Rhead 0)])
    = [[EDispatch; EWrite 200 (1, 1) false false]; [EDispatch; EWrite 200 (1, 1) false true]].
Proof. vm_compute. split; reflexivity. Qed.
