(* C15 — every HTTP response is a well-formed, self-delimiting message with exact body.
   The statements, each with at most a few lines from the lemmas of Proofs/HttpResponseP.v.

   [cfg]      one response as the application left it: protocol, method, status, headers, body shape
              (sized list / iterator, stream flag) and body pieces, and the keep-alive wish (close0);
   [respond]  model of Response.prepare + HTTP._on_response/_on_stream: the write events and the close;
   [wire]     the concatenated bytes; [closed] whether the server closes the connection;
   [parse]    an independent HTTP/1.x client (status line, headers, body by HEAD/1xx/204/304 rule,
              chunked, Content-Length, or until close) returning the response and the unread rest;
   [wf]       header names/values, cookies and reason are free of CR (names of colon), no value or cookie
              begins with a blank or tab (the client strips them), the application sets
              neither Transfer-Encoding nor Connection itself, a Content-Length it sets on an iterator body
              is the true length, and 100 <= status <= 999.  (Nothing is assumed about the stream flag.) *)
From Coq Require Import String List NArith Bool.
From Circ Require Import Model.HttpResponse Proofs.HttpResponseP.
Import ListNotations.
Open Scope N_scope.

(* Every response parses back to exactly the status, reason, headers (application headers followed by the
   framing headers) and body bytes; the client stops exactly at the end of the response, whatever follows
   ([rest]); only a response that is delimited by the close must be the last thing on the connection. *)
Theorem C15_roundtrip : forall c rest, wf c = true -> (until_close c = true -> rest = []) ->
  parse (head c) (wire c ++ rest) = Some (expected c, rest).
Proof. exact roundtrip. Qed.
Print Assumptions C15_roundtrip.

(* every header the application put on the response (other than a Content-Length, which the server owns for
   sized bodies) and every cookie (as a Set-Cookie line) is among the recovered headers; the recovered body is
   the concatenation of the body pieces (none for HEAD and for 1xx/204/205/304) *)
Theorem C15_expected_is_app_data : forall c,
  (forall h, In h (pre c) -> ci_is k_cl (fst h) = false -> In h (p_headers (expected c))) /\
  (forall v, In v (cookies c) -> In (str "Set-Cookie", v) (p_headers (expected c))) /\
  p_status (expected c) = status c /\
  p_body (expected c) = if head c || nobody_status (status c) then [] else concat (chunks c).
Proof.
  intro c. unfold expected, out_headers. cbn [p_headers p_status p_body]. repeat split.
  - intros h Hin Hk. apply in_or_app. left. destruct (eff_sized c); [|exact Hin].
    apply in_map_iff. exists h. rewrite Hk. split; [reflexivity | exact Hin].
  - intros v Hin. do 3 (apply in_or_app; right). apply in_or_app. left.
    apply in_map_iff. exists v. split; [reflexivity | exact Hin].
  - unfold eff_chunks. destruct (head c), (nobody_status (status c)); reflexivity.
Qed.
Print Assumptions C15_expected_is_app_data.

(* Response.stream only matters for iterator bodies: a complete body (str, bytes, list, or the values of a
   generator handler that the core ran as a coroutine) goes out at once after the header block, flag or not *)
Theorem C15_sized_written_at_once : forall c, eff_sized c = true -> head c = false ->
  streamed c = false /\ wire c = head_bytes c ++ concat (eff_chunks c).
Proof.
  intros c Hs Hh. split.
  - unfold streamed. rewrite Hs. apply andb_false_r.
  - rewrite wire_eq. unfold body_wire, chunked. rewrite Hh, (sized_has_cl c Hs). reflexivity.
Qed.
Print Assumptions C15_sized_written_at_once.

(* the connection is closed iff the response, as the client reads it, says so *)
Theorem C15_closed_iff_announced : forall c rest r rest', wf c = true -> (until_close c = true -> rest = []) ->
  parse (head c) (wire c ++ rest) = Some (r, rest') -> p_close r = closed c.
Proof.
  intros c rest r rest' H Hu Hp. rewrite roundtrip in Hp by assumption. inversion Hp; subst.
  symmetry. apply closed_close1.
Qed.
Print Assumptions C15_closed_iff_announced.

(* HEAD, 1xx, 204, 205, 304: only status line and header block reach the wire *)
Theorem C15_no_body : forall c, wf c = true ->
  head c = true \/ nobody_status (status c) = true -> wire c = head_bytes c.
Proof.
  intros c _ Hb. rewrite wire_eq. unfold body_wire.
  destruct Hb as [Hh|Hn]; [rewrite Hh; apply app_nil_r|].
  destruct (nobody_empty c Hn) as (Hch & Hck). rewrite Hck, Hch. destruct (head c); apply app_nil_r.
Qed.
Print Assumptions C15_no_body.

(* keep-alive wishes: a request that asked for close gets it; a keep-alive request keeps the connection
   whenever the body can be delimited without closing (known length, or chunked to an HTTP/1.1 GET) *)
Theorem C15_close_wish : forall c, wf c = true -> close0 c = true -> closed c = true.
Proof. intros c _ H0. rewrite closed_close1, close1_eq, H0, orb_true_r. reflexivity. Qed.
Print Assumptions C15_close_wish.

Theorem C15_keep_alive_kept : forall c, wf c = true -> close0 c = false -> status c <> 413 ->
  has_cl c = true \/ (v11 c = true /\ head c = false) -> closed c = false.
Proof.
  intros c _ H0 Hs Hd. apply N.eqb_neq in Hs. rewrite closed_close1, close1_eq, H0, Hs.
  destruct Hd as [Hd|[Hv Hh]]; [rewrite Hd | rewrite Hv, Hh, orb_true_r]; reflexivity.
Qed.
Print Assumptions C15_keep_alive_kept.

(* HEAD (with a known length) and body-less statuses never end a kept-alive connection by themselves *)
Theorem C15_bodiless_keeps_open : forall c, wf c = true -> close0 c = false -> status c <> 413 ->
  nobody_status (status c) = true \/ (head c = true /\ has_cl c = true) -> closed c = false.
Proof.
  intros c H H0 Hs [Hn|[_ Hcl]]; apply C15_keep_alive_kept; try assumption; left; [|exact Hcl].
  apply sized_has_cl. unfold eff_sized. rewrite Hn. reflexivity.
Qed.
Print Assumptions C15_bodiless_keeps_open.

(* chunked encoding is only used towards HTTP/1.1, never for HEAD, never together with Content-Length *)
Theorem C15_chunked_only_11 : forall c, chunked c = true -> v11 c = true /\ head c = false /\ cl_hdr c = None.
Proof.
  intros c H. unfold chunked, has_cl in H. destruct (cl_hdr c); [discriminate|].
  destruct (status c =? 413); [discriminate|]. destruct (v11 c), (head c); try discriminate.
  repeat split.
Qed.
Print Assumptions C15_chunked_only_11.

(* whichever Content-Length ends up on a non-HEAD response - the server's count, or the application's own
   header on an iterator body (wf: it told the truth) - the client reads it and it is the number of body bytes;
   for sized bodies the server's count replaces whatever the application set *)
Theorem C15_content_length_exact : forall c v, wf c = true -> head c = false -> cl_hdr c = Some v ->
  lookup k_cl (p_headers (expected c)) = Some v /\
  undec v = Some (N.of_nat (length (concat (eff_chunks c)))).
Proof.
  intros c v H Hh Hv. split; [|exact (cl_len c v H Hh Hv)].
  unfold expected. cbn [p_headers]. rewrite lookup_cl_out. exact Hv.
Qed.
Print Assumptions C15_content_length_exact.

Theorem C15_sized_overrides_app_cl : forall c, eff_sized c = true ->
  cl_hdr c = Some (dec (N.of_nat (length (concat (eff_chunks c))))).
Proof. intros c H. unfold cl_hdr. rewrite H, total_len_concat. reflexivity. Qed.
Print Assumptions C15_sized_overrides_app_cl.

(* any sequence of requests on one connection, each response but the last leaving it open: the client reads
   the concatenated output as exactly the sequence of responses, with nothing left over.  [cs] is arbitrary:
   HEAD requests, body-less statuses, streamed and sized bodies, cookies and application Content-Length may be
   interleaved in any order (C15_ex_seq is such a sequence; C15_bodiless_keeps_open says those never break it) *)
Theorem C15_keepalive_sequence : forall cs, conn_ok cs = true ->
  parse_many (map head cs) (concat (map wire cs)) = Some (map expected cs).
Proof. exact keepalive_sequence. Qed.
Print Assumptions C15_keepalive_sequence.

(* codecs used for Content-Length and chunk sizes *)
Theorem C15_dec_roundtrip : forall n, undec (dec n) = Some n.
Proof. exact undec_dec. Qed.
Print Assumptions C15_dec_roundtrip.

Theorem C15_hex_roundtrip : forall n, unhex (hex n) = Some n.
Proof. exact unhex_hex. Qed.
Print Assumptions C15_hex_roundtrip.

(* bodies that have a read() method (files, pipes, sockets, decompressors; wrappers.file_generator):
   [file_gen reads] are the body pieces when successive read() calls return [reads].  The pieces are exactly
   what was read before the first empty result - short reads do not end the body - so a source that hands out
   [data] in reads of any positive sizes ([caps], each at most the chunk size n) is delivered completely;
   with C15_roundtrip (chunks := file_gen reads) the client then recovers exactly those bytes. *)
Theorem C15_stream_until_empty_read : forall a b, forallb nonempty a = true -> file_gen (a ++ [] :: b) = a.
Proof. intros a b H. rewrite file_gen_app by exact H. apply app_nil_r. Qed.
Print Assumptions C15_stream_until_empty_read.

Theorem C15_stream_all_reads : forall reads, forallb nonempty reads = true -> file_gen reads = reads.
Proof.
  intros reads H. rewrite <- (app_nil_r reads) at 1. rewrite file_gen_app by exact H. apply app_nil_r.
Qed.
Print Assumptions C15_stream_all_reads.

Theorem C15_stream_short_reads_complete : forall fuel n caps data, (0 < n)%nat -> (length data < fuel)%nat ->
  concat (file_gen (src_reads fuel n caps data)) = data.
Proof. exact file_gen_src_reads. Qed.
Print Assumptions C15_stream_short_reads_complete.

Definition ex_stream : cfg :=
  {| v11 := true; head := false; status := 200; reason := str "OK"; close0 := false;
     pre := [(str "X-Tag", str "7")]; cookies := [str "a=1"]; sized := false; stream := true;
     chunks := [[]; str "abc"; []; str "de"] |}.
Definition ex_head : cfg :=
  {| v11 := true; head := true; status := 200; reason := str "OK"; close0 := false;
     pre := []; cookies := []; sized := true; stream := false; chunks := [str "hello"] |}.
Definition ex_204 : cfg :=
  {| v11 := true; head := false; status := 204; reason := str "No Content"; close0 := false;
     pre := []; cookies := []; sized := true; stream := false; chunks := [str "dropped"] |}.
Definition ex_10_iter : cfg :=
  {| v11 := false; head := false; status := 200; reason := str "OK"; close0 := false;
     pre := []; cookies := []; sized := false; stream := false; chunks := [str "a"; str "b"] |}.

(* a file served with the application's own Content-Length (as tools.serve_file does) and two cookies,
   on HTTP/1.0 keep-alive: delimited by that header, connection stays open *)
Definition ex_file_cl : cfg :=
  {| v11 := false; head := false; status := 200; reason := str "OK"; close0 := false;
     pre := [(str "Content-Length", str "5"); (str "X-Tag", str "1")]; cookies := [str "a=1"; str "c=x; Path=/"];
     sized := false; stream := true; chunks := [str "abc"; str "de"] |}.
(* the same header on a sized body is overwritten *)
Definition ex_sized_cl : cfg :=
  {| v11 := true; head := false; status := 200; reason := str "OK"; close0 := false;
     pre := [(str "Content-Length", str "999")]; cookies := []; sized := true; stream := false; chunks := [str "hello"] |}.

(* a handler that sets Response.stream and returns a list (or a generator run as a coroutine) *)
Definition ex_stream_list : cfg :=
  {| v11 := true; head := false; status := 200; reason := str "OK"; close0 := false;
     pre := []; cookies := []; sized := true; stream := true; chunks := [str "ab"; str "cd"] |}.
Example C15_ex_stream_list :
  wf ex_stream_list = true /\
  match respond ex_stream_list with Out (_ :: body) cl => body = [str "abcd"] /\ cl = false | _ => False end /\
  option_map (fun p => p_body (fst p)) (parse false (wire ex_stream_list)) = Some (str "abcd").
Proof. vm_compute. repeat split. Qed.

Example C15_ex_wf : forallb wf [ex_stream; ex_head; ex_204; ex_10_iter; ex_file_cl; ex_sized_cl] = true.
Proof. vm_compute. reflexivity. Qed.
Example C15_ex_stream_wire :
  match respond ex_stream with
  | Out (_ :: body) cl => body = [str "3" ++ crlf ++ str "abc" ++ crlf; str "2" ++ crlf ++ str "de" ++ crlf; term] /\ cl = false
  | _ => False
  end.
Proof. vm_compute. split; reflexivity. Qed.
Example C15_ex_until_close : until_close ex_10_iter = true /\ closed ex_10_iter = true /\ chunked ex_stream = true.
Proof. vm_compute. repeat split. Qed.
Example C15_ex_app_cl : cl_hdr ex_file_cl = Some (str "5") /\ closed ex_file_cl = false /\ chunked ex_file_cl = false
  /\ cl_hdr ex_sized_cl = Some (str "5").
Proof. vm_compute. repeat split. Qed.
Example C15_ex_seq : conn_ok [ex_head; ex_204; ex_file_cl; ex_head; ex_stream; ex_sized_cl; ex_204; ex_10_iter] = true.
Proof. vm_compute. reflexivity. Qed.
Example C15_ex_seq_parse :
  option_map (map p_body) (parse_many [true; false; false; true; false; false; false; false]
     (concat (map wire [ex_head; ex_204; ex_file_cl; ex_head; ex_stream; ex_sized_cl; ex_204; ex_10_iter])))
  = Some [[]; []; str "abcde"; []; str "abcde"; str "hello"; []; str "ab"].
Proof. vm_compute. reflexivity. Qed.

(* a pipe-like source: 10 bytes handed out as 3 + 1 + 4 (chunk size) + 2, then the empty read *)
Example C15_ex_short_reads :
  src_reads 20 4 [3; 1; 0; 7]%nat (str "0123456789") = [str "012"; str "3"; str "4567"; str "89"; []]
  /\ file_gen (src_reads 20 4 [3; 1; 0; 7]%nat (str "0123456789")) = [str "012"; str "3"; str "4567"; str "89"].
Proof. vm_compute. split; reflexivity. Qed.
Definition ex_pipe : cfg :=
  {| v11 := true; head := false; status := 200; reason := str "OK"; close0 := false;
     pre := []; cookies := []; sized := false; stream := true;
     chunks := file_gen (src_reads 20 4 [3; 1; 0; 7]%nat (str "0123456789")) |}.
Example C15_ex_pipe : wf ex_pipe = true /\
  option_map (fun p => p_body (fst p)) (parse false (wire ex_pipe)) = Some (str "0123456789").
Proof. vm_compute. split; reflexivity. Qed.
