(* C16 - Static files: only contents from inside the document root, exact byte ranges.
   The statements, each an instance or a short corollary of the theorems of Proofs/StaticPathP.v,
   Proofs/RangesP.v and Proofs/FrontEndP.v. *)
From Coq Require Import List ZArith Bool Lia.
From Circ Require Import Model.StaticPath Model.Ranges Model.FrontEnd Proofs.StaticPathP Proofs.RangesP Proofs.FrontEndP.
Import ListNotations.

(* Whatever Static answers with (a file, the notfound of serve_file, a directory listing) is
   taken from a location that is absolute and whose path components are the components of the
   document root followed by plain names only (non-empty, not '.', not '..', without '/') - for
   every request path, every mount prefix, EVERY decoding function in the place of
   urllib.parse.unquote (single, double, invalid encodings), every file system, listing on or off. *)
Theorem C16_contained :
  forall (fexists isfile isdir : str -> bool) (unq : str -> str)
         (mount : option str) (d : str) (defaults : list str) (dirlisting : bool) (reqpath loc : str),
  starts_slash d = true -> Forall plain defaults ->
  served (static_request fexists isfile isdir unq mount d defaults dirlisting reqpath) = Some loc ->
  starts_slash loc = true /\
  exists rest, comps_of loc = comps_of d ++ rest /\ Forall plain rest.
Proof. exact static_contained. Qed.
Print Assumptions C16_contained.

(* the containment test, read on strings *)
Theorem C16_inside_test : forall d loc,
  inside d loc = true <-> (loc = d \/ exists r, loc = join2 d [] ++ r).
Proof. exact inside_spec. Qed.
Print Assumptions C16_inside_test.

(* get_ranges never raises, and every (start, stop) it returns is a non-empty slice of the
   file, without duplicates - for every header value and every file length *)
Theorem C16_ranges : forall (hv : option str) (cl : Z), (0 <= cl)%Z ->
  match get_ranges hv cl with
  | RCrash => False
  | RList l => Forall (fun p => 0 <= fst p /\ fst p < snd p /\ snd p <= cl)%Z l /\ NoDup l
  | _ => True
  end.
Proof. exact get_ranges_sound. Qed.
Print Assumptions C16_ranges.

(* the Range arm of serve_file: never an internal error; lengths announced are the file's;
   a 206 carries exactly bytes [start, stop) of the file, as many as announced *)
Theorem C16_range_response : forall (proto11 : bool) (hv : option str) (content : list N),
  let len := Z.of_nat (length content) in
  match serve_range proto11 hv content with
  | Err500 => False
  | Full n => n = len
  | R416 n => n = len
  | Partial a b n body => n = len /\ part_ok content (a, b, body)
  | Multi n ps => n = len /\ Forall (part_ok content) ps /\ (2 <= length ps)%nat /\ NoDup (map fst ps)
  end.
Proof. exact serve_range_sound. Qed.
Print Assumptions C16_range_response.

(* not over-restrictive: a request whose decoded path is a sequence of plain names that denotes
   a regular file under a normalised document root is answered with exactly that file *)
Theorem C16_benign_served :
  forall (fexists isfile isdir : str -> bool) (unq : str -> str) d defaults dirlisting reqpath ps,
  starts_slash d = true -> ends_slash d = false -> normpath d = d ->
  Forall plain ps -> ps <> [] ->
  unq (strip_sl reqpath) = intercalate ps ->
  fexists (d ++ SL :: intercalate ps) = true ->
  isfile (d ++ SL :: intercalate ps) = true ->
  isdir (d ++ SL :: intercalate ps) = false ->
  static_request fexists isfile isdir unq None d defaults dirlisting reqpath
  = File (d ++ SL :: intercalate ps).
Proof.
  intros fexists isfile isdir unq d defaults dirlisting reqpath ps Hs He Hn Hp Hne Hu Hx Hf Hd.
  destruct (location_benign d ps Hs He Hn Hp Hne) as [Hl Hi].
  unfold static_request, unmount. rewrite Hu, Hi, Hl, Hx, Hf. simpl.
  unfold serve_file. rewrite Hx, Hd. reflexivity.
Qed.
Print Assumptions C16_benign_served.

(* exactness of get_ranges on the three well-formed single specs, for all digit strings and lengths:
   "bytes=a-b" -> [a, min(b, len-1)] ; "bytes=a-" -> [a, len) ; "bytes=-n" -> the last n bytes;
   a first position beyond the file -> [] (416) *)
Theorem C16_range_closed : forall ds de a b cl,
  all_digits ds = true -> all_digits de = true ->
  int_of ds = Some a -> int_of de = Some b -> (a <= b)%Z -> (a < cl)%Z ->
  get_ranges (Some (BYTES ++ EQ :: ds ++ DASH :: de)) cl = RList [(a, Z.min b (cl - 1) + 1)%Z].
Proof.
  intros ds de a b cl Hs He Ha Hb Hab Hcl. rewrite get_ranges_single by assumption.
  unfold classify. simpl. rewrite Ha, Hb.
  replace (a >=? cl)%Z with false by lia. replace (b <? a)%Z with false by lia. reflexivity.
Qed.
Print Assumptions C16_range_closed.

Theorem C16_range_open : forall ds a cl,
  all_digits ds = true -> int_of ds = Some a -> (a < cl)%Z ->
  get_ranges (Some (BYTES ++ EQ :: ds ++ [DASH])) cl = RList [(a, cl)].
Proof.
  intros ds a cl Hs Ha Hcl. rewrite (get_ranges_single ds [] cl Hs eq_refl).
  unfold classify. simpl. rewrite Ha.
  replace (a >=? cl)%Z with false by lia. reflexivity.
Qed.
Print Assumptions C16_range_open.

Theorem C16_range_suffix : forall de n cl,
  all_digits de = true -> int_of de = Some n -> (0 < n)%Z -> (0 < cl)%Z ->
  get_ranges (Some (BYTES ++ EQ :: DASH :: de)) cl = RList [(Z.max (cl - n) 0, cl)%Z].
Proof.
  intros de n cl He Hn Hn0 Hcl. rewrite (get_ranges_single [] de cl eq_refl He : get_ranges (Some (BYTES ++ EQ :: DASH :: de)) cl = _).
  unfold classify. simpl. rewrite Hn.
  replace ((n =? 0) || (cl =? 0))%Z with false by lia. reflexivity.
Qed.
Print Assumptions C16_range_suffix.

Theorem C16_range_beyond : forall ds de a cl,
  all_digits ds = true -> all_digits de = true -> int_of ds = Some a -> (cl <= a)%Z ->
  get_ranges (Some (BYTES ++ EQ :: ds ++ DASH :: de)) cl = RList [].
Proof.
  intros ds de a cl Hs He Ha Hcl. rewrite get_ranges_single by assumption.
  unfold classify. simpl. rewrite Ha.
  replace (a >=? cl)%Z with true by lia. destruct (int_of de); reflexivity.
Qed.
Print Assumptions C16_range_beyond.

(* The composition request-line parser -> Request/URL.sanitize -> redirect guard -> Static, for every
   raw request target, every parser, EVERY pair of functions in the place of urllib.parse.quote/unquote,
   every file system, decoding function, mount, absolute root: if anything is served, then the parser
   produced a path, the front end fired the request event with exactly that path, the path is ASCII and
   canonical (equal to its sanitised form, or its quoted form is), and the location served is inside
   the document root in the sense of C16_contained. *)
Theorem C16_frontend_contained :
  forall (quote unquote : str -> str) (parse_target : str -> option str)
         (fexists isfile isdir : str -> bool) (unq : str -> str)
         (mount : option str) (d : str) (defaults : list str) (dirlisting : bool) (target loc : str),
  starts_slash d = true -> Forall plain defaults ->
  served (http_static_target quote unquote parse_target fexists isfile isdir unq
                             mount d defaults dirlisting target) = Some loc ->
  (exists path, parse_target target = Some path /\
     frontend quote unquote path = FeDispatch path /\ is_ascii path = true /\
     (path = sanitized quote unquote path \/ quote path = sanitized quote unquote path)) /\
  (starts_slash loc = true /\ exists rest, comps_of loc = comps_of d ++ rest /\ Forall plain rest).
Proof.
  intros quote unquote parse_target fexists isfile isdir unq mount d defaults dirlisting target loc Hd Hdf H.
  unfold http_static_target in H. destruct (parse_target target) as [path|]; [|discriminate].
  destruct (http_static_contained _ _ _ _ _ _ _ _ _ _ _ _ Hd Hdf H) as [Hf Hc].
  split; [exists path; split; [reflexivity|exact Hf]|exact Hc].
Qed.
Print Assumptions C16_frontend_contained.

(* a redirected (non-canonical) or rejected request is answered without any question to the file system *)
Theorem C16_frontend_redirect_no_access :
  forall (quote unquote : str -> str) mount d defaults dirlisting path,
  (forall p, frontend quote unquote path <> FeDispatch p) ->
  forall fexists isfile isdir unq,
  http_static quote unquote fexists isfile isdir unq mount d defaults dirlisting path = Pass.
Proof.
  intros quote unquote mount d defaults dirlisting path H fexists isfile isdir unq. unfold http_static.
  destruct (frontend quote unquote path) as [p| |]; [destruct (H p)|..]; reflexivity.
Qed.
Print Assumptions C16_frontend_redirect_no_access.

(* URL.abspath leaves no '.' and no '..' segment, whatever the input *)
Theorem C16_abspath_no_dot_segments : forall path,
  Forall (fun p => is_dot p = false /\ is_dotdot p = false) (split_slash (url_abspath path)).
Proof. exact abspath_segments_nodot. Qed.
Print Assumptions C16_abspath_no_dot_segments.

(* hence: a path dispatched because it EQUALS its sanitised form has no '.' or '..' segment, provided
   re-encoding leaves the normalised path alone (quote (unquote a) = a: no escapes to redo) *)
Theorem C16_canonical_no_dot_segments : forall (quote unquote : str -> str) path,
  let a := url_abspath (split_params (SL :: path)) in
  quote (unquote a) = a -> path = sanitized quote unquote path ->
  Forall (fun p => is_dot p = false /\ is_dotdot p = false) (split_slash path).
Proof.
  intros quote unquote path a Hq Hp. unfold sanitized in Hp. fold a in Hp. rewrite Hq in Hp. rewrite Hp.
  apply abspath_segments_nodot.
Qed.
Print Assumptions C16_canonical_no_dot_segments.

(* For every header  unit "=" spec , spec , ...  whose unit reads "bytes" (any case, white space
   around) and whose specs are  ws* digits* "-" digits* ws*, get_ranges is exactly the left-to-right
   RFC reading sem_loop followed by the length-spread rejection *)
Theorem C16_range_multi : forall unit ts cl,
  str_eqb (map lower_ascii (strip_ws unit)) BYTES = true -> ~ In EQ unit ->
  ts <> [] -> Forall wf_tspec ts ->
  get_ranges (Some (unit ++ EQ :: join_comma (map render ts))) cl = finish (sem_loop cl ts []).
Proof. exact range_multi_exact. Qed.
Print Assumptions C16_range_multi.

(* and that reading is: None as soon as one spec is invalid (last < first with a satisfiable first
   position, or a bare "-"); otherwise the clamped satisfiable slices in request order, first
   occurrences only ([] -> 416) *)
Theorem C16_range_multi_reading : forall cl ts acc,
  sem_loop cl ts acc =
  if existsb (is_invalid cl) ts then RIgnore else RList (dedup_from acc (slices cl ts)).
Proof. exact sem_loop_spec. Qed.
Print Assumptions C16_range_multi_reading.

Theorem C16_range_dedup : forall l acc, NoDup acc ->
  NoDup (dedup_from acc l) /\ forall x, In x (dedup_from acc l) <-> In x acc \/ In x l.
Proof. exact dedup_spec. Qed.
Print Assumptions C16_range_dedup.

Open Scope N_scope.
Definition ex_root : str := [47; 114].                        (* "/r" *)
Definition ex_fs (p : str) : bool := true.
Example C16_ex_traversal :   (* "/../r-extra/s" handed over directly: not served *)
  static_request ex_fs ex_fs (fun _ => false) (fun s => s) None ex_root [] false
                 [47; 46; 46; 47; 114; 45; 101; 47; 115] = Pass.
Proof. vm_compute. reflexivity. Qed.
Example C16_ex_served :      (* "/a/../b" -> /r/b *)
  static_request ex_fs ex_fs (fun _ => false) (fun s => s) None ex_root [] false
                 [47; 97; 47; 46; 46; 47; 98] = File [47; 114; 47; 98].
Proof. vm_compute. reflexivity. Qed.
Example C16_ex_range :       (* bytes=2-99 on 5 bytes -> (2, 5) *)
  get_ranges (Some [98; 121; 116; 101; 115; 61; 50; 45; 57; 57]) 5 = RList [(2, 5)%Z].
Proof. vm_compute. reflexivity. Qed.
Example C16_ex_suffix :      (* bytes=-20 on 5 bytes -> (0, 5) *)
  get_ranges (Some [98; 121; 116; 101; 115; 61; 45; 50; 48]) 5 = RList [(0, 5)%Z].
Proof. vm_compute. reflexivity. Qed.
Example C16_ex_malformed :   (* bytes=abc -> header ignored *)
  get_ranges (Some [98; 121; 116; 101; 115; 61; 97; 98; 99]) 5 = RIgnore.
Proof. vm_compute. reflexivity. Qed.
Example C16_ex_benign_hyps :   (* the hypotheses of C16_benign_served are satisfiable: root "/r", path "a/b" *)
  starts_slash ex_root = true /\ ends_slash ex_root = false /\ normpath ex_root = ex_root /\
  plainb [97] = true /\ plainb [98] = true /\
  location ex_root (intercalate [[97]; [98]]) = [47; 114; 47; 97; 47; 98].
Proof. vm_compute. repeat split; reflexivity. Qed.
Example C16_ex_digits :        (* "12" is a digit string denoting 12; "12-3" on 100 bytes is reversed: header void *)
  all_digits [49; 50] = true /\ int_of [49; 50] = Some 12%Z /\
  get_ranges (Some (BYTES ++ EQ :: [49; 50] ++ DASH :: [51])) 100 = RIgnore.
Proof. vm_compute. repeat split; reflexivity. Qed.
Example C16_ex_multi :         (* bytes=0-1,8-9 on "0123456789" *)
  serve_range true (Some [98; 121; 116; 101; 115; 61; 48; 45; 49; 44; 56; 45; 57]) [48; 49; 50; 51; 52; 53; 54; 55; 56; 57]
  = Multi 10%Z [(0%Z, 2%Z, [48; 49]); (8%Z, 10%Z, [56; 57])].
Proof. vm_compute. reflexivity. Qed.
Definition ex_id (s : str) : str := s.
Example C16_ex_frontend_redirect :   (* "/a/../b" -> 301 to "/b"; "/a.txt" is handed on; "/caf\u00e9" makes Request() raise *)
  frontend ex_id ex_id [47; 97; 47; 46; 46; 47; 98] = FeRedirect [47; 98] /\
  frontend ex_id ex_id [47; 97; 46; 116; 120; 116] = FeDispatch [47; 97; 46; 116; 120; 116] /\
  frontend ex_id ex_id [47; 233] = FeError /\
  sanitized ex_id ex_id [47; 97; 59; 120; 47; 98; 59; 121] = [47; 97; 59; 120; 47; 98] /\   (* "/a;x/b;y" -> "/a;x/b" *)
  url_abspath [47; 47; 97; 47; 46] = [47; 97; 47; 47].                                            (* "//a/." -> "/a//" *)
Proof. vm_compute. repeat split; reflexivity. Qed.
Example C16_ex_frontend_served :     (* through the front end: "/b" is served from /r/b, "/../x" is not *)
  http_static ex_id ex_id ex_fs ex_fs (fun _ => false) (fun s => s) None ex_root [] false [47; 98] = File [47; 114; 47; 98] /\
  http_static ex_id ex_id ex_fs ex_fs (fun _ => false) (fun s => s) None ex_root [] false [47; 46; 46; 47; 120] = Pass.
Proof. vm_compute. split; reflexivity. Qed.
Definition ex_specs : list tspec :=     (* " 0-1 " , "8-9" , "0-1" , "5-" , "-3" *)
  [ {| w1 := [32]; sd := [48]; ed := [49]; w2 := [32] |}; {| w1 := []; sd := [56]; ed := [57]; w2 := [] |};
    {| w1 := []; sd := [48]; ed := [49]; w2 := [] |};     {| w1 := []; sd := [53]; ed := []; w2 := [] |};
    {| w1 := []; sd := []; ed := [51]; w2 := [] |} ].
Example C16_ex_multi_header :
  join_comma (map render ex_specs) = [32; 48; 45; 49; 32; 44; 56; 45; 57; 44; 48; 45; 49; 44; 53; 45; 44; 45; 51] /\
  sem_loop 10 ex_specs [] = RList [(0, 2)%Z; (8, 10)%Z; (5, 10)%Z; (7, 10)%Z] /\
  get_ranges (Some ([32; 66; 121; 116; 101; 115] ++ EQ :: join_comma (map render ex_specs))) 10   (* " Bytes= 0-1 ,8-9,0-1,5-,-3" *)
  = RList [(0, 2)%Z; (8, 10)%Z; (5, 10)%Z; (7, 10)%Z] /\
  forallb (fun t => forallb is_ws (w1 t) && all_digits (sd t) && all_digits (ed t) && forallb is_ws (w2 t)) ex_specs = true.
Proof. vm_compute. repeat split; reflexivity. Qed.
