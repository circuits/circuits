(* C17 — WebSocket frames round-trip exactly, whatever the segmentation or fragmentation.
   The proofs live in Proofs/WebSocketP.v and Proofs/WebSocketE2EP.v; here they are cited, or a corollary is
   drawn in a line or two.

   Model/WebSocket.v is the codec (as repaired by fixes/C17_*.patch): [send] = the write handler,
   [recv] = one read event through _parse_messages plus the close handler, [recv_all] = a sequence of
   reads.  The conforming peer is specified by the independent encoder [rfc_frame] (RFC 6455 5.2) and by
   [items_bytes] (messages, possibly split into continuation frames, ping/pong frames in between).
   Vocabulary from the proofs file:
     keyf k4 n        = the n-th masking key the endpoint draws (os.urandom), k4 : nat -> key4 arbitrary
     okey k4 client n = Some (k4 n) for a client endpoint (which masks), None for a server endpoint
     clean n          = codec state with empty buffer, no pending fragments, no close seen or sent,
                        n keys drawn so far
     pongs k4 client n qs = the frames [rfc_frame true 10 key q] for the ping payloads qs, in order
     bumps client n k = key index after writing k more frames
     wf_len p         = length p < 2^64 ;  wf_item / wf_frag = wf_len of every payload in the item / fragment
     stream_ok p more = the pending-fragment state p fits the stream: more = [] and nothing half-assembled,
                        or more <> [] (continuation frames first) and a first fragment has been seen
     completed p more = the message those continuation frames complete (type of the pending first fragment,
                        pending bytes ++ their payloads);  stream_pings = the ping payloads in stream order
     after_stream / out_stream s more l = state and output after that stream from state s: pongs only while
                        the endpoint's close frame has not been sent (pongs_if (csent s)), _buffer empty again
     close_reply cs n = [] if the close frame was already sent, else [rfc_frame true 8 (okey n) []]
     masked_as b w    = the mask bit (bit 7 of the second byte) of the written frame w is b *)
From Coq Require Import List NArith Bool.
From Circ Require Import Lib.Obs Model.WebSocket Proofs.WebSocketP Proofs.WebSocketE2EP.
Import ListNotations.
Open Scope N_scope.

(* endpoint -> peer: what the write handler emits IS the RFC frame of the message: FIN, opcode
   1 (text) / 2 (binary), minimal length encoding, masked with the drawn key iff the endpoint is a client *)
Theorem C17_write_is_rfc_frame : forall (k4 : nat -> key4) (client : bool) s (text : bool) p,
  csent s = false ->
  send (keyf k4) client s text p =
  ROk (mkS (buf s) (mkP (pend (ps s)) (ptype (ps s)) (bump client (nk (ps s)))) (crecv s) false,
       mkO [] [rfc_frame true (if text then 1 else 2) (okey k4 client (nk (ps s))) p] 0).
Proof. exact send_rfc. Qed.
Print Assumptions C17_write_is_rfc_frame.

(* peer -> endpoint, one frame: every RFC frame (7-bit, 16-bit and 64-bit length, masked with any
   key or unmasked, any opcode, FIN or not) is decoded to exactly its payload and the bytes after it *)
Theorem C17_decode_frame : forall (fin : bool) op (mk : option key4) p rest,
  op < 16 -> wf_len p ->
  parse_frame (rfc_frame fin op mk p ++ rest) = FFrame fin op p rest.
Proof. exact parse_rfc_frame. Qed.
Print Assumptions C17_decode_frame.

(* round trip under every cut: the frame of a message, cut into reads anywhere (inside the header,
   the extended length, the key, the payload), delivers exactly that message, once *)
Theorem C17_roundtrip : forall (k4 : nat -> key4) (client : bool) (text : bool) (mk : option key4) p n chunks,
  wf_len p ->
  concat chunks = rfc_frame true (if text then 1 else 2) mk p ->
  recv_all (keyf k4) client (clean n) chunks = ROk (clean n, mkO [(text, p)] [] 0).
Proof. exact roundtrip. Qed.
Print Assumptions C17_roundtrip.

(* segmentation: for ANY byte stream (conforming or not) and any key oracle, feeding it in pieces
   is the same as feeding it at once: same messages, same frames written, same close, same final state *)
Theorem C17_segmentation : forall (keyfn : nat -> list N) (client : bool) s chunks,
  buf s = [] ->
  recv_all keyfn client s chunks = recv_all keyfn client s [concat chunks].
Proof. exact segmentation. Qed.
Print Assumptions C17_segmentation.

(* ... from any state at all (bytes of an unfinished frame in the buffer, fragments pending, close sent) *)
Theorem C17_segmentation_any_state : forall (keyfn : nat -> list N) (client : bool) cs s c,
  recv_all keyfn client s (c :: cs) = recv_all keyfn client s [concat (c :: cs)].
Proof. exact segmentation_ne. Qed.
Print Assumptions C17_segmentation_any_state.

Theorem C17_cut_independent : forall (keyfn : nat -> list N) (client : bool) s cs1 cs2,
  buf s = [] -> concat cs1 = concat cs2 ->
  recv_all keyfn client s cs1 = recv_all keyfn client s cs2.
Proof.
  intros keyfn client s cs1 cs2 H E.
  now rewrite (segmentation _ _ s cs1 H), (segmentation _ _ s cs2 H), E.
Qed.
Print Assumptions C17_cut_independent.

(* fragmentation and control frames: any sequence of messages, each split into any number of
   continuation frames (each with its own key or none, empty fragments allowed), with ping and pong frames
   after any fragment, cut into reads anywhere: delivered = exactly the messages (type, concatenated
   payload), written = exactly one pong per ping, same payload, in order; nothing else *)
Theorem C17_fragmentation : forall (k4 : nat -> key4) (client : bool) (l : list item) n chunks,
  Forall wf_item l ->
  concat chunks = items_bytes l ->
  recv_all (keyf k4) client (clean n) chunks =
  ROk (clean (bumps client n (length (expected_pings l))),
       mkO (expected_msgs l) (pongs k4 client n (expected_pings l)) 0).
Proof. exact recv_items_any_cut. Qed.
Print Assumptions C17_fragmentation.

(* close: after the peer's close frame nothing that follows is delivered; the close frame is
   answered by one close frame (masked iff client); the codec has then both received and sent close *)
Theorem C17_close : forall (k4 : nat -> key4) (client : bool) (l : list item) n k q junk chunks,
  Forall wf_item l -> wf_len q ->
  concat chunks = items_bytes l ++ rfc_frame true 8 k q ++ junk ->
  recv_all (keyf k4) client (clean n) chunks =
  ROk (mkS [] (mkP [] None (bump client (bumps client n (length (expected_pings l))))) true true,
       mkO (expected_msgs l)
           (pongs k4 client n (expected_pings l)
            ++ [rfc_frame true 8 (okey k4 client (bumps client n (length (expected_pings l)))) []]) 1).
Proof. exact recv_items_close_any_cut. Qed.
Print Assumptions C17_close.

(* the same from ANY codec state s that has not received close: close frame already sent or not,
   fragments of a message pending or not, bytes of an unfinished frame in _buffer or not (they count as the
   beginning of the stream).  The stream = continuation frames completing the pending message (if any),
   then whole items; every cut into reads.  Delivered: the completed pending message, then the items'
   messages.  Written: one pong per ping while the close frame has not been sent, none after. *)
Theorem C17_fragmentation_any_state : forall (k4 : nat -> key4) (client : bool) s more l c cs,
  crecv s = false ->
  stream_ok (ps s) more -> Forall wf_frag more -> Forall wf_item l ->
  buf s ++ concat (c :: cs) = conts_bytes more ++ items_bytes l ->
  recv_all (keyf k4) client s (c :: cs) = ROk (after_stream client s more l, out_stream k4 client s more l).
Proof.
  intros k4 client s more l c cs Ec OK Wm Wl E. rewrite segmentation_ne, recv_all_one.
  now apply recv_stream.
Qed.
Print Assumptions C17_fragmentation_any_state.

Theorem C17_close_any_state : forall (k4 : nat -> key4) (client : bool) s more l k q junk c cs,
  crecv s = false ->
  stream_ok (ps s) more -> Forall wf_frag more -> Forall wf_item l -> wf_len q ->
  buf s ++ concat (c :: cs) = conts_bytes more ++ items_bytes l ++ rfc_frame true 8 k q ++ junk ->
  recv_all (keyf k4) client s (c :: cs) =
  ROk (let s1 := after_stream client s more l in
       mkS [] (mkP [] (ptype (ps s1)) (if csent s then nk (ps s1) else bump client (nk (ps s1)))) true true,
       mkO (delivered (out_stream k4 client s more l))
           (written (out_stream k4 client s more l)
            ++ close_reply k4 client (csent s) (nk (ps (after_stream client s more l)))) 1).
Proof.
  intros k4 client s more l k q junk c cs Ec OK Wm Wl Wq E. rewrite segmentation_ne, recv_all_one.
  now apply (recv_stream_close k4 client s more l k q junk).
Qed.
Print Assumptions C17_close_any_state.

(* RFC 6455 5.1: whatever operation (read with pongs / close reply, application write, application
   close) in whatever state: every frame a client endpoint writes is masked, every frame a server
   endpoint writes is unmasked (C17_client_close_masked.patch makes this true for the close frame) *)
Theorem C17_client_frames_masked : forall (k4 : nat -> key4) (client : bool) s o s' x,
  step (keyf k4) client s o = ROk (s', x) -> Forall (masked_as client) (written x).
Proof.
  intros k4 client s o s' x E. destruct (step_masked k4 client s o) as (s1 & x1 & E1 & M).
  rewrite E1 in E. now injection E as _ <-.
Qed.
Print Assumptions C17_client_frames_masked.

(* opening handshake, client side (client.py + protocols/http.py): reads are accumulated until the
   101 response's header block (first CRLF CRLF) is complete; whatever follows it -- in the same read or
   later, the response itself cut anywhere -- reaches the codec exactly once, as one read would *)
Theorem C17_no_bytes_lost_at_upgrade : forall (keyfn : nat -> list N) (client : bool) chunks h rest,
  split_head (concat chunks) = Some (h, rest) ->
  cread_all keyfn client (CHandshake []) chunks = lift_open (recv keyfn client init rest).
Proof. intros keyfn client chunks h rest. exact (client_no_bytes_lost keyfn client chunks [] h rest eq_refl). Qed.
Print Assumptions C17_no_bytes_lost_at_upgrade.

(* dispatcher.py: one codec per upgraded socket; what socket k's codec delivers and writes, and its
   final state, depend on k's own operations only; after disconnect(k) reads for k are not decoded *)
Theorem C17_dispatcher_isolation : forall (keyfn : nat -> list N) (client : bool) k ops t t' t1 xs,
  t k = t' k ->
  drun keyfn client t ops = ROk (t1, xs) ->
  exists t2, drun keyfn client t' (for_sock k ops) = ROk (t2, outs_of k xs) /\ t2 k = t1 k.
Proof. exact dispatcher_isolation. Qed.
Print Assumptions C17_dispatcher_isolation.

Theorem C17_disconnect_forgets : forall (keyfn : nat -> list N) (client : bool) t k d,
  dstep keyfn client (t_set t k None) (DRead k d) = ROk (t_set t k None, (k, no_out)).
Proof. intros keyfn client t k d. cbn [dstep]. now rewrite t_set_same. Qed.
Print Assumptions C17_disconnect_forgets.

Theorem C17_nothing_delivered_after_close : forall (keyfn : nat -> list N) (client : bool) s c,
  crecv s = true -> recv keyfn client s c = ROk (s, no_out).
Proof. exact recv_closed. Qed.
Print Assumptions C17_nothing_delivered_after_close.

Theorem C17_nothing_sent_after_close : forall (k4 : nat -> key4) (client : bool) s (text : bool) p,
  csent s = true -> send (keyf k4) client s text p = ROk (s, no_out).
Proof. exact send_closed. Qed.
Print Assumptions C17_nothing_sent_after_close.

(* the decoder never raises and the frame loop never runs out of fuel, whatever bytes arrive in
   whatever state (this is what the header-cut and ping-after-close repairs establish) *)
Theorem C17_never_raises : forall (k4 : nat -> key4) (client : bool) s c,
  exists s' o, recv (keyf k4) client s c = ROk (s', o).
Proof. intros k4 client s c. destruct (recv_masked k4 client s c) as (s' & x & E & _). eauto. Qed.
Print Assumptions C17_never_raises.

(* end to end, endpoint A -> endpoint B: for every sequence of messages written through A's codec
   (client or server, any key source, any state in which A has not sent close) the writes all succeed with one
   frame per message, and those frames, concatenated and cut into reads in any way, are delivered by B's codec
   (client or server, clean state) as exactly those messages, in order; B writes nothing, draws no key, holds
   nothing back.  [send_all] (Proofs/WebSocketE2EP.v) threads [send] through the message list. *)
Theorem C17_end_to_end : forall (ka kb : nat -> key4) (ca cb : bool) (sa : st) (nb : nat)
    (ms : list msg) (chunks : list (list N)),
  csent sa = false -> Forall (fun m => wf_len (snd m)) ms ->
  exists sa' frames,
    send_all (keyf ka) ca sa ms = ROk (sa', frames) /\
    length frames = length ms /\
    (concat chunks = concat frames ->
     recv_all (keyf kb) cb (clean nb) chunks = ROk (clean nb, mkO ms [] 0)).
Proof. exact end_to_end. Qed.
Print Assumptions C17_end_to_end.

(* ... and with A's close after the messages (on_close = the codec's close handler): B delivers the messages, then
   answers the close with exactly one close frame (masked iff B is a client), fires one close event, and delivers
   nothing of whatever follows the close frame *)
Theorem C17_end_to_end_close : forall (ka kb : nat -> key4) (ca cb : bool) (sa : st) (nb : nat)
    (ms : list msg) (junk : list N) (chunks : list (list N)),
  csent sa = false -> Forall (fun m => wf_len (snd m)) ms ->
  exists sa' frames sa'' cf,
    send_all (keyf ka) ca sa ms = ROk (sa', frames) /\
    on_close (keyf ka) ca sa' = ROk (sa'', mkO [] [cf] (if crecv sa then 1 else 0)%nat) /\
    csent sa'' = true /\
    (concat chunks = concat frames ++ cf ++ junk ->
     recv_all (keyf kb) cb (clean nb) chunks =
     ROk (mkS [] (mkP [] None (bump cb nb)) true true,
          mkO ms [rfc_frame true 8 (okey kb cb nb) []] 1)).
Proof. exact end_to_end_close. Qed.
Print Assumptions C17_end_to_end_close.

Definition ex_k4 (n : nat) : key4 := (N.of_nat n + 1, 2, 3, 4).

(* a text message "ab|c|" in three fragments, a ping "P" after the first and a pong after the second,
   followed by a binary message of 126 bytes; client->server frames masked *)
Definition ex_items : list item :=
  [IMsg true (Some (9, 8, 7, 6), [97; 98], [Ping (Some (1, 1, 1, 1)) [80]])
        [(None, [99], [Pong None []]); (Some (0, 0, 0, 255), [], [])];
   IMsg false (None, rep 126 [5], []) []].

(* [rep] (Lib/Obs.v) writes the long payloads of the examples; with these two facts the examples
   about them need not evaluate them *)
Lemma rep_length {A} n (l : list A) : length (rep n l) = (n * length l)%nat.
Proof. induction n as [|n IH]; [reflexivity|]. cbn [rep]. now rewrite app_length, IH. Qed.

Lemma forallb_rep {A} (P : A -> bool) n l : forallb P l = true -> forallb P (rep n l) = true.
Proof. intros H. induction n as [|n IH]; [reflexivity|]. cbn [rep]. now rewrite forallb_app, H, IH. Qed.

Example C17_ex_wf : Forall wf_item ex_items.
Proof. repeat constructor. Qed.

Example C17_ex_bytewise :
  recv_all (keyf ex_k4) false (clean 0) (map (fun b => [b]) (items_bytes ex_items))
  = ROk (clean 0, mkO [(true, [97; 98; 99]); (false, rep 126 [5])] [[138; 1; 80]] 0).
Proof. vm_compute. reflexivity. Qed.

(* a client endpoint answers with a masked pong *)
Example C17_ex_client_pong :
  recv_all (keyf ex_k4) true (clean 0) [[137; 1]; [80]]
  = ROk (clean 1, mkO [] [[138; 129; 1; 2; 3; 4; 81]] 0).
Proof. vm_compute. reflexivity. Qed.

(* the three length encodings, masked, cut inside header / extended length / key *)
Example C17_ex_len16 :
  recv_all (keyf ex_k4) false (clean 0)
    [[130]; [254; 0]; [126; 1; 2]; [3; 4] ++ xor_cycle 1 2 3 4 (rep 126 [7])]
  = ROk (clean 0, mkO [(false, rep 126 [7])] [] 0).
Proof. vm_compute. reflexivity. Qed.

Example C17_ex_len64 :
  match parse_frame (rfc_frame true 2 (Some (1, 2, 3, 4)) (rep 65536 [7]) ++ [1]) with
  | FFrame true 2 p [1] => (N.of_nat (length p) =? 65536) && forallb (N.eqb 7) p
  | _ => false
  end = true
  /\ firstn 10 (rfc_frame true 2 (Some (1, 2, 3, 4)) (rep 65536 [7])) = [130; 255; 0; 0; 0; 0; 0; 1; 0; 0].
Proof.
  (* the payload stays symbolic; the only thing evaluated about it is its length, once: on the digits of
     the literal 65536 ([of_uint_N]) and not by [vm_compute], which counts to 65536 in unary: instant
     here, but the independent checker has no virtual machine and spends half a second on it *)
  assert (L : N.of_nat (length (rep 65536 [7])) = 65536).
  { rewrite rep_length, Nat2N.inj_mul. cbn [Nat.of_num_uint]. rewrite of_uint_N. reflexivity. }
  split.
  - rewrite C17_decode_frame.
    + cbv beta iota. rewrite L, forallb_rep by reflexivity. reflexivity.
    + reflexivity.
    + unfold wf_len. rewrite L. reflexivity.
  - unfold rfc_frame, rfc_tail. rewrite L.
    (* ten header bytes stand in front of the key and the masked payload *)
    generalize (xor_cycle 1 2 3 4 (rep 65536 [7])). intros masked. reflexivity.
Qed.

Example C17_ex_close :
  recv_all (keyf ex_k4) false (clean 0) [[129; 1; 97; 136]; [0; 129; 1; 98]; [129; 1; 99]]
  = ROk (mkS [] (mkP [] None 0) true true, mkO [(true, [97])] [[136; 0]] 1).
Proof. vm_compute. reflexivity. Qed.

Example C17_ex_send :
  send (keyf ex_k4) true (clean 0) true [104; 105] =
  ROk (clean 1, mkO [] [[129; 130; 1; 2; 3; 4; 105; 107]] 0).
Proof. vm_compute. reflexivity. Qed.

(* a client endpoint's close frame is masked with the drawn key; its reply to the peer's close too *)
Example C17_ex_client_close :
  step (keyf ex_k4) true (clean 0) Close =
  ROk (mkS [] (mkP [] None 1) false true, mkO [] [[136; 128; 1; 2; 3; 4]] 0)
  /\ recv_all (keyf ex_k4) true (clean 0) [[136]; [0]] =
     ROk (mkS [] (mkP [] None 1) true true, mkO [] [[136; 128; 1; 2; 3; 4]] 1).
Proof. split; vm_compute; reflexivity. Qed.

(* a state in the middle of things: close already sent, text fragment "ab" pending, first byte of the next
   frame in the buffer; the stream goes on with ping, final continuation "c", then a binary message *)
Definition ex_mid : st := mkS [137] (mkP [97; 98] (Some 1) 3) false true.
Definition ex_more : list frag := [(None, [99], [])].
Example C17_ex_any_state :
  crecv ex_mid = false /\ stream_ok (ps ex_mid) ex_more /\ Forall wf_frag ex_more
  /\ recv_all (keyf ex_k4) false ex_mid [[1]; [80; 128; 1]; [99; 130; 1; 7]] =
     ROk (mkS [] (mkP [] None 3) false true, mkO [(true, [97; 98; 99]); (false, [7])] [] 0).
Proof. split; [reflexivity|]. split; [exists 1; reflexivity|]. split; [repeat constructor|]. reflexivity. Qed.

(* the 101 response cut inside its CRLF CRLF, a text message "hi" right behind it, cut again *)
Example C17_ex_upgrade :
  cread_all (keyf ex_k4) true (CHandshake [])
    [[72; 84; 84; 80; 13; 10; 65; 58; 66; 13]; [10; 13]; [10; 129; 2; 104]; [105]]
  = ROk (COpen (clean 0), mkO [(true, [104; 105])] [] 0).
Proof. vm_compute. reflexivity. Qed.

Example C17_ex_dispatcher :
  match drun (keyf ex_k4) false (t_empty) [DRead 1 [129; 1; 97]; DUpgrade 1; DUpgrade 2; DRead 1 [129]; DRead 2 [129; 1; 98];
                                 DRead 1 [1; 99]; DDisconnect 1; DRead 1 [129; 1; 100]] with
  | ROk (_, xs) => map (fun x => (fst x, delivered (snd x))) xs
  | _ => []
  end = [(1%nat, []); (1%nat, []); (2%nat, []); (1%nat, []); (2%nat, [(true, [98])]); (1%nat, [(true, [99])]); (1%nat, []); (1%nat, [])].
Proof. vm_compute. reflexivity. Qed.

(* end to end: a client writes "hi" (text) and a 126-byte binary message; the server reads the bytes one at a time *)
Example C17_ex_end_to_end :
  match send_all (keyf ex_k4) true (clean 0) [(true, [104; 105]); (false, rep 126 [7])] with
  | ROk (sa, frames) =>
      nk (ps sa) = 2%nat /\
      recv_all (keyf ex_k4) false (clean 5) (map (fun b => [b]) (concat frames))
      = ROk (clean 5, mkO [(true, [104; 105]); (false, rep 126 [7])] [] 0)
  | _ => False
  end.
Proof. vm_compute. split; reflexivity. Qed.
