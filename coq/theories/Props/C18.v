(* C18 — Line protocol is segmentation-invariant; IRC messages are exactly one line.
   The statements; the theory behind them is in Proofs/LineP.v, Proofs/IrcP.v and Proofs/IrcRoundP.v. *)
From Coq Require Import List NArith.
From Circ Require Import Model.Line Model.Irc Proofs.LineP Proofs.IrcP Proofs.IrcRoundP.
Import ListNotations.
Open Scope N_scope.

(* every cut of a byte stream into reads yields the lines of the whole stream;
   the unterminated tail is held *)
Theorem C18_lines : forall chunks : list (list N),
  run [] chunks = (removelast (resplit (concat chunks)), last (resplit (concat chunks)) []).
Proof. exact lines_segmentation. Qed.
Print Assumptions C18_lines.

Theorem C18_lines_cut_independent : forall cs1 cs2 : list (list N),
  concat cs1 = concat cs2 -> run [] cs1 = run [] cs2.
Proof. intros cs1 cs2 H. now rewrite !lines_segmentation, H. Qed.
Print Assumptions C18_lines_cut_independent.

(* independent description of "the lines contained in the stream":
   line_1 t_1 ... line_n t_n tail, t_i in {LF, CRLF} *)
Theorem C18_lines_exact : forall ls tail chunks, wf_lines ls -> noLF tail ->
  concat chunks = join_lines ls tail -> run [] chunks = (map fst ls, tail).
Proof. exact lines_exact. Qed.
Print Assumptions C18_lines_exact.

(* the independent description is total and unambiguous: every stream has
   exactly one well-formed description, so C18_lines_exact speaks about every
   stream ... *)
Theorem C18_stream_decomposes : forall s : list N,
  exists ls tail, wf_lines ls /\ noLF tail /\ s = join_lines ls tail.
Proof. exact stream_decomposes. Qed.
Print Assumptions C18_stream_decomposes.

Theorem C18_decomposition_unique : forall ls1 t1 ls2 t2,
  wf_lines ls1 -> noLF t1 -> wf_lines ls2 -> noLF t2 ->
  join_lines ls1 t1 = join_lines ls2 t2 -> map fst ls1 = map fst ls2 /\ t1 = t2.
Proof. intros ls1 t1 ls2 t2 W1 T1 W2 T2 E. apply app_inj_tail. now rewrite <- !resplit_description, E. Qed.
Print Assumptions C18_decomposition_unique.

(* ... and conservation: for every cut of every stream, the emitted lines, each
   followed by the terminator it had, followed by the held tail, are exactly
   the bytes received (no byte lost, invented or reordered) *)
Theorem C18_lines_conserve : forall chunks : list (list N),
  exists ls tail, wf_lines ls /\ noLF tail /\
    run [] chunks = (map fst ls, tail) /\ concat chunks = join_lines ls tail.
Proof. exact lines_conserve. Qed.
Print Assumptions C18_lines_conserve.

(* server mode: the lines and held tail of socket k depend only on k's reads *)
Theorem C18_isolation : forall k evs,
  (projl k (fst (run_srv empty_bufs evs)), snd (run_srv empty_bufs evs) k) = run [] (proj k evs).
Proof. exact server_isolation. Qed.
Print Assumptions C18_isolation.

(* ... and per-socket conservation under every interleaving of sockets *)
Theorem C18_server_conserve : forall (k : nat) (evs : list (nat * list N)),
  exists ls tail, wf_lines ls /\ noLF tail /\
    projl k (fst (run_srv empty_bufs evs)) = map fst ls /\
    snd (run_srv empty_bufs evs) k = tail /\
    concat (proj k evs) = join_lines ls tail.
Proof.
  intros k evs. destruct (lines_conserve (proj k evs)) as (ls & tail & W & T & R & E).
  apply server_run in R as [R1 R2]. now exists ls, tail.
Qed.
Print Assumptions C18_server_conserve.

(* every accepted IRC message is exactly one CRLF-terminated line without CR, LF, NUL inside *)
Theorem C18_one_line : forall m b, to_str m = Some b ->
  exists body, b = body ++ [13; 10] /\ clean body.
Proof. exact one_line. Qed.
Print Assumptions C18_one_line.

Theorem C18_one_line_protocol : forall m b, to_str m = Some b ->
  exists body, run [] [b] = ([body], []) /\ b = body ++ [13; 10].
Proof.
  intros m b H. destruct (message_stream [m] [b] [b]) as (bodies & R & HB); [now constructor|reflexivity|].
  inversion HB as [|? body ? r [-> _] Hr]; subst. inversion Hr; subst. now exists body.
Qed.
Print Assumptions C18_one_line_protocol.

(* a stream of any number of accepted messages, cut into reads in any way, is
   received as exactly one line per message, in order, nothing held back *)
Theorem C18_message_stream : forall (ms : list msg) (bs chunks : list (list N)),
  Forall2 (fun m b => to_str m = Some b) ms bs ->
  concat chunks = concat bs ->
  exists bodies, run [] chunks = (bodies, []) /\
                 Forall2 (fun b body => b = body ++ [13; 10] /\ clean body) bs bodies.
Proof. exact message_stream. Qed.
Print Assumptions C18_message_stream.

(* ... and in server mode for the messages arriving on one socket, whatever the other sockets receive in between *)
Theorem C18_server_message_stream : forall (k : nat) (evs : list (nat * list N)) (ms : list msg) (bs : list (list N)),
  Forall2 (fun m b => to_str m = Some b) ms bs ->
  concat (proj k evs) = concat bs ->
  exists bodies, projl k (fst (run_srv empty_bufs evs)) = bodies /\
                 snd (run_srv empty_bufs evs) k = [] /\
                 Forall2 (fun b body => b = body ++ [13; 10] /\ clean body) bs bodies.
Proof.
  intros k evs ms bs H E. destruct (message_stream ms bs (proj k evs) H E) as (bodies & R & HB).
  apply server_run in R as [R1 R2]. now exists bodies.
Qed.
Print Assumptions C18_server_message_stream.

Example C18_ex_stream :
  run [] [[49; 13]; [10; 50; 10; 13]; [51]] = ([[49]; [50]], [13; 51]).
Proof. vm_compute. reflexivity. Qed.
Example C18_ex_msg :
  to_str {| command := [80; 73]; prefix := Some [97]; args := [[120]; [104; 32; 105]] |}
  = Some [58; 97; 32; 80; 73; 32; 120; 32; 58; 104; 32; 105; 13; 10].
Proof. vm_compute. reflexivity. Qed.

(* round trip, partial: parsemsg inverts to_str on canonical messages, i.e. the
   command and every argument but the last are tokens (non-empty, no whitespace,
   no leading ':'), and the last argument is a token or contains a space and
   does not start with ':' *)
Theorem C18_roundtrip_partial : forall m b, to_str m = Some b -> canonical m ->
  exists body, b = body ++ [13; 10] /\
    parsemsg body = POk (match prefix m with Some p => p | None => [] end)
                        (Some (command m)) (args m).
Proof. exact roundtrip. Qed.
Print Assumptions C18_roundtrip_partial.

(* ... and not in general: to_str accepts a final argument that starts with ':' and emits it
   unchanged; parsemsg re-reads it as a trailing parameter and drops the colon
   (PRIVMSG a :x  ->  args ["a"; "x"]) *)
Theorem C18_roundtrip_refuted : exists m b body,
  to_str m = Some b /\ b = body ++ [13; 10] /\
  parsemsg body <> POk (match prefix m with Some p => p | None => [] end)
                       (Some (command m)) (args m).
Proof.
  exists {| command := [80; 82; 73; 86; 77; 83; 71]; prefix := None; args := [[97]; [58; 120]] |}.
  exists [80; 82; 73; 86; 77; 83; 71; 32; 97; 32; 58; 120; 13; 10].
  exists [80; 82; 73; 86; 77; 83; 71; 32; 97; 32; 58; 120].
  split; [vm_compute; reflexivity|]. split; [reflexivity|]. vm_compute. discriminate.
Qed.
Print Assumptions C18_roundtrip_refuted.

(* non-vacuity of canonical:  ":nick PRIVMSG #c x :h i" *)
Example C18_ex_canonical :
  canonical {| command := [80; 82; 73; 86; 77; 83; 71]; prefix := Some [110; 105; 99; 107];
               args := [[35; 99]; [120]; [104; 32; 105]] |}.
Proof.
  split; [|split; [right; split; reflexivity|]];
    repeat first [ constructor | discriminate | reflexivity ].
Qed.
Example C18_ex_roundtrip :
  parsemsg [58; 110; 105; 99; 107; 32; 80; 82; 73; 86; 77; 83; 71; 32; 35; 99; 32; 120;
            32; 58; 104; 32; 105]
  = POk [110; 105; 99; 107] (Some [80; 82; 73; 86; 77; 83; 71]) [[35; 99]; [120]; [104; 32; 105]].
Proof. vm_compute. reflexivity. Qed.
