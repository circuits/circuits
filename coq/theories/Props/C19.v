(* C19 — node: remote events run once and return their result; peers cannot harm the loop.
   Statements, and the corollaries that take a few lines; the proofs live in Proofs/NodeProtoP.v,
   Proofs/NodeEndToEndP.v and Proofs/NodeHubP.v.  The model (Model/NodeProto.v) is the
   code after fixes/C19_1..6, C19_remote_error and C19_result_to_caller_only; json.dumps / json.loads
   are oracles whose laws appear as premises. *)
From Coq Require Import List ZArith Bool.
From Circ Require Import Model.NodeProto Proofs.NodeProtoP Proofs.NodeEndToEndP Proofs.NodeHubP.
Import ListNotations.

(* framing: every cut of the stream of packets into reads yields exactly the packets sent, in
   order, each once, nothing held back.  Premises = what is needed from the serialiser:
   loads (text p) = p; the text contains no delimiter byte (dump_* escape '~', see C19_escape);
   no proper prefix of a text parses; a text followed by part of the delimiter does not parse;
   a proper prefix of the delimiter does not parse.  [ok] = the packets honest peers send (JSON
   objects: for a top-level number a proper prefix does parse). *)
Theorem C19_framing :
  forall (P : Type) (parse : list N -> option P) (enc : P -> list N) (d0 : N) (dr : list N) (ok : P -> Prop),
  (forall p, ok p -> parse (enc p) = Some p) ->
  (forall p, ok p -> ~ In d0 (enc p)) ->
  (forall p q r, ok p -> enc p = q ++ r -> r <> [] -> parse q = None) ->
  (forall p t t', ok p -> d0 :: dr = t ++ t' -> t <> [] -> t' <> [] -> parse (enc p ++ t) = None) ->
  (forall t t', d0 :: dr = t ++ t' -> t' <> [] -> parse t = None) ->
  forall (ps : list P) (chunks : list (list N)), Forall ok ps ->
    concat chunks = frames P (d0 :: dr) enc ps -> run P parse (d0 :: dr) [] chunks = (ps, []).
Proof. exact framing. Qed.
Print Assumptions C19_framing.

Theorem C19_framing_cut_independent :
  forall (P : Type) (parse : list N -> option P) (enc : P -> list N) (d0 : N) (dr : list N) (ok : P -> Prop),
  (forall p, ok p -> parse (enc p) = Some p) ->
  (forall p, ok p -> ~ In d0 (enc p)) ->
  (forall p q r, ok p -> enc p = q ++ r -> r <> [] -> parse q = None) ->
  (forall p t t', ok p -> d0 :: dr = t ++ t' -> t <> [] -> t' <> [] -> parse (enc p ++ t) = None) ->
  (forall t t', d0 :: dr = t ++ t' -> t' <> [] -> parse t = None) ->
  forall ps cs1 cs2, Forall ok ps ->
    concat cs1 = frames P (d0 :: dr) enc ps -> concat cs2 = frames P (d0 :: dr) enc ps ->
    run P parse (d0 :: dr) [] cs1 = run P parse (d0 :: dr) [] cs2.
Proof.
  intros P parse enc d0 dr ok A B C D E ps cs1 cs2 Hok H1 H2.
  rewrite !(C19_framing P parse enc d0 dr ok A B C D E ps) by assumption. reflexivity.
Qed.
Print Assumptions C19_framing_cut_independent.

(* the premises are satisfiable: a two-packet toy codec *)
Example C19_framing_instance : forall ps cs,
  concat cs = frames bool (Toy.d0 :: Toy.dr) Toy.enc ps ->
  run bool Toy.parse (Toy.d0 :: Toy.dr) [] cs = (ps, []).
Proof.
  intros ps cs H.
  apply (C19_framing bool Toy.parse Toy.enc Toy.d0 Toy.dr (fun _ => True) (fun p _ => Toy.Hrt p)
           (fun p _ => Toy.Hclean p) (fun p q r _ => Toy.Hpre p q r) (fun p t t' _ => Toy.Hext p t t') Toy.Hdel ps cs);
    [|exact H].
  apply Forall_forall. intros; exact I.
Qed.
Example C19_framing_run :
  run bool Toy.parse [126; 126; 126]%N [] [[49; 126]%N; [126]%N; [126; 48]%N; []; [48; 126; 126; 126; 49]%N; [126; 126; 126]%N]
  = ([true; false; true], []).
Proof. vm_compute. reflexivity. Qed.

(* the serialised text never contains a delimiter byte, whatever json.dumps returned *)
Theorem C19_escape : forall s, ~ In TILDE (escape s).
Proof. exact escape_no_tilde. Qed.
Print Assumptions C19_escape.

(* serialisation: load_event (dump_event e id) = e on name, args, kwargs, flags, channels, id;
   attributes outside META_EXCLUDE (and not __x) are carried over, the others are dropped *)
Theorem C19_serial : forall excl e id, wf_event e ->
  load_event excl (event_data excl e id) =
  Some ({| ename := ename e; eargs := eargs e; ekwargs := ekwargs e; esuccess := esuccess e;
           efailure := efailure e; enotify := enotify e; echannels := echannels e;
           eattrs := apply_meta excl (dump_meta_ev excl e) [] |}, id).
Proof. exact serial. Qed.
Print Assumptions C19_serial.

Theorem C19_serial_attrs : forall excl e k, NoDup (map fst (eattrs e)) ->
  get k (apply_meta excl (dump_meta_ev excl e) []) = if allowed excl k then get k (eattrs e) else None.
Proof.
  intros excl e k Hnd. destruct (allowed excl k) eqn:Hk.
  - rewrite apply_meta_get; [|apply NoDup_map_filter; exact Hnd|exact Hk].
    unfold dump_meta_ev. rewrite (get_filter (fun k => negb (mem_str k excl))).
    unfold allowed in Hk. apply andb_true_iff in Hk. destruct Hk as [_ Hk]. rewrite Hk.
    destruct (get k (eattrs e)); reflexivity.
  - apply apply_meta_blocked. exact Hk.
Qed.
Print Assumptions C19_serial_attrs.

Example C19_serial_ex : wf_event Ex.e0 /\ NoDup (map fst (eattrs Ex.e0)).
Proof. exact Ex.e0_wf. Qed.

(* hostile metadata: for EVERY JSON value a peer sends as a call, the event handed to the
   dispatcher has no attribute named in META_EXCLUDE or starting with "__", and hashable channels *)
Theorem C19_meta_safe : forall excl data e id, load_event excl data = Some (e, id) ->
  (forall k, allowed excl k = false -> get k (eattrs e) = None) /\ forallb hashable (echannels e) = true.
Proof.
  intros excl data e id H.
  destruct (load_event_inv excl data e id H) as (o & s & f & n & meta & _ & _ & _ & _ & _ & _ & _ & Ha & Hh).
  split; [|exact Hh]. intros k Hk. rewrite Ha. apply (apply_meta_blocked excl k meta [] Hk).
Qed.
Print Assumptions C19_meta_safe.

(* the flags success / failure / notify of the loaded event are booleans - bool() of whatever JSON value the
   peer sent (a string in notify would otherwise become the name of an event class inside Value.inform, which
   runs outside the dispatcher's try) *)
Theorem C19_flags_bool : forall excl data e id, load_event excl data = Some (e, id) ->
  exists o s f n, data = JObj o /\ get k_success o = Some s /\ get k_failure o = Some f /\
                  get k_notify o = Some n /\
                  esuccess e = truthy s /\ efailure e = truthy f /\ enotify e = truthy n.
Proof.
  intros excl data e id H.
  destruct (load_event_inv excl data e id H) as (o & s & f & n & meta & H0 & H1 & H2 & H3 & H4 & H5 & H6 & _).
  exists o, s, f, n. repeat split; assumption.
Qed.
Print Assumptions C19_flags_bool.

(* ... hence what _dispatcher/_eventDone read from it cannot make them raise (model: dispatch_safe) *)
Theorem C19_loop_survives : forall excl data e id, load_event excl data = Some (e, id) ->
  mem_str k_cause excl = true -> dispatch_safe e = true.
Proof.
  intros excl data e id H Hc. destruct (C19_meta_safe excl data e id H) as [Ha Hh].
  unfold dispatch_safe. rewrite Hh, (Ha k_cause (blocked_of_excl excl _ Hc)). reflexivity.
Qed.
Print Assumptions C19_loop_survives.

(* the same for the metadata of a value packet, which is set on the sender's waiting event *)
Theorem C19_value_meta_safe : forall excl o v id er meta, load_value excl o = LvOk v id er meta ->
  forall k, allowed excl k = false -> get k meta = None.
Proof. exact load_value_safe. Qed.
Print Assumptions C19_value_meta_safe.

(* firewalls, for every predicate *)
Theorem C19_firewall_recv : forall excl dumps D fw_recv handler b_chan j e id,
  load_event excl j = Some (e, id) -> fw_recv e = false ->
  dispatched (b_packet excl dumps D fw_recv handler b_chan j) = [].
Proof.
  intros excl dumps D fw_recv handler b_chan j e id Hl Hf.
  rewrite dispatched_b_packet, Hl, Hf. cbn [negb]. rewrite orb_true_r. reflexivity.
Qed.
Print Assumptions C19_firewall_recv.

Theorem C19_firewall_send : forall excl dumps D fw_send s e m, fw_send e = false ->
  wab (a_send excl dumps D fw_send s e m) = wab s /\ a_nid (a_send excl dumps D fw_send s e m) = a_nid s
  /\ a_pend (a_send excl dumps D fw_send s e m) = a_pend s
  /\ a_issued (a_send excl dumps D fw_send s e m) = a_issued s.
Proof. intros excl dumps D fw_send s e m H. unfold a_send. rewrite H. simpl. auto. Qed.
Print Assumptions C19_firewall_send.

(* ids: a send that passes the firewall - with result (MCall) or without (node_without_result set,
   Server.send(no_result=True), send_to, send_all) - writes the call with the current id, records the id as
   handed to the peer (ghost list a_issued) and advances the counter; only a send with result registers a
   waiting call *)
Theorem C19_send_id : forall excl dumps D fw_send s e m b, fw_send e = true ->
  packet dumps D (event_data excl e (JInt (a_nid s))) = Some b ->
  wab (a_send excl dumps D fw_send s e m) = wab s ++ b
  /\ a_issued (a_send excl dumps D fw_send s e m) = a_issued s ++ [a_nid s]
  /\ a_nid (a_send excl dumps D fw_send s e m) = (a_nid s + 1)%Z
  /\ a_pend (a_send excl dumps D fw_send s e m) =
     match m with MCall => a_pend s ++ [(a_nid s, length (a_calls s))] | _ => a_pend s end
  /\ a_nores (a_send excl dumps D fw_send s e m) =
     match m with MCall => a_nores s | _ => a_nores s ++ [a_nid s] end.
Proof. intros excl dumps D fw_send s e m b Hf Hp. unfold a_send. rewrite Hf, Hp. simpl. auto. Qed.
Print Assumptions C19_send_id.

(* once: any packet dispatches at most one event; an honest call that passes the firewall and
   has a handler is dispatched exactly once, as the event that was sent *)
Theorem C19_at_most_once : forall excl dumps D fw_recv handler b_chan j,
  length (dispatched (b_packet excl dumps D fw_recv handler b_chan j)) <= 1.
Proof.
  intros excl dumps D fw_recv handler b_chan j. rewrite dispatched_b_packet.
  destruct (load_event excl j) as [[e id]|]; [|apply Nat.le_0_l].
  destruct (_ || _ || _); [apply Nat.le_0_l|]. destruct (handler _); [apply Nat.le_0_l|apply Nat.le_refl..].
Qed.
Print Assumptions C19_at_most_once.

Theorem C19_once : forall excl dumps D fw_recv handler b_chan e id, wf_event e ->
  let e1 := {| ename := ename e; eargs := eargs e; ekwargs := ekwargs e; esuccess := esuccess e;
               efailure := efailure e; enotify := enotify e; echannels := echannels e;
               eattrs := apply_meta excl (dump_meta_ev excl e) [] |} in
  let e2 := {| ename := ename e; eargs := eargs e; ekwargs := ekwargs e; esuccess := true;
               efailure := efailure e; enotify := enotify e;
               echannels := match echannels e with [] => [b_chan] | l => l end;
               eattrs := apply_meta excl (dump_meta_ev excl e) [] |} in
  is_miss (event_data excl e id) = false -> fw_recv e1 = true -> handler e2 <> HNone ->
  dispatched (b_packet excl dumps D fw_recv handler b_chan (event_data excl e id)) = [e2].
Proof.
  intros excl dumps D fw_recv handler b_chan e id Hwf e1 e2 _ Hf Hh.
  rewrite dispatched_b_packet, (serial excl e id Hwf). fold e1. rewrite Hf.
  change (accepted b_chan e1) with e2. destruct (handler e2); [destruct Hh; reflexivity|reflexivity..].
Qed.
Print Assumptions C19_once.

(* the answer carrying id [id] is stored in the waiting call registered under [id], and only there *)
Theorem C19_result_routing : forall excl pend calls id i v er e,
  zget id pend = Some i -> is_miss (value_data excl (JInt id) er v e) = false ->
  a_packet excl pend calls (value_data excl (JInt id) er v e) =
  (upd i (fun c => set_value c v er (filter (fun p => allowed excl (fst p)) (dump_meta excl e))) calls,
   false, false).
Proof. intros excl pend calls id i v er e Hz _. rewrite a_packet_value, Hz. reflexivity. Qed.
Print Assumptions C19_result_routing.

(* a reply whose id is not registered - in particular the reply the peer sends to an event that was sent
   without result - resumes nobody and changes no waiting call *)
Theorem C19_unregistered_reply_ignored : forall excl pend calls id v er e,
  zget id pend = None -> is_miss (value_data excl (JInt id) er v e) = false ->
  a_packet excl pend calls (value_data excl (JInt id) er v e) = (calls, false, false).
Proof. intros excl pend calls id v er e Hz _. rewrite a_packet_value, Hz. reflexivity. Qed.
Print Assumptions C19_unregistered_reply_ignored.

(* after every schedule of sends (with and without result), injected (hostile) bytes and reads of any
   size: no id handed to the peer is ever reused; the ids of the waiting calls are among them and pairwise
   distinct; the id of a send without result is never the id of a waiting call (so its reply, whenever it
   arrives, is ignored by C19_unregistered_reply_ignored) *)
Theorem C19_ids_unique : forall excl dumps loads D fw_send fw_recv handler b_chan ops,
  let s := exec excl dumps loads D fw_send fw_recv handler b_chan ops in
  NoDup (a_issued s) /\ NoDup (map fst (a_pend s)) /\
  (forall x, In x (map fst (a_pend s)) -> In x (a_issued s)) /\
  (forall x, In x (a_nores s) -> In x (a_issued s) /\ zget x (a_pend s) = None).
Proof.
  intros excl dumps loads D fw_send fw_recv handler b_chan ops s.
  destruct (exec_ids excl dumps loads D fw_send fw_recv handler b_chan ops) as (H1 & _ & H3 & H4 & H5).
  fold s in H1, H3, H4, H5. split; [exact H1|]. split; [exact H3|]. split.
  - intros x Hx. apply (H4 x Hx).
  - intros x Hx. split; [apply (H5 x Hx)|].
    apply zget_notin. intros Hi. exact (proj2 (H4 x Hi) Hx).
Qed.
Print Assumptions C19_ids_unique.

Example C19_noresult_ex : forall m, In m [MNoResAttr; MNoResApi] ->
  length (b_log (Ex.final_nores m)) = 1%nat /\ map c_fin (a_calls (Ex.final_nores m)) = [false; false]
  /\ a_issued (Ex.final_nores m) = [0; 1]%Z /\ a_nores (Ex.final_nores m) = [0%Z]
  /\ map fst (a_pend (Ex.final_nores m)) = [1%Z].
Proof. intros m H. simpl in H. repeat (destruct H as [<-|H]; [vm_compute; auto|]). contradiction. Qed.

(* end to end on one concrete exchange (non-vacuity of the protocol model): the call is cut at
   byte 0..3, dispatched once, and its result reaches the sender *)
Example C19_roundtrip_ex : forall cut, In cut [0; 1; 2; 3]%nat ->
  map c_val (a_calls (Ex.final (fun _ => HVal Ex.result) cut)) = [Ex.result]
  /\ map c_fin (a_calls (Ex.final (fun _ => HVal Ex.result) cut)) = [true]
  /\ length (b_log (Ex.final (fun _ => HVal Ex.result) cut)) = 1%nat.
Proof. exact Ex.roundtrip. Qed.

(* END TO END.  The two-party system [exec] (caller protocol, callee protocol, the two byte channels with
   what has been written and not yet read, the callee's handler) under ANY honest schedule: sends in any
   mode (MCall / node_without_result set / Server.send(no_result=True), send_to, send_all) interleaved in
   any way with reads of ANY size on either channel (OAB n / OBA n / one packet).  Premise: the json laws
   (record json_laws: dumps total with text [ser j]; for JSON objects loads(escape(ser j)) = j, no proper
   prefix parses, text + partial delimiter does not parse; a partial delimiter does not parse) - the same
   laws as the premises of C19_framing.  If at the end both channels are empty (everything written was
   delivered), then
   - the callee dispatched, in order, exactly [logof e] for every send e that passed the send firewall:
     [ev2 e] (the event that was sent; success set, default channel filled in) exactly once if it passes
     the receive firewall and has a handler, nothing otherwise - whatever the mode (fire-and-forget
     sends run once), and nothing for sends rejected by the send firewall (they produced no bytes);
   - the caller's entry of every send is exactly [exp1]: for an accepted call whose handler returns r:
     finished with value r (that event's result and nothing else); a handler raises: finished with the
     error flag and the error marker; rejected by the receive firewall / no handler: finished with null; sends without result: never resumed; rejected by the send firewall: the rejection marker;
   - both protocol buffers are empty and the model never left its domain. *)
Theorem C19_end_to_end :
  forall excl dumps loads fw_send fw_recv handler b_chan ser, json_laws dumps loads ser ->
  forall ops, Forall honest_op ops ->
  let s := exec excl dumps loads DELIM fw_send fw_recv handler b_chan ops in
  wab s = [] -> wba s = [] ->
  b_log s = flat_map (logof excl fw_recv handler b_chan) (filter fw_send (map fst (sends_of ops)))
  /\ a_calls s = map (exp1 excl fw_send fw_recv handler b_chan) (sends_of ops)
  /\ a_buf s = [] /\ b_buf s = [] /\ bad s = false.
Proof. exact end_to_end. Qed.
Print Assumptions C19_end_to_end.

(* an honest schedule that ends with empty channels (toy oracles; the json laws themselves are not
   instantiated in Coq - see notes: the same-shaped premises of C19_framing are, by the Toy codec) *)
Example C19_e2e_schedule_ex :
  Forall honest_op [OSend Ex.e0 MCall; OAB 2; OAB 0; OBA 2; OBA 0]
  /\ wab (Ex.final (fun _ => HVal Ex.result) 2) = []
  /\ wba (Ex.final (fun _ => HVal Ex.result) 2) = [].
Proof.
  split; [|vm_compute; auto].
  constructor; [exact (proj1 Ex.e0_wf)|]. repeat constructor.
Qed.

(* how to read exp1 / logof.  An accepted call is always finished, with the peer's answer for its own event:
   the handler's value (C19_e2e_value), null (C19_e2e_null: rejected by the receive firewall, or no handler),
   or - when a handler raised, at once or after a yield - the error marker together with the error flag
   (C19_e2e_error; before fixes/C19_remote_error.patch the sender was never resumed) *)
Theorem C19_e2e_call : forall excl fw_send fw_recv handler b_chan e, fw_send e = true ->
  exp1 excl fw_send fw_recv handler b_chan (e, MCall) = final excl fw_recv handler b_chan e
  /\ c_fin (final excl fw_recv handler b_chan e) = true
  /\ c_val (final excl fw_recv handler b_chan e) = oval excl fw_recv handler b_chan e.
Proof. intros excl fw_send fw_recv handler b_chan e Hf. unfold exp1. rewrite Hf. auto. Qed.
Print Assumptions C19_e2e_call.
Theorem C19_e2e_errflag : forall excl fw_recv handler b_chan e,
  get k_errors (meta_of excl e) = None ->
  c_err (final excl fw_recv handler b_chan e) = Some (JBool (oerr excl fw_recv handler b_chan e)).
Proof. intros excl fw_recv handler b_chan e H. unfold final, set_value. cbn [c_err]. rewrite H. reflexivity. Qed.
Print Assumptions C19_e2e_errflag.
Theorem C19_e2e_value : forall excl fw_recv handler b_chan e r,
  fw_recv (ev1 excl e) = true ->
  handler (ev2 excl b_chan e) = HVal r \/ handler (ev2 excl b_chan e) = HValLate r ->
  oval excl fw_recv handler b_chan e = r /\ oerr excl fw_recv handler b_chan e = false.
Proof. intros excl fw_recv handler b_chan e r Hf [Hh|Hh]; unfold oval, oerr; rewrite Hf, Hh; auto. Qed.
Print Assumptions C19_e2e_value.
Theorem C19_e2e_error : forall excl fw_recv handler b_chan e late,
  fw_recv (ev1 excl e) = true -> handler (ev2 excl b_chan e) = HRaise late ->
  oval excl fw_recv handler b_chan e = JERR /\ oerr excl fw_recv handler b_chan e = true.
Proof. intros excl fw_recv handler b_chan e late Hf Hh. unfold oval, oerr. rewrite Hf, Hh. auto. Qed.
Print Assumptions C19_e2e_error.
Theorem C19_e2e_null : forall excl fw_recv handler b_chan e,
  fw_recv (ev1 excl e) = false \/ handler (ev2 excl b_chan e) = HNone ->
  oval excl fw_recv handler b_chan e = JNull /\ oerr excl fw_recv handler b_chan e = false.
Proof.
  intros excl fw_recv handler b_chan e [Hf|Hh]; unfold oval, oerr; [rewrite Hf; auto|].
  destruct (fw_recv (ev1 excl e)); [rewrite Hh|]; auto.
Qed.
Print Assumptions C19_e2e_null.
Theorem C19_e2e_noresult : forall excl fw_send fw_recv handler b_chan e m,
  fw_send e = true -> m <> MCall -> exp1 excl fw_send fw_recv handler b_chan (e, m) = call0.
Proof.
  intros excl fw_send fw_recv handler b_chan e m Hf Hm. unfold exp1. rewrite Hf.
  destruct m; [congruence|reflexivity|reflexivity].
Qed.
Print Assumptions C19_e2e_noresult.
Theorem C19_e2e_rejected : forall excl fw_send fw_recv handler b_chan e m,
  fw_send e = false -> exp1 excl fw_send fw_recv handler b_chan (e, m) = rej_call m.
Proof. intros excl fw_send fw_recv handler b_chan e m Hf. unfold exp1. rewrite Hf. reflexivity. Qed.
Print Assumptions C19_e2e_rejected.
Theorem C19_e2e_dispatched : forall excl fw_recv handler b_chan e,
  fw_recv (ev1 excl e) = true -> handler (ev2 excl b_chan e) <> HNone ->
  logof excl fw_recv handler b_chan e = [ev2 excl b_chan e].
Proof.
  intros excl fw_recv handler b_chan e Hf Hh. unfold logof. rewrite Hf.
  destruct (handler (ev2 excl b_chan e)); [congruence|reflexivity|reflexivity|reflexivity].
Qed.
Print Assumptions C19_e2e_dispatched.
Theorem C19_e2e_blocked : forall excl fw_recv handler b_chan e, fw_recv (ev1 excl e) = false ->
  logof excl fw_recv handler b_chan e = [].
Proof. intros excl fw_recv handler b_chan e Hf. unfold logof. rewrite Hf. reflexivity. Qed.
Print Assumptions C19_e2e_blocked.

(* a raising handler (at once / after a yield), one concrete exchange cut at byte 0 or 2: dispatched once,
   the caller is finished with the error flag and the error marker *)
Example C19_error_returns_ex : forall late cut, In cut [0; 2]%nat ->
  length (b_log (Ex.final_err late cut)) = 1%nat
  /\ map c_fin (a_calls (Ex.final_err late cut)) = [true]
  /\ map c_err (a_calls (Ex.final_err late cut)) = [Some (JBool true)]
  /\ map c_val (a_calls (Ex.final_err late cut)) = [JERR].
Proof.
  intros late cut H. simpl in H.
  destruct late; repeat (destruct H as [<-|H]; [vm_compute; auto|]); contradiction.
Qed.

(* SEVERAL CONNECTIONS on one called side (a Server with several clients, a Node with several peers).
   Hub model (Model/NodeProto.v, Section Hub): a map connection id -> single-connection state; every step
   (a send of the connection's caller, a read of either end) is tagged with its connection; [legacy = false] is
   the code after fix 8ca1bbb, where the <name>_success / <name>_complete notification of a remote event is
   addressed to the Protocol of the connection the call came from; [legacy = true] is the code before it
   (notification on the shared channel: every Protocol of the process writes the answer on its connection). *)

(* (1) frame: a step on connection c is the single-connection step on c's state and leaves every other
   connection - its state, both wires, its dispatch log, its calls - unchanged *)
Theorem C19_hub_step_own : forall excl dumps loads D fw_send fw_recv handler b_chan n legacy h c o,
  hstep excl dumps loads D fw_send fw_recv handler b_chan n legacy h (c, o) c
  = step excl dumps loads D fw_send fw_recv handler (b_chan c) (h c) o.
Proof. exact hstep_own. Qed.
Print Assumptions C19_hub_step_own.

Theorem C19_hub_frame : forall excl dumps loads D fw_send fw_recv handler b_chan n h c o c', c' <> c ->
  hstep excl dumps loads D fw_send fw_recv handler b_chan n false h (c, o) c' = h c'.
Proof. exact hstep_frame. Qed.
Print Assumptions C19_hub_frame.

(* (2) routing: for every schedule over any number of connections, the hub seen on connection c IS the
   single-connection system run on c's own steps - in particular the bytes on c's answer wire, hence every value
   packet written on c answers a call received on c ... *)
Theorem C19_hub_independent : forall excl dumps loads D fw_send fw_recv handler b_chan n sched c,
  hrun excl dumps loads D fw_send fw_recv handler b_chan n false sched c
  = exec excl dumps loads D fw_send fw_recv handler (b_chan c) (ops_of c sched).
Proof. intros. unfold hrun, exec. apply hub_proj. Qed.
Print Assumptions C19_hub_independent.

(* ... and C19_end_to_end holds on every connection, whatever ids are in flight on the others: every sender gets
   the result of its own event *)
Theorem C19_hub_end_to_end :
  forall excl dumps loads fw_send fw_recv handler (b_chan : nat -> json) n ser, json_laws dumps loads ser ->
  forall sched, Forall (fun co => honest_op (snd co)) sched ->
  forall c,
  let s := hrun excl dumps loads DELIM fw_send fw_recv handler b_chan n false sched c in
  let sends := sends_of (ops_of c sched) in
  wab s = [] -> wba s = [] ->
  b_log s = flat_map (logof excl fw_recv handler (b_chan c)) (filter fw_send (map fst sends))
  /\ a_calls s = map (exp1 excl fw_send fw_recv handler (b_chan c)) sends
  /\ a_buf s = [] /\ b_buf s = [] /\ bad s = false.
Proof.
  intros excl dumps loads fw_send fw_recv handler b_chan n ser L sched H c s sends. subst s sends.
  rewrite C19_hub_independent.
  apply (end_to_end excl dumps loads fw_send fw_recv handler (b_chan c) ser L), honest_ops_of, H.
Qed.
Print Assumptions C19_hub_end_to_end.

(* (3) the behaviour before the fix does NOT have this property: two connections, a call with id 0 in flight on
   both; the sender on connection c asked for event y and is resumed with the result of event x, the call of the
   other connection (corpus/C19/result_to_caller_only.json); the same schedule under the fixed hub gives y *)
Theorem C19_hub_legacy_refuted : exists sched c x y, x <> y
  /\ sends_of (ops_of c sched) = [(HubEx.ev y, MCall)]
  /\ HubEx.handler (HubEx.ev y) = HVal (JStr [y])
  /\ map c_val (a_calls (HubEx.run true 2 sched c)) = [JStr [x]]
  /\ map c_val (a_calls (HubEx.run false 2 sched c)) = [JStr [y]].
Proof.
  exists HubEx.two, 1%nat, 97%N, 98%N.
  split; [discriminate|]. split; [reflexivity|]. split; [reflexivity|].
  split; [exact (proj1 HubEx.legacy_two)|exact (proj2 HubEx.fixed_two)].
Qed.
Print Assumptions C19_hub_legacy_refuted.

(* three connections, equal ids in flight, deliveries interleaved and cut: every sender gets the own result *)
Example C19_hub_three_ex : forall c, In c [0; 1; 2]%nat ->
  map c_val (a_calls (HubEx.run false 3 HubEx.three c)) = [JStr [(97 + N.of_nat c)%N]]
  /\ map c_fin (a_calls (HubEx.run false 3 HubEx.three c)) = [true]
  /\ length (b_log (HubEx.run false 3 HubEx.three c)) = 1%nat
  /\ wab (HubEx.run false 3 HubEx.three c) = [] /\ wba (HubEx.run false 3 HubEx.three c) = [].
Proof. intros c H. simpl in H. repeat (destruct H as [<-|H]; [vm_compute; auto 6|]). contradiction. Qed.
