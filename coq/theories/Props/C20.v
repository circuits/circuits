(* C20 — authentication, session binding and gateway trust are sound.
   The statements; the theory behind them is in Proofs/AuthP.v, Proofs/SessionP.v, Proofs/VHostP.v.
   The models describe /repo with fixes/C20_*.patch applied (see notes/C20.md). *)
From Coq Require Import List NArith.
From Circ Require Import Model.Auth Model.Session Model.VHost Proofs.AuthP Proofs.SessionP Proofs.VHostP.
Import ListNotations.
Open Scope N_scope.

(* For every base64 / utf-8 / md5 / parameter-list oracle, every encrypt callable, every
   Authorization value (or none), method, realm and user table:
   check_auth says "authenticated as u"  iff  the value carries Basic credentials that
   verify against u's entry, or Digest credentials that verify against u's entry for the
   configured realm and the request method.  Every other value gives Refused or Crash. *)
Theorem C20_auth_sound : forall b64 utf8 md5 keqv enc hdr method realm users u,
  check_auth b64 utf8 md5 keqv enc hdr method realm users = Authd u <->
  verifies b64 utf8 md5 keqv enc hdr method realm users u.
Proof. exact auth_sound. Qed.
Print Assumptions C20_auth_sound.

(* tools.basic_auth / tools.digest_auth let the protected handler continue exactly then *)
Theorem C20_protected_served : forall b64 utf8 md5 keqv enc hdr method realm users,
  (protected_served (basic_auth b64 utf8 md5 keqv enc hdr method realm users) = true <->
     exists u, verifies b64 utf8 md5 keqv enc hdr method realm users u)
  /\ (protected_served (digest_auth b64 utf8 md5 keqv hdr method realm users) = true <->
     exists u, verifies b64 utf8 md5 keqv default_enc hdr method realm users u).
Proof. intros. split; apply served_iff. Qed.
Print Assumptions C20_protected_served.

(* a user absent from the table is never authenticated, whatever password is derived *)
Theorem C20_unknown_user_refused : forall b64 utf8 md5 keqv enc hdr method realm users u,
  users u = None -> check_auth b64 utf8 md5 keqv enc hdr method realm users <> Authd u.
Proof.
  intros b64 utf8 md5 keqv enc hdr method realm users u L H.
  apply authenticated_in_table in H as [e H]. congruence.
Qed.
Print Assumptions C20_unknown_user_refused.

(* a Digest value whose parameters do not validate (missing field, qop without nc/cnonce, ...)
   is refused with request.login = False *)
Theorem C20_malformed_digest_refused :
  forall b64 utf8 md5 keqv enc cred scheme rest ps method realm users,
  split_at SP cred = Some (scheme, rest) -> lower scheme = s_digest ->
  keqv rest = Some ps -> digest_valid ps = false ->
  check_auth b64 utf8 md5 keqv enc (Some cred) method realm users = Refused true.
Proof.
  intros b64 utf8 md5 keqv enc cred scheme rest ps method realm users S L K V.
  unfold check_auth. now rewrite (parse_digest_intro b64 utf8 keqv cred scheme rest ps S L K), V.
Qed.
Print Assumptions C20_malformed_digest_refused.

Theorem C20_digest_wrong_realm :
  forall b64 utf8 md5 keqv enc cred scheme rest ps method realm users u,
  split_at SP cred = Some (scheme, rest) -> lower scheme = s_digest -> keqv rest = Some ps ->
  lookup s_realm ps <> Some realm ->
  check_auth b64 utf8 md5 keqv enc (Some cred) method realm users <> Authd u.
Proof.
  intros b64 utf8 md5 keqv enc cred scheme rest ps method realm users u S L K R H.
  apply check_parsed in H. rewrite (parse_digest_intro b64 utf8 keqv _ _ _ _ S L K) in H.
  destruct (digest_valid ps), (has s_auth_scheme ps); try easy.
  now destruct H as (e & resp & _ & _ & R' & _).
Qed.
Print Assumptions C20_digest_wrong_realm.

(* no space or a scheme other than basic/digest: an exception (the handler fails) *)
Theorem C20_unknown_scheme : forall b64 utf8 md5 keqv enc cred method realm users,
  (forall scheme rest, split_at SP cred = Some (scheme, rest) ->
      lower scheme <> s_basic /\ lower scheme <> s_digest) ->
  check_auth b64 utf8 md5 keqv enc (Some cred) method realm users = Crash.
Proof.
  intros b64 utf8 md5 keqv enc cred method realm users H. unfold check_auth, parse_authorization.
  destruct (split_at SP cred) as [[scheme rest]|]; [|reflexivity].
  destruct (H scheme rest eq_refl) as [H1 H2].
  now destruct (str_eqb_spec (lower scheme) s_basic), (str_eqb_spec (lower scheme) s_digest).
Qed.
Print Assumptions C20_unknown_scheme.

(* the supported Digest variants, each with its request-digest formula spelled out
   (parse = PDigest ps: the header is `digest <params>` and the parameter set validates) *)

(* no qop (RFC 2069): response = H( H(u:realm:pw) : nonce : H(method:uri) ) *)
Theorem C20_digest_legacy :
  forall b64 utf8 md5 keqv enc cred ps method realm users u pw prealm nonce uri resp,
  parse_authorization b64 utf8 keqv cred = PDigest ps -> alg_md5 ps -> lookup s_qop ps = None ->
  lookup s_username ps = Some u -> lookup s_realm ps = Some prealm ->
  lookup s_nonce ps = Some nonce -> lookup s_uri ps = Some uri ->
  lookup s_response ps = Some resp -> users u = Some pw ->
  (check_auth b64 utf8 md5 keqv enc (Some cred) method realm users = Authd u <->
     prealm = realm /\ exists h1 h2,
       md5 (colon_join [u; prealm; pw]) = Some h1 /\ md5 (colon_join [method; uri]) = Some h2 /\
       md5 (colon_join [h1; colon_join [nonce; h2]]) = Some resp).
Proof.
  intros. rewrite check_digest_unfold by eassumption.
  erewrite digest_response_legacy by eassumption. now rewrite both_some.
Qed.
Print Assumptions C20_digest_legacy.

(* qop=auth, algorithm MD5 or absent:
   response = H( H(u:realm:pw) : nonce:nc:cnonce:auth : H(method:uri) ) *)
Theorem C20_digest_qop_auth :
  forall b64 utf8 md5 keqv enc cred ps method realm users u pw prealm nonce uri nc cn resp,
  parse_authorization b64 utf8 keqv cred = PDigest ps -> alg_md5 ps -> lookup s_qop ps = Some s_auth ->
  lookup s_username ps = Some u -> lookup s_realm ps = Some prealm ->
  lookup s_nonce ps = Some nonce -> lookup s_uri ps = Some uri ->
  lookup s_nc ps = Some nc -> lookup s_cnonce ps = Some cn ->
  lookup s_response ps = Some resp -> users u = Some pw ->
  (check_auth b64 utf8 md5 keqv enc (Some cred) method realm users = Authd u <->
     prealm = realm /\ exists h1 h2,
       md5 (colon_join [u; prealm; pw]) = Some h1 /\ md5 (colon_join [method; uri]) = Some h2 /\
       md5 (colon_join [h1; colon_join [nonce; nc; cn; s_auth; h2]]) = Some resp).
Proof.
  intros. rewrite check_digest_unfold by eassumption.
  erewrite digest_response_qop_auth by eassumption. now rewrite both_some.
Qed.
Print Assumptions C20_digest_qop_auth.

(* algorithm=MD5-sess, qop=auth:  A1 = H(u:realm:pw):nonce:cnonce,
   response = H( H(A1) : nonce:nc:cnonce:auth : H(method:uri) ) *)
Theorem C20_digest_md5_sess :
  forall b64 utf8 md5 keqv enc cred ps method realm users u pw prealm nonce uri nc cn resp,
  parse_authorization b64 utf8 keqv cred = PDigest ps ->
  lookup s_algorithm ps = Some s_MD5_sess -> lookup s_qop ps = Some s_auth ->
  lookup s_username ps = Some u -> lookup s_realm ps = Some prealm ->
  lookup s_nonce ps = Some nonce -> lookup s_uri ps = Some uri ->
  lookup s_nc ps = Some nc -> lookup s_cnonce ps = Some cn ->
  lookup s_response ps = Some resp -> users u = Some pw ->
  (check_auth b64 utf8 md5 keqv enc (Some cred) method realm users = Authd u <->
     prealm = realm /\ exists h h1 h2,
       md5 (colon_join [u; prealm; pw]) = Some h /\ md5 (colon_join [h; nonce; cn]) = Some h1 /\
       md5 (colon_join [method; uri]) = Some h2 /\
       md5 (colon_join [h1; colon_join [nonce; nc; cn; s_auth; h2]]) = Some resp).
Proof.
  intros. rewrite check_digest_unfold by eassumption.
  erewrite digest_response_md5_sess by eassumption. rewrite both_some.
  apply and_iff_compat_l. split.
  - intros (h & h2 & M & M2 & X).
    destruct (md5 (colon_join [h; nonce; cn])) as [h1|] eqn:M1; [|discriminate]. now exists h, h1, h2.
  - intros (h & h1 & h2 & M & M1 & M2 & X). exists h, h2. now rewrite M1.
Qed.
Print Assumptions C20_digest_md5_sess.

(* what _httpauth cannot compute (qop other than auth, e.g. auth-int; algorithm other than
   MD5 / MD5-sess, e.g. SHA1) has no response: an exception, never "authenticated" *)
Theorem C20_digest_unsupported : forall md5 ps pw method,
  (exists q, lookup s_qop ps = Some q /\ q <> s_auth) \/
  (exists a, lookup s_algorithm ps = Some a /\ a <> s_MD5 /\ a <> s_MD5_sess) ->
  digest_response md5 ps pw method = None.
Proof.
  intros md5 ps pw method [(q & Q & Hq)|(a & A & H1 & H2)]; unfold digest_response.
  - rewrite Q. destruct (negb _); [reflexivity|]. now destruct (str_eqb_spec q s_auth).
  - rewrite A. now destruct (str_eqb_spec a s_MD5), (str_eqb_spec a s_MD5_sess).
Qed.
Print Assumptions C20_digest_unsupported.

(* Basic against a dict or a callable (any function user -> entry) of possibly pre-encrypted
   passwords: the presented password goes through the configured encrypt *)
Theorem C20_basic_encrypted : forall b64 utf8 md5 keqv enc cred method realm users u p,
  parse_authorization b64 utf8 keqv cred = PBasic u p ->
  (check_auth b64 utf8 md5 keqv enc (Some cred) method realm users = Authd u <->
     exists e, users u = Some e /\ enc p u = Some e).
Proof.
  intros b64 utf8 md5 keqv enc cred method realm users u p P.
  rewrite check_parsed, P. tauto.
Qed.
Print Assumptions C20_basic_encrypted.

(* every pair of requests (any cookies, addresses, agents, uuids without '/'):
   if both are served the same session id they have the same client fingerprint *)
Theorem C20_session_pair : forall sha u1 r1 u2 r2,
  no_slash u1 -> no_slash u2 -> serve sha u1 r1 = serve sha u2 r2 -> who sha r1 = who sha r2.
Proof. exact same_sid_same_fingerprint. Qed.
Print Assumptions C20_session_pair.

(* every history from the empty store, every position: data seen by a request was written by
   an earlier request served the same id, from the same fingerprint *)
Theorem C20_session_binding : forall sha h1 r a u h2,
  Forall (fun x : req * action * str => no_slash (snd x)) (h1 ++ (r, a, u) :: h2) ->
  exists d,
    nth_error (run sha [] (h1 ++ (r, a, u) :: h2)) (length h1) = Some (serve sha u r, d) /\
    forall v, d = Some v ->
      exists r' u', In (r', Write v, u') h1 /\ serve sha u' r' = serve sha u r /\ who sha r' = who sha r.
Proof.
  intros sha. apply (session_binding_gen sha (fun x => no_slash (snd x))
                       (fun r' r => who sha r' = who sha r)).
  intros r' a' u' r a u U' U. now apply same_sid_same_fingerprint.
Qed.
Print Assumptions C20_session_binding.

(* a request not presenting an id that ends in its own fingerprint gets a newly created id;
   under uuid freshness that id is not in the store and carries no data *)
Theorem C20_session_others_fresh : forall sha u r s,
  (forall c h, cookie r = Some c -> split_at SLASH c <> Some (h, who sha r)) ->
  serve sha u r = create sha u r /\
  (fresh u s -> lookup (create sha u r) s = None /\ fst (load (create sha u r) s) = None).
Proof.
  intros sha u r s H. split; [now apply others_get_new_id|apply new_id_unused].
Qed.
Print Assumptions C20_session_others_fresh.

Theorem C20_session_data_needs_cookie : forall sha h1 r a u h2 d,
  nth_error (run sha [] (h1 ++ (r, a, u) :: h2)) (length h1) = Some (serve sha u r, Some d) ->
  fresh u (final sha [] h1) ->
  cookie r = Some (serve sha u r).
Proof.
  intros sha h1 r a u h2 d H F. rewrite run_nth in H. injection H as H.
  destruct (serve_cases sha u r) as [E|[C _]]; [|exact C].
  rewrite E, (proj2 (new_id_unused sha u r _ F)) in H. discriminate.
Qed.
Print Assumptions C20_session_data_needs_cookie.

(* The client as the (address, user agent) pair.  The hypothesis that makes "fingerprint" mean
   "pair" is explicit: the hash is injective (and an address contains no '|'). *)

(* no fingerprint collision (holds for who() = sha1(ip|agent); refuted below for sha1(ip agent)) *)
Theorem C20_session_fingerprint_collision : forall sha, injective sha -> forall r1 r2,
  no_sep (ip r1) -> no_sep (ip r2) -> who sha r1 = who sha r2 ->
  ip r1 = ip r2 /\ agent r1 = agent r2.
Proof. exact fingerprint_pair. Qed.
Print Assumptions C20_session_fingerprint_collision.

(* the formula of the unrepaired code: different pairs, one fingerprint, whatever the hash *)
Theorem C20_session_fingerprint_concat_refuted :
  exists ip1 a1 ip2 a2 : str, (ip1, a1) <> (ip2, a2) /\
    forall sha : str -> str, sha (ip1 ++ a1) = sha (ip2 ++ a2).
Proof.
  exists [49; 46; 49], [50; 85], [49; 46; 49; 50], [85]. split; [discriminate|reflexivity].
Qed.
Print Assumptions C20_session_fingerprint_concat_refuted.

Theorem C20_session_pair_client : forall sha, injective sha -> forall u1 r1 u2 r2,
  no_slash u1 -> no_slash u2 -> no_sep (ip r1) -> no_sep (ip r2) ->
  serve sha u1 r1 = serve sha u2 r2 -> ip r1 = ip r2 /\ agent r1 = agent r2.
Proof. exact same_sid_same_client. Qed.
Print Assumptions C20_session_pair_client.

(* data seen by a request was written by an earlier request from the same address with the
   same user agent, presenting / served the same id *)
Theorem C20_session_binding_client : forall sha, injective sha -> forall h1 r a u h2,
  Forall (fun x : req * action * str => no_slash (snd x) /\ no_sep (ip (fst (fst x))))
         (h1 ++ (r, a, u) :: h2) ->
  exists d,
    nth_error (run sha [] (h1 ++ (r, a, u) :: h2)) (length h1) = Some (serve sha u r, d) /\
    forall v, d = Some v ->
      exists r' u', In (r', Write v, u') h1 /\ serve sha u' r' = serve sha u r /\
                    ip r' = ip r /\ agent r' = agent r.
Proof.
  intros sha I. apply (session_binding_gen sha (fun x => no_slash (snd x) /\ no_sep (ip (fst (fst x))))
                         (fun r' r => ip r' = ip r /\ agent r' = agent r)).
  intros r' a' u' r a u [U' S'] [U S]. now apply same_sid_same_client.
Qed.
Print Assumptions C20_session_binding_client.

(* With a gateway list configured, a request from an address outside it is routed by its
   Host header alone: replacing its X-Forwarded-Host by anything changes nothing. *)
Theorem C20_gateway_untrusted : forall urljoin domains l r x,
  ~ In (remote_ip r) l ->
  on_request urljoin domains (Some l) (set_xfh r x) = on_request urljoin domains (Some l) r
  /\ domain (Some l) r = host r.
Proof. exact untrusted_ignored. Qed.
Print Assumptions C20_gateway_untrusted.

(* the same for a peer without an address (request.remote.ip = None, a UNIX-socket peer):
   untrusted unless the configured list names None itself *)
Theorem C20_gateway_addressless : forall urljoin domains l r x,
  remote_ip r = None -> ~ In None l ->
  on_request urljoin domains (Some l) (set_xfh r x) = on_request urljoin domains (Some l) r
  /\ domain (Some l) r = host r.
Proof. intros urljoin domains l r x Hn Hl. apply untrusted_ignored. now rewrite Hn. Qed.
Print Assumptions C20_gateway_addressless.

(* the looked-up domain is the forwarded host iff the sender is trusted (or no list is
   configured) and the first entry of the header is not blank; otherwise it is Host *)
Theorem C20_gateway_rule : forall tg r,
  (is_trusted tg (remote_ip r) /\ forwarded r <> [] -> domain tg r = forwarded r)
  /\ (~ (is_trusted tg (remote_ip r) /\ forwarded r <> []) -> domain tg r = host r).
Proof.
  intros tg r. rewrite <- trusted_iff. unfold domain.
  destruct (trusted tg r); [|now split; [intros [[=] _]|]].
  destruct (forwarded r) as [|c f]; split; try easy.
  intros H. destruct H. now split.
Qed.
Print Assumptions C20_gateway_rule.

Theorem C20_gateway_influence : forall urljoin domains tg r x,
  on_request urljoin domains tg (set_xfh r x) <> on_request urljoin domains tg r ->
  is_trusted tg (remote_ip r).
Proof.
  intros urljoin domains tg r x Hd. destruct tg as [l|]; simpl; [|exact I].
  destruct (mem_addr (remote_ip r) l) eqn:E; [now apply mem_addr_In|].
  destruct Hd. apply untrusted_ignored. rewrite <- mem_addr_In. congruence.
Qed.
Print Assumptions C20_gateway_influence.

(* "Basic x" decoding to a:p against {a: p} with encrypt=str *)
Example C20_ex_basic :
  check_auth (fun _ => Some [97; 58; 112]) (fun b => Some b) (fun s => Some s) (fun _ => None)
    (fun p _ => Some p) (Some [66; 97; 115; 105; 99; 32; 120]) [71; 69; 84] [82] (table_of [([97], [112])])
  = Authd [97].
Proof. vm_compute. reflexivity. Qed.

(* Digest with the identity as "hash": response = H(H(a:R:p):n:H(GET:/)) *)
Example C20_ex_digest :
  check_auth (fun _ => None) (fun b => Some b) (fun s => Some s)
    (fun _ => Some [(s_username, [97]); (s_realm, [82]); (s_nonce, [110]); (s_uri, [47]);
                    (s_response, [97; 58; 82; 58; 112; 58; 110; 58; 71; 69; 84; 58; 47])])
    default_enc (Some (s_digest ++ [32; 120])) [71; 69; 84] [82] (table_of [([97], [112])])
  = Authd [97].
Proof. vm_compute. reflexivity. Qed.

(* same header, user b absent from the table, client derives the password "None" *)
Example C20_ex_unknown_user :
  check_auth (fun _ => None) (fun b => Some b) (fun s => Some s)
    (fun _ => Some [(s_username, [98]); (s_realm, [82]); (s_nonce, [110]); (s_uri, [47]);
                    (s_response, [98; 58; 82; 58; 78; 111; 110; 101; 58; 110; 58; 71; 69; 84; 58; 47])])
    default_enc (Some (s_digest ++ [32; 120])) [71; 69; 84] [82] (table_of [([97], [112])])
  = Refused true.
Proof. vm_compute. reflexivity. Qed.

(* Digest username="a" only: refused *)
Example C20_ex_malformed :
  check_auth (fun _ => None) (fun b => Some b) (fun s => Some s) (fun _ => Some [(s_username, [97])])
    default_enc (Some (s_digest ++ [32; 120])) [71; 69; 84] [82] (table_of [([97], [112])])
  = Refused true.
Proof. vm_compute. reflexivity. Qed.

(* client A (ip 1, agent 2) stores 7; client B replays A's cookie and gets a new empty session;
   A gets its data back.  sha = identity. *)
Example C20_ex_session :
  run (fun s => s) []
    [ ({| cookie := None; ip := [1]; agent := [2] |}, Write 7, [100]);
      ({| cookie := Some [100; 47; 1; 124; 2]; ip := [3]; agent := [2] |}, Read, [101]);
      ({| cookie := Some [100; 47; 1; 124; 2]; ip := [1]; agent := [2] |}, Read, [102]) ]
  = [ ([100; 47; 1; 124; 2], None); ([101; 47; 3; 124; 2], None); ([100; 47; 1; 124; 2], Some 7) ].
Proof. vm_compute. reflexivity. Qed.

(* gateway 9 configured; X-Forwarded-Host "B" from address 8 is ignored, from 9 honoured *)
Example C20_ex_gateway :
  (on_request (fun a b => a ++ b) [([97], [120]); ([98], [121])] (Some [Some [57]])
     {| remote_ip := Some [56]; host := [97]; xfh := [66]; path := [47; 112] |},
   on_request (fun a b => a ++ b) [([97], [120]); ([98], [121])] (Some [Some [57]])
     {| remote_ip := Some [57]; host := [97]; xfh := [66]; path := [47; 112] |})
  = ([47; 120; 47; 112], [47; 121; 47; 112]).
Proof. vm_compute. reflexivity. Qed.

(* the identity is injective: the hypothesis of the client-level theorems is satisfiable *)
Example C20_ex_injective : injective (fun s => s).
Proof. intros a b H. exact H. Qed.

(* qop=auth with the identity as hash: H(a:R:p) : n:1:c:auth : H(GET:/) *)
Example C20_ex_digest_qop_auth :
  check_auth (fun _ => None) (fun b => Some b) (fun s => Some s)
    (fun _ => Some [(s_username, [97]); (s_realm, [82]); (s_nonce, [110]); (s_uri, [47]);
                    (s_qop, s_auth); (s_nc, [49]); (s_cnonce, [99]);
                    (s_response, [97; 58; 82; 58; 112; 58; 110; 58; 49; 58; 99; 58] ++ s_auth ++ [58; 71; 69; 84; 58; 47])])
    default_enc (Some (s_digest ++ [32; 120])) [71; 69; 84] [82] (table_of [([97], [112])])
  = Authd [97].
Proof. vm_compute. reflexivity. Qed.

(* MD5-sess: A1 = H(a:R:p):n:c *)
Example C20_ex_digest_md5_sess :
  check_auth (fun _ => None) (fun b => Some b) (fun s => Some s)
    (fun _ => Some [(s_username, [97]); (s_realm, [82]); (s_nonce, [110]); (s_uri, [47]);
                    (s_qop, s_auth); (s_nc, [49]); (s_cnonce, [99]); (s_algorithm, s_MD5_sess);
                    (s_response, [97; 58; 82; 58; 112; 58; 110; 58; 99; 58; 110; 58; 49; 58; 99; 58] ++ s_auth ++ [58; 71; 69; 84; 58; 47])])
    default_enc (Some (s_digest ++ [32; 120])) [71; 69; 84] [82] (table_of [([97], [112])])
  = Authd [97].
Proof. vm_compute. reflexivity. Qed.

(* an address-less peer (remote.ip = None, a UNIX socket) with gateways [9] / [] configured is ignored;
   only a list that names None trusts it *)
Example C20_ex_gateway_addressless :
  (on_request (fun a b => a ++ b) [([97], [120]); ([98], [121])] (Some [Some [57]])
     {| remote_ip := None; host := [97]; xfh := [66]; path := [47; 112] |},
   on_request (fun a b => a ++ b) [([97], [120]); ([98], [121])] (Some [])
     {| remote_ip := None; host := [97]; xfh := [66]; path := [47; 112] |},
   on_request (fun a b => a ++ b) [([97], [120]); ([98], [121])] (Some [None])
     {| remote_ip := None; host := [97]; xfh := [66]; path := [47; 112] |})
  = ([47; 120; 47; 112], [47; 120; 47; 112], [47; 121; 47; 112]).
Proof. vm_compute. reflexivity. Qed.

(* the EMPTY configured realm (challenge `Digest realm=""`) is a realm like any other:
   C20_digest_wrong_realm and C20_auth_sound quantify over every [realm : str], [] included.
   Right credentials made for realm "R" are refused by a resource whose realm is "" ... *)
Example C20_ex_empty_realm_foreign :
  check_auth (fun _ => None) (fun b => Some b) (fun s => Some s)
    (fun _ => Some [(s_username, [97]); (s_realm, [82]); (s_nonce, [110]); (s_uri, [47]);
                    (s_response, [97; 58; 82; 58; 112; 58; 110; 58; 71; 69; 84; 58; 47])])
    default_enc (Some (s_digest ++ [32; 120])) [71; 69; 84] [] (table_of [([97], [112])])
  = Refused true.
Proof. vm_compute. reflexivity. Qed.

(* ... and credentials made for realm "" (A1 = a::p) are accepted by it *)
Example C20_ex_empty_realm_own :
  check_auth (fun _ => None) (fun b => Some b) (fun s => Some s)
    (fun _ => Some [(s_username, [97]); (s_realm, []); (s_nonce, [110]); (s_uri, [47]);
                    (s_response, [97; 58; 58; 112; 58; 110; 58; 71; 69; 84; 58; 47])])
    default_enc (Some (s_digest ++ [32; 120])) [71; 69; 84] [] (table_of [([97], [112])])
  = Authd [97].
Proof. vm_compute. reflexivity. Qed.

(* the hypothesis of C20_digest_wrong_realm with the empty configured realm is satisfiable *)
Example C20_ex_wrong_realm_hyp : lookup s_realm [(s_realm, [82])] <> Some ([] : str).
Proof. vm_compute. discriminate. Qed.
